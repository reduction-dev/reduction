(* dkv/db.go as a state machine over the entry-level structures of LsmBase / LsmCompaction.
   Foreground: Put, Delete, Get, ScanPrefix (a read is two actions: the memtable snapshot, then the level-list
   snapshot - the order after repair D5 - with background actions possibly in between).
   Background: the flush task (F1: snapshot the sealed memtables and write their tables; F2: the locked swap
   that adds the tables to level 0 and dequeues the memtables) and the compaction task (C1: Compact on the
   current level list; C2: the locked swap applying the change set), with the serial-queue discipline of bg.TaskQueue.
   Definitions only. *)
From Coq Require Import List NArith Bool.
From RV Require Import Base.Bytes Model.LsmBase Model.LsmCompaction.
Import ListNotations.
Open Scope N_scope.

Record dbcfg := mkDbCfg {
  d_mem : N;      (* MemTableSize *)
  d_wal : N;      (* MaxWALSize *)
  d_levels : nat; (* number of levels (the code hard-wires 6) *)
  d_comp : ccfg
}.

Inductive ftask := FIdle | FSwap (snap : list table).
Inductive ctask := CIdle | CIter | CSwap (cs : changeset).
Inductive rtask := RNone | RGet (k : bytes) (m : option entry) | RScan (p : bytes) (m : table).

Record db := mkDb {
  mts : list table;   (* memtables, oldest first, the last is the active one *)
  msize : N;          (* MemTable.size of the active table *)
  walb : N;           (* bytes in the active WAL buffer *)
  lv : levels;
  seqn : N;
  fpend : nat;        (* flush tasks enqueued, not started *)
  ft : ftask;
  cpend : nat;        (* compaction tasks enqueued, not started *)
  ct : ctask;
  mcl : nat;          (* Compactor.minorCompactionLevel *)
  rd : rtask
}.

Definition init (cfg : dbcfg) : db :=
  mkDb [[]] 0 0 (repeat [] (d_levels cfg)) 0 0 FIdle 0 CIdle 0 RNone.

Inductive getres := GFound (v : bytes) | GDeleted | GAbsent.
Definition to_getres (o : option entry) : getres :=
  match o with None => GAbsent | Some e => if edel e then GDeleted else GFound (eval e) end.

Inductive act :=
| APut (k v : bytes) | ADel (k : bytes)
| AGet1 (k : bytes) | AGet2
| AScan1 (p : bytes) | AScan2
| AF1 | AF2 | AC1 | AC2
| AC1F. (* Compact fails with a storage read error: no change set, the compaction task ends with the error *)

Inductive obs :=
| ONone
| ORot (rotated : bool)
| OGet (r : getres)
| OScan (r : list (bytes * bytes))
| OComp (some : bool).

Definition active (st : db) : table := last (mts st) [].

(* DB.Put / DB.Delete: WAL append, memtable insert, rotateMemtable when either is full *)
Definition write (cfg : dbcfg) (st : db) (k v : bytes) (del : bool) : db * bool :=
  let s := seqn st + 1 in
  let e := mkE k s del v in
  let old := tbl_get k (active st) in
  let msz := msize st + flush_size e - match old with Some o => flush_size o | None => 0 end in
  let wb := walb st + 13 + blen k + (if del then 0 else 4 + blen v) in
  let mts' := removelast (mts st) ++ [mt_put e (active st)] in
  let full := (d_wal cfg <=? wb) || (d_mem cfg <? msz) in
  if full
  then (mkDb (mts' ++ [[]]) 0 0 (lv st) s (S (fpend st)) (ft st) (cpend st) (ct st) (mcl st) (rd st), true)
  else (mkDb mts' msz wb (lv st) s (fpend st) (ft st) (cpend st) (ct st) (mcl st) (rd st), false).

Definition kvs (t : table) : list (bytes * bytes) := map (fun e => (ekey e, eval e)) t.

Definition set_rd (st : db) (r : rtask) : db :=
  mkDb (mts st) (msize st) (walb st) (lv st) (seqn st) (fpend st) (ft st) (cpend st) (ct st) (mcl st) r.

(* None = the action is not enabled in this state *)
Definition step (cfg : dbcfg) (st : db) (a : act) : option (db * obs) :=
  match a with
  | APut k v => match rd st with RNone => let '(st', r) := write cfg st k v false in Some (st', ORot r) | _ => None end
  | ADel k => match rd st with RNone => let '(st', r) := write cfg st k [] true in Some (st', ORot r) | _ => None end
  | AGet1 k => match rd st with RNone => Some (set_rd st (RGet k (ml_get k (mts st))), ONone) | _ => None end
  | AGet2 =>
      match rd st with
      | RGet k m =>
          let r := match m with Some e => Some e | None => ll_get k (lv st) end in
          Some (set_rd st RNone, OGet (to_getres r))
      | _ => None
      end
  | AScan1 p => match rd st with RNone => Some (set_rd st (RScan p (ml_scan_entries p (mts st))), ONone) | _ => None end
  | AScan2 =>
      match rd st with
      | RScan p m =>
          Some (set_rd st RNone, OScan (kvs (without_deletes (merge_all [m; ll_scan_entries p (lv st)]))))
      | _ => None
      end
  | AF1 =>
      match ft st, fpend st with
      | FIdle, S n =>
          Some (mkDb (mts st) (msize st) (walb st) (lv st) (seqn st) n (FSwap (removelast (mts st)))
                     (cpend st) (ct st) (mcl st) (rd st), ONone)
      | _, _ => None
      end
  | AF2 =>
      match ft st with
      | FSwap snap =>
          Some (mkDb (skipn (length snap) (mts st)) (msize st) (walb st) (add_l0 snap (lv st)) (seqn st) (fpend st) FIdle
                     (S (cpend st)) (ct st) (mcl st) (rd st), ONone)
      | _ => None
      end
  | AC1 =>
      let run n :=
        let '(ocs, m) := compact table_size (d_comp cfg) (mcl st) (lv st) in
        Some (mkDb (mts st) (msize st) (walb st) (lv st) (seqn st) (fpend st) (ft st) n
                   (match ocs with Some cs => CSwap cs | None => CIdle end) m (rd st),
              OComp (match ocs with Some _ => true | None => false end)) in
      match ct st, cpend st with
      | CIdle, S n => run n
      | CIter, n => run n
      | _, _ => None
      end
  | AC2 =>
      match ct st with
      | CSwap cs =>
          Some (mkDb (mts st) (msize st) (walb st) (apply_cs cs (lv st)) (seqn st) (fpend st) (ft st) (cpend st) CIter
                     (mcl st) (rd st), ONone)
      | _ => None
      end
  | AC1F =>
      (* only a step that scans tables can fail, i.e. one for which Compact would have produced a change set; the cursor
         minorCompactionLevel is advanced before the merge, the task returns the error and is over *)
      let run n :=
        let '(ocs, m) := compact table_size (d_comp cfg) (mcl st) (lv st) in
        match ocs with
        | Some _ => Some (mkDb (mts st) (msize st) (walb st) (lv st) (seqn st) (fpend st) (ft st) n CIdle m (rd st), OComp false)
        | None => None
        end in
      match ct st, cpend st with
      | CIdle, S n => run n
      | CIter, n => run n
      | _, _ => None
      end
  end.

(* run a history; None = some action was not enabled *)
Fixpoint run (cfg : dbcfg) (st : db) (acts : list act) : option (db * list obs) :=
  match acts with
  | [] => Some (st, [])
  | a :: r =>
      match step cfg st a with
      | None => None
      | Some (st', o) => match run cfg st' r with None => None | Some (st'', os) => Some (st'', o :: os) end
      end
  end.

(* ---------- the specification: a sorted association list ---------- *)

Fixpoint sm_put (k v : bytes) (m : list (bytes * bytes)) : list (bytes * bytes) :=
  match m with
  | [] => [(k, v)]
  | (k', v') :: r => match bcmp k k' with
                     | Lt => (k, v) :: m
                     | Eq => (k, v) :: r
                     | Gt => (k', v') :: sm_put k v r
                     end
  end.
Fixpoint sm_del (k : bytes) (m : list (bytes * bytes)) : list (bytes * bytes) :=
  match m with
  | [] => []
  | (k', v') :: r => if beqb k' k then r else (k', v') :: sm_del k r
  end.
Definition sm_get (k : bytes) (m : list (bytes * bytes)) : option bytes :=
  match find (fun kv => beqb (fst kv) k) m with Some kv => Some (snd kv) | None => None end.
Definition sm_scan (p : bytes) (m : list (bytes * bytes)) : list (bytes * bytes) :=
  filter (fun kv => is_prefix p (fst kv)) m.

Definition spec_step (m : list (bytes * bytes)) (a : act) : list (bytes * bytes) :=
  match a with
  | APut k v => sm_put k v m
  | ADel k => sm_del k m
  | _ => m
  end.

(* ---------- table file names (sst.TableWriter) ----------
   The model identifies a table with its content; change sets remove tables by value, and the proofs DERIVE from layout
   validity that distinct tables of a layout differ as values (C18_Compact.level_unique, C18_Reader.mem_not_rem).  On the
   implementation side a table is a file NNNNNN.sst: TableWriter.Write reserves the number atomically (id.Add(1) - 1)
   before it writes anything, and the flush task and the compaction task share the writer.  [writes_of] = the number of
   tables a background half-step writes, [run_names] = the file numbers handed out along a history with the counter
   threaded through; Props/C07.table_file_names_unique: they are pairwise different for every interleaving.  The
   correspondence check observes the same on the storage.FileSystem the DB is given (code 19). *)
Fixpoint tw_names (ctr : N) (k : nat) : list N :=
  match k with O => [] | S k' => ctr :: tw_names (ctr + 1) k' end.

Definition writes_of (cfg : dbcfg) (st : db) (a : act) : nat :=
  match a with
  | AF1 => match ft st, fpend st with FIdle, S _ => length (removelast (mts st)) | _, _ => O end
  | AC1 | AC1F =>
      match fst (compact table_size (d_comp cfg) (mcl st) (lv st)) with Some cs => length (cs_add cs) | None => O end
  | _ => O
  end.

Fixpoint run_names (cfg : dbcfg) (st : db) (ctr : N) (acts : list act) : list N :=
  match acts with
  | [] => []
  | a :: r =>
      match step cfg st a with
      | None => []
      | Some (st', _) =>
          let k := writes_of cfg st a in
          tw_names ctr k ++ run_names cfg st' (ctr + N.of_nat k) r
      end
  end.
