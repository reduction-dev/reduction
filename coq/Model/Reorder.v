(* Model of /repo/batching/reorder_fetcher.go (ReorderFetcher) and /repo/batching/reorder_buffer.go (ReorderBuffer) on top of
   Model/Batcher.v. Definitions only.

   Threads (goroutines) and their atomic actions:
     adder      the one goroutine calling ReorderFetcher.Add / Flush: runs a script of calls; Add x = batcher.Add (atomic, under the
                batcher mutex); IsFull (atomic); if full: flush(CurrentBatch)
     time-out   the goroutine started by NewReorderFetcher: receives from BatchTimedOut, then flush(CurrentBatch)
                (the received token is ignored by the code: it always flushes the current batch)
     timer      ATimerFire: a timer callback starts (needs a callback set on the timer) and blocks sending its token on the unbuffered
                channel BatchTimedOut (inflight); it may be received long after the batch it was set for was flushed
     fetch i    one goroutine per reserved batch: AComplete i = FetchBatch returns and buffer.Add(seq, result) (under the buffer mutex;
                a Go map assignment: overwrites); ADrain i = the whole Drain loop, which runs under the buffer mutex and sends every
                consecutive item to Output (the consumer is assumed always willing to receive; out = everything sent so far).
   flush(CurrentBatch), program counters:
     PFlush        [repaired code: flushMu.Lock, possible only when free]; events := batcher.Flush(CurrentBatch); empty => unlock, return
     PReserve ev   the hook point reorder.flush.between; then `reserved <- struct{}{}` (blocks while max_items slots are reserved)
     PRead ev      seq := nextSeqNum           (unsynchronised read)
     PInc ev seq   r := nextSeqNum             (nextSeqNum++ is a read ...
     PWrite ev seq r   nextSeqNum = r+1        ... and a write); [flushMu.Unlock]; go fetch goroutine (seq, ev)
   rp_fixed = false is the code before commit 71bc8cf (no flushMu), rp_fixed = true the repaired code.
   Lock acquisition is merged with the first action under the lock and release with the last (both only restrict other lockers).
   Abstractions: uint64 sequence numbers and the channel count as nat (reachable values are numbers of batches);
   ghosts: added (items given to batcher.Add so far), flushed (non-empty batches in the order batcher.Flush handed them out). *)
From Coq Require Import List NArith ZArith Bool Arith.
From RV Require Import Model.Batcher.
Import ListNotations.

Section Reorder.
Context {T R : Type}.
Variable fetch : list T -> list R.

Inductive aop := AddOp (x : T) | FlushOp.

Inductive pc :=
| PIdle | PAdded | PFlush
| PReserve (ev : list T) | PRead (ev : list T) | PInc (ev : list T) (seq : nat) | PWrite (ev : list T) (seq r : nat).

Inductive fstage := Fetching | Added.
Record fetcher := mkF { f_seq : nat; f_ev : list T; f_stage : fstage }.

Record rparams := mkRP { rp_b : bparams; rp_buf : N; rp_fixed : bool }.
Definition max_items (p : rparams) : nat := if N.eqb (rp_buf p) 0 then 1 else N.to_nat (rp_buf p).

Record rstate := mkR {
  bt : bstate T;
  script : list aop;
  apc : pc;
  tpc : pc;
  inflight : nat;
  flock : bool;
  reserved : nat;
  nextseq : nat;
  drained : nat;
  items : list (nat * list R);
  fetchers : list fetcher;
  out : list R;
  added : list T;
  flushed : list (list T)
}.

Definition r_init (sc : list aop) : rstate := mkR b_init sc PIdle PIdle 0 false 0 0 0 [] [] [] [] [].

Definition set_apc c s := mkR (bt s) (script s) c (tpc s) (inflight s) (flock s) (reserved s) (nextseq s) (drained s) (items s) (fetchers s) (out s) (added s) (flushed s).
Definition set_tpc c s := mkR (bt s) (script s) (apc s) c (inflight s) (flock s) (reserved s) (nextseq s) (drained s) (items s) (fetchers s) (out s) (added s) (flushed s).
Definition set_inflight n s := mkR (bt s) (script s) (apc s) (tpc s) n (flock s) (reserved s) (nextseq s) (drained s) (items s) (fetchers s) (out s) (added s) (flushed s).
Definition set_reserved n s := mkR (bt s) (script s) (apc s) (tpc s) (inflight s) (flock s) n (nextseq s) (drained s) (items s) (fetchers s) (out s) (added s) (flushed s).

(* ---- the map of the reorder buffer ---- *)
Fixpoint lookup (k : nat) (m : list (nat * list R)) : option (list R) :=
  match m with
  | [] => None
  | (k', v) :: m' => if Nat.eqb k k' then Some v else lookup k m'
  end.
Fixpoint remove_key (k : nat) (m : list (nat * list R)) : list (nat * list R) :=
  match m with
  | [] => []
  | (k', v) :: m' => if Nat.eqb k k' then remove_key k m' else (k', v) :: remove_key k m'
  end.
Definition put (k : nat) (v : list R) (m : list (nat * list R)) := (k, v) :: remove_key k m.

(* Drain: while items[drainedSeqNum] exists: delete it, drainedSeqNum++, <-reserved, yield it (sent to Output). *)
Fixpoint drain_loop (fuel d : nat) (its : list (nat * list R)) (res : nat) (o : list R) : nat * list (nat * list R) * nat * list R :=
  match fuel with
  | O => (d, its, res, o)
  | S fuel' =>
      match lookup d its with
      | Some r => drain_loop fuel' (S d) (remove_key d its) (Nat.pred res) (o ++ r)
      | None => (d, its, res, o)
      end
  end.

(* ---- flush(CurrentBatch) of either flusher ---- *)
Definition flush_step (p : rparams) (c : pc) (s : rstate) : option (pc * rstate) :=
  match c with
  | PFlush =>
      if rp_fixed p && flock s then None
      else
        let r := b_flush current_batch (bt s) in
        if is_nil (fst r) then Some (PIdle, s)
        else Some (PReserve (fst r),
                   mkR (snd r) (script s) (apc s) (tpc s) (inflight s) (rp_fixed p) (reserved s) (nextseq s) (drained s)
                       (items s) (fetchers s) (out s) (added s) (flushed s ++ [fst r]))
  | PReserve ev =>
      if Nat.ltb (reserved s) (max_items p) then Some (PRead ev, set_reserved (S (reserved s)) s) else None
  | PRead ev => Some (PInc ev (nextseq s), s)
  | PInc ev seq => Some (PWrite ev seq (nextseq s), s)
  | PWrite ev seq r =>
      Some (PIdle,
            mkR (bt s) (script s) (apc s) (tpc s) (inflight s) false (reserved s) (S r) (drained s)
                (items s) (fetchers s ++ [mkF seq ev Fetching]) (out s) (added s) (flushed s))
  | PIdle | PAdded => None
  end.

Definition adder_step (p : rparams) (s : rstate) : option rstate :=
  match apc s with
  | PIdle =>
      match script s with
      | [] => None
      | AddOp x :: sc =>
          Some (mkR (b_add (rp_b p) x (bt s)) sc PAdded (tpc s) (inflight s) (flock s) (reserved s) (nextseq s) (drained s)
                    (items s) (fetchers s) (out s) (added s ++ [x]) (flushed s))
      | FlushOp :: sc =>
          Some (mkR (bt s) sc PFlush (tpc s) (inflight s) (flock s) (reserved s) (nextseq s) (drained s)
                    (items s) (fetchers s) (out s) (added s) (flushed s))
      end
  | PAdded => Some (set_apc (if b_full (rp_b p) (bt s) then PFlush else PIdle) s)
  | c => match flush_step p c s with Some (c', s') => Some (set_apc c' s') | None => None end
  end.

Definition timeout_step (p : rparams) (s : rstate) : option rstate :=
  match tpc s with
  | PIdle => match inflight s with O => None | S n => Some (set_tpc PFlush (set_inflight n s)) end
  | PAdded => None
  | c => match flush_step p c s with Some (c', s') => Some (set_tpc c' s') | None => None end
  end.

Definition timer_fire (s : rstate) : option rstate :=
  match armed (bt s) with Some _ => Some (set_inflight (S (inflight s)) s) | None => None end.

Fixpoint set_nth {A} (i : nat) (x : A) (l : list A) : list A :=
  match l, i with
  | [], _ => []
  | _ :: l', O => x :: l'
  | y :: l', S i' => y :: set_nth i' x l'
  end.
Fixpoint del_nth {A} (i : nat) (l : list A) : list A :=
  match l, i with
  | [], _ => []
  | _ :: l', O => l'
  | y :: l', S i' => y :: del_nth i' l'
  end.

Definition complete_step (i : nat) (s : rstate) : option rstate :=
  match nth_error (fetchers s) i with
  | Some (mkF seq ev Fetching) =>
      Some (mkR (bt s) (script s) (apc s) (tpc s) (inflight s) (flock s) (reserved s) (nextseq s) (drained s)
                (put seq (fetch ev) (items s)) (set_nth i (mkF seq ev Added) (fetchers s)) (out s) (added s) (flushed s))
  | _ => None
  end.

Definition drain_step (i : nat) (s : rstate) : option rstate :=
  match nth_error (fetchers s) i with
  | Some (mkF seq ev Added) =>
      match drain_loop (S (length (items s))) (drained s) (items s) (reserved s) (out s) with
      | (d, its, res, o) =>
          Some (mkR (bt s) (script s) (apc s) (tpc s) (inflight s) (flock s) res (nextseq s) d
                    its (del_nth i (fetchers s)) o (added s) (flushed s))
      end
  | _ => None
  end.

Inductive action := AAdder | ATimeout | ATimerFire | AComplete (i : nat) | ADrain (i : nat).

Definition step_opt (p : rparams) (a : action) (s : rstate) : option rstate :=
  match a with
  | AAdder => adder_step p s
  | ATimeout => timeout_step p s
  | ATimerFire => timer_fire s
  | AComplete i => complete_step i s
  | ADrain i => drain_step i s
  end.

(* a disabled action leaves the state unchanged, so `run` is defined for EVERY action list *)
Definition step (p : rparams) (a : action) (s : rstate) : rstate :=
  match step_opt p a s with Some s' => s' | None => s end.

Definition run (p : rparams) (acts : list action) (s : rstate) : rstate := fold_left (fun s a => step p a s) acts s.

Definition pc_idle (c : pc) : bool := match c with PIdle => true | _ => false end.

(* all work handed to the fetcher so far has been carried through *)
Definition quiescent (s : rstate) : bool :=
  is_nil (script s) && pc_idle (apc s) && pc_idle (tpc s) && is_nil (fetchers s).

Fixpoint is_prefix_of {A} (eqb : A -> A -> bool) (a b : list A) : bool :=
  match a, b with
  | [], _ => true
  | x :: a', y :: b' => eqb x y && is_prefix_of eqb a' b'
  | _ :: _, [] => false
  end.

End Reorder.
Arguments rstate : clear implicits.
Arguments aop : clear implicits.
Arguments pc : clear implicits.
Arguments fetcher : clear implicits.

(* ---- fetch errors ----
   FetchBatch returns (results, err). The fetch goroutine of ReorderFetcher.flush does
       result, err := d.fetchBatch(ctx, events); if err != nil { d.errChan <- err }; d.buffer.Add(seqNum, result); drain
   so a failed fetch REPORTS its error and then still fills its slot with whatever results came back with the error (nil, partial
   or complete): the "result" of a failed batch is what FetchBatch returned, and later batches are not held up.
   Model: the outcome of fetching a batch is FOk results | FErr returned_results; the step functions above run with
   fetch := results of the outcome; the layer below records the batches whose fetch has completed, in completion order
   (x_done), from which the errors sent on ErrChan are read off (x_errs). Sending the error is merged with buffer.Add into
   AComplete (the consumer of ErrChan is assumed always willing, like the consumer of Output). *)
Section ReorderErrors.
Context {T R : Type}.

Inductive outcome := FOk (res : list R) | FErr (returned : list R).
Definition results (o : outcome) : list R := match o with FOk r => r | FErr r => r end.
Definition is_err (o : outcome) : bool := match o with FOk _ => false | FErr _ => true end.

Variable fetchx : list T -> outcome.
Definition fetch_of : list T -> list R := fun ev => results (fetchx ev).
Definition failed (ev : list T) : bool := is_err (fetchx ev).

Record rxstate := mkRX { rx : rstate T R; x_done : list (list T) }.

Definition completing (i : nat) (s : rstate T R) : list (list T) :=
  match nth_error (fetchers s) i with
  | Some (mkF _ ev Fetching) => [ev]
  | _ => []
  end.

Definition x_step (p : rparams) (a : action) (xs : rxstate) : rxstate :=
  mkRX (step fetch_of p a (rx xs))
       (x_done xs ++ match a with AComplete i => completing i (rx xs) | _ => [] end).

Definition x_run (p : rparams) (acts : list action) (xs : rxstate) : rxstate := fold_left (fun xs a => x_step p a xs) acts xs.
Definition x_init (sc : list (aop T)) : rxstate := mkRX (r_init sc) [].

(* the errors sent on ErrChan so far, as the batches they belong to, in the order sent *)
Definition x_errs (xs : rxstate) : list (list T) := filter failed (x_done xs).

End ReorderErrors.
Arguments outcome : clear implicits.
Arguments rxstate : clear implicits.

(* ---- per-call contexts ----
   ReorderFetcher.Add(ctx, x) and Flush(ctx) take the caller's context. The code does not consult it when it decides to flush:
   batcher.Add, IsFull, batcher.Flush and buffer.Reserve run whatever its state; flush only hands it on to the fetch goroutine,
   `d.fetchBatch(ctx, events)`. So a batch is fetched with the context of the CALL THAT TRIGGERED ITS FLUSH (the Add that filled
   it, or the explicit Flush), time-out flushes with the context given to NewReorderFetcher; what a cancelled context means is up to
   FetchBatch (its outcome fills the slot like any other outcome, see ReorderErrors above).
   The layer below is a ghost over the step functions, which are unchanged: every call of the adder script carries a flag
   (true = its context is already cancelled), c_log lists, for every batch handed out (aligned with `flushed`), the flag FetchBatch
   receives. Because every batch is fetched exactly once, an outcome that depends on the context received is still a function of
   the batch as an occurrence, which is what the theorems quantify over (fetchx). *)
Section ReorderContexts.
Context {T R : Type}.
Variable fetch : list T -> list R.

Record rcstate := mkRC {
  rc : rstate T R;
  c_calls : list bool;      (* flags of the calls of the script not yet started, parallel to `script` *)
  c_cur : bool;             (* flag of the adder's call in progress *)
  c_log : list bool         (* per batch handed out: the flag its FetchBatch receives *)
}.

Definition c_step (p : rparams) (a : action) (cs : rcstate) : rcstate :=
  let s := rc cs in
  let s' := step fetch p a s in
  (* the adder starts its next call *)
  let starts := match a, apc s, script s with AAdder, PIdle, _ :: _ => true | _, _, _ => false end in
  let cur := if starts then hd false (c_calls cs) else c_cur cs in
  let calls := if starts then tl (c_calls cs) else c_calls cs in
  (* a batch was taken from the batcher by this action: by the adder (its call's context) or by the time-out goroutine (live) *)
  let grew := Nat.ltb (length (flushed s)) (length (flushed s')) in
  let flag := match a with AAdder => cur | _ => false end in
  mkRC s' calls cur (c_log cs ++ if grew then [flag] else []).

Definition c_run (p : rparams) (acts : list action) (cs : rcstate) : rcstate := fold_left (fun cs a => c_step p a cs) acts cs.
Definition c_init (sc : list (aop T * bool)) : rcstate := mkRC (r_init (map fst sc)) (map snd sc) false [].

End ReorderContexts.
Arguments rcstate : clear implicits.

(* ---- served time-outs (ghost) ----
   m_mark = how many inputs had been accepted when the timer last expired (ATimerFire enabled). The time-out goroutine of the
   current code WAITS for flushMu (Lock, the PFlush step is disabled while the lock is held, never skipped), so once that expiry
   has been received and served, all those inputs have been handed out (Props/C20.v: expired_batch_flushed). *)
Section ReorderMarks.
Context {T R : Type}.
Variable fetch : list T -> list R.
Record rmstate := mkRM { rm : rstate T R; m_mark : nat }.
Definition m_step (p : rparams) (a : action) (ms : rmstate) : rmstate :=
  let s := rm ms in
  mkRM (step fetch p a s)
       (match a, armed (bt s) with ATimerFire, Some _ => length (added s) | _, _ => m_mark ms end).
Definition m_run (p : rparams) (acts : list action) (ms : rmstate) : rmstate := fold_left (fun ms a => m_step p a ms) acts ms.
Definition m_init (sc : list (aop T)) : rmstate := mkRM (r_init sc) 0.
End ReorderMarks.
Arguments rmstate : clear implicits.
