(* Machine integers as N with the wrap written out.  Go's uint8/16/32/64 arithmetic is
   arithmetic modulo 2^k; [wrap k] is implemented with [N.land] (3x faster under vm_compute
   than [N.modulo]) and proved equal to [mod 2^k] once, below. *)
From Coq Require Export NArith ZArith List Lia Bool.
From Coq Require Import ZifyN ZifyNat ZifyBool.
Export ListNotations.
Open Scope N_scope.

Definition wrap (k : N) (x : N) : N := N.land x (N.ones k).

Lemma wrap_mod k x : wrap k x = x mod 2 ^ k.
Proof. unfold wrap. apply N.land_ones. Qed.

Lemma wrap_lt k x : wrap k x < 2 ^ k.
Proof. rewrite wrap_mod. apply N.mod_lt. apply N.pow_nonzero. discriminate. Qed.

Lemma wrap_small k x : x < 2 ^ k -> wrap k x = x.
Proof. intros H. rewrite wrap_mod. apply N.mod_small. exact H. Qed.

Definition u8 := wrap 8.
Definition u16 := wrap 16.
Definition u32 := wrap 32.
Definition u64 := wrap 64.

Lemma u32_small x : x < 2 ^ 32 -> u32 x = x.
Proof. apply wrap_small. Qed.

Definition add32 (a b : N) := u32 (a + b).
Definition mul32 (a b : N) := u32 (a * b).
(* exclusive or and right shift need no wrap: on operands below 2^32 the result is below 2^32 *)
Definition xor32 (a b : N) := N.lxor a b.
Definition shl32 (a n : N) := u32 (N.shiftl a n).
Definition shr32 (a n : N) := N.shiftr a n.
(* bits.RotateLeft32 for 0 < n < 32 on a value < 2^32 *)
Definition rotl32 (a n : N) := N.lor (shl32 a n) (N.shiftr a (32 - n)).

(* big-endian / little-endian encodings of fixed width, as byte lists (most significant first for BE) *)
Definition be16 (x : N) : list N := [N.shiftr x 8 mod 256; x mod 256].
Definition be32 (x : N) : list N :=
  [N.shiftr x 24 mod 256; N.shiftr x 16 mod 256; N.shiftr x 8 mod 256; x mod 256].
Definition be64 (x : N) : list N :=
  [N.shiftr x 56 mod 256; N.shiftr x 48 mod 256; N.shiftr x 40 mod 256; N.shiftr x 32 mod 256;
   N.shiftr x 24 mod 256; N.shiftr x 16 mod 256; N.shiftr x 8 mod 256; x mod 256].
Definition le32 (x : N) : list N := rev (be32 x).
Definition le64 (x : N) : list N := rev (be64 x).

Definition be_decode (bs : list N) : N := fold_left (fun acc b => acc * 256 + b) bs 0.
Definition le_decode (bs : list N) : N := be_decode (rev bs).

(* the bytes above the width are zero *)
Lemma shiftr_width x k : x < 2 ^ k -> N.shiftr x k = 0.
Proof. intros H. rewrite N.shiftr_div_pow2. apply N.div_small, H. Qed.

(* the [n] low bytes of [x], most significant first: [be16], [be32], [be64] are [be_bytes 2], [4], [8] by conversion *)
Definition be_bytes (n : nat) (x : N) : list N :=
  map (fun k => N.shiftr x (8 * N.of_nat k) mod 256) (rev (seq 0 n)).

Lemma be_bytes_S n x : be_bytes (S n) x = be_bytes n (N.shiftr x 8) ++ [x mod 256].
Proof.
  unfold be_bytes. rewrite <- cons_seq, <- seq_shift. cbn [rev map]. rewrite map_app, map_rev, map_map. cbn [map].
  f_equal. rewrite <- map_rev. apply map_ext. intros k. rewrite N.shiftr_shiftr. f_equal. f_equal. lia.
Qed.

Lemma be_decode_snoc l b : be_decode (l ++ [b]) = be_decode l * 256 + b.
Proof. unfold be_decode. rewrite fold_left_app. reflexivity. Qed.

Theorem be_decode_bytes n : forall x, be_decode (be_bytes n x) = x mod 2 ^ (8 * N.of_nat n).
Proof.
  induction n as [|n IH]; intros x.
  - cbn. rewrite N.mod_1_r. reflexivity.
  - (* the last byte is x mod 256, the bytes before it encode x / 256 *)
    rewrite be_bytes_S, be_decode_snoc, IH, N.shiftr_div_pow2.
    replace (2 ^ (8 * N.of_nat (S n))) with (2 ^ 8 * 2 ^ (8 * N.of_nat n)) by (rewrite <- N.pow_add_r; f_equal; lia).
    rewrite N.mod_mul_r by (try apply N.pow_nonzero; discriminate). change (2 ^ 8) with 256. lia.
Qed.

Lemma be16_decode x : x < 65536 -> be_decode (be16 x) = x.
Proof. intros H. apply (eq_trans (be_decode_bytes 2 x)), N.mod_small, H. Qed.

Lemma be32_decode x : x < 2 ^ 32 -> be_decode (be32 x) = x.
Proof. intros H. apply (eq_trans (be_decode_bytes 4 x)), N.mod_small, H. Qed.

Lemma be64_decode x : x < 2 ^ 64 -> be_decode (be64 x) = x.
Proof. intros H. apply (eq_trans (be_decode_bytes 8 x)), N.mod_small, H. Qed.

(* an encoding that [be_decode] reads back is injective where it does *)
Lemma decode_inj (enc : N -> list N) (P : N -> Prop) :
  (forall x, P x -> be_decode (enc x) = x) -> forall a b, P a -> P b -> enc a = enc b -> a = b.
Proof. intros D a b Ha Hb E. rewrite <- (D a Ha), <- (D b Hb), E. reflexivity. Qed.
