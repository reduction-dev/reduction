(* Byte strings: [list N] whose elements are < 256; lexicographic order = Go's bytes.Compare;
   [is_prefix] = bytes.HasPrefix. *)
From RV Require Export Base.Mach.
From RV Require Import Base.Lists.
Open Scope N_scope.

Definition bytes := list N.
Definition wf_bytes (b : bytes) : Prop := Forall (fun x => x < 256) b.
Definition wf_bytesb (b : bytes) : bool := forallb (fun x => x <? 256) b.

Fixpoint bcmp (a b : bytes) : comparison :=
  match a, b with
  | [], [] => Eq
  | [], _ :: _ => Lt
  | _ :: _, [] => Gt
  | x :: a', y :: b' => match x ?= y with Eq => bcmp a' b' | c => c end
  end.

Definition bltb (a b : bytes) : bool := match bcmp a b with Lt => true | _ => false end.
Definition bleb (a b : bytes) : bool := match bcmp a b with Gt => false | _ => true end.
Definition beqb (a b : bytes) : bool := match bcmp a b with Eq => true | _ => false end.

Fixpoint is_prefix (p b : bytes) : bool :=
  match p, b with
  | [], _ => true
  | _ :: _, [] => false
  | x :: p', y :: b' => (x =? y) && is_prefix p' b'
  end.

Lemma bcmp_refl a : bcmp a a = Eq.
Proof. induction a as [|x a IH]; cbn; [reflexivity|]. rewrite N.compare_refl. exact IH. Qed.

Lemma bcmp_eq a b : bcmp a b = Eq <-> a = b.
Proof.
  split.
  - revert b; induction a as [|x a IH]; intros [|y b]; cbn; try discriminate; [reflexivity|].
    destruct (x ?= y) eqn:E; try discriminate. apply N.compare_eq in E. intros H. f_equal; auto.
  - intros ->. apply bcmp_refl.
Qed.

Lemma bcmp_antisym a b : bcmp b a = CompOpp (bcmp a b).
Proof.
  revert b; induction a as [|x a IH]; intros [|y b]; cbn; try reflexivity.
  rewrite (N.compare_antisym x y). destruct (x ?= y); cbn; auto.
Qed.

Lemma bcmp_lt_trans a b c : bcmp a b = Lt -> bcmp b c = Lt -> bcmp a c = Lt.
Proof.
  (* an empty string among the three decides at once; otherwise compare the heads x, y, z *)
  revert b c; induction a as [|x a IH]; intros [|y b] [|z c]; cbn; try discriminate; try reflexivity.
  destruct (x ?= y) eqn:Exy; try discriminate.
  - (* x = y: the second comparison decides, or the tails do *)
    apply N.compare_eq in Exy; subst y. destruct (x ?= z); try discriminate; eauto.
  - (* x < y *)
    intros _. destruct (y ?= z) eqn:Eyz; try discriminate.
    + (* y = z *) apply N.compare_eq in Eyz; subst z. rewrite Exy. reflexivity.
    + (* y < z *) intros _. rewrite N.compare_lt_iff in *. assert (x < z) by lia.
      rewrite (proj2 (N.compare_lt_iff x z)); auto.
Qed.

Lemma bcmp_gt_lt a b : bcmp a b = Gt -> bcmp b a = Lt.
Proof. intros H. rewrite bcmp_antisym, H. reflexivity. Qed.

Lemma bcmp_spec a b : CompareSpec (a = b) (bcmp a b = Lt) (bcmp b a = Lt) (bcmp a b).
Proof.
  destruct (bcmp a b) eqn:E; constructor; [apply bcmp_eq, E | reflexivity | apply bcmp_gt_lt, E].
Qed.

Lemma bcmp_app_len a1 b1 a2 b2 : length a1 = length b1 ->
  bcmp (a1 ++ a2) (b1 ++ b2) = match bcmp a1 b1 with Eq => bcmp a2 b2 | c => c end.
Proof.
  revert b1. induction a1 as [|x a1 IH]; intros [|y b1] Hl; try discriminate; [reflexivity|].
  injection Hl as Hl. cbn. destruct (x ?= y); auto.
Qed.

Lemma bcmp_app_same p a b : bcmp (p ++ a) (p ++ b) = bcmp a b.
Proof. rewrite bcmp_app_len, bcmp_refl; reflexivity. Qed.

Lemma beqb_eq a b : beqb a b = true <-> a = b.
Proof. unfold beqb. rewrite <- bcmp_eq. destruct (bcmp a b); split; congruence. Qed.

Lemma beqb_refl a : beqb a a = true.
Proof. apply beqb_eq. reflexivity. Qed.

Lemma beqb_false a b : beqb a b = false <-> a <> b.
Proof. rewrite <- beqb_eq. destruct (beqb a b); split; congruence. Qed.

Lemma beqb_lt a b : bcmp a b = Lt -> beqb a b = false.
Proof. unfold beqb. intros ->. reflexivity. Qed.

Lemma existsb_beqb_In k l : existsb (beqb k) l = true <-> In k l.
Proof. apply (existsb_eqb_In beqb beqb_eq). Qed.

Lemma beqb_sym a b : beqb a b = beqb b a.
Proof. unfold beqb. rewrite (bcmp_antisym a b). destruct (bcmp a b); reflexivity. Qed.

Lemma bltb_lt a b : bltb a b = true <-> bcmp a b = Lt.
Proof. unfold bltb. destruct (bcmp a b); split; congruence. Qed.

Lemma bleb_true a b : bleb a b = true <-> (a = b \/ bcmp a b = Lt).
Proof. unfold bleb. rewrite <- bcmp_eq. destruct (bcmp a b); split; auto; try discriminate; intros [H|H]; discriminate. Qed.

Lemma bleb_false a b : bleb a b = false <-> bcmp b a = Lt.
Proof. unfold bleb. rewrite (bcmp_antisym a b). destruct (bcmp a b); split; auto; discriminate. Qed.

Lemma is_prefix_app p b : is_prefix p (p ++ b) = true.
Proof. induction p as [|x p IH]; cbn; [reflexivity|]. rewrite N.eqb_refl. exact IH. Qed.

Lemma is_prefix_refl p : is_prefix p p = true.
Proof. rewrite <- (app_nil_r p) at 2. apply is_prefix_app. Qed.

Lemma is_prefix_spec p b : is_prefix p b = true <-> exists s, b = p ++ s.
Proof.
  split.
  - revert b; induction p as [|x p IH]; intros b H; cbn in *.
    + exists b; reflexivity.
    + destruct b as [|y b]; [discriminate|]. apply andb_true_iff in H as [H1 H2].
      apply N.eqb_eq in H1; subst y. destruct (IH _ H2) as [s ->]. exists s; reflexivity.
  - intros [s ->]. apply is_prefix_app.
Qed.

Lemma prefix_ge p x : is_prefix p x = true -> bcmp x p <> Lt.
Proof.
  revert x. induction p as [|a p IH]; intros [|b x] H; cbn [is_prefix bcmp] in *; try discriminate.
  apply andb_true_iff in H as [->%N.eqb_eq H]. rewrite N.compare_refl. apply IH, H.
Qed.

(* the strings with prefix p are contiguous in the order: what lies between p and one of them has the prefix *)
Lemma prefix_convex p x y :
  is_prefix p y = true -> bcmp x p <> Lt -> bcmp x y <> Gt -> is_prefix p x = true.
Proof.
  revert x y. induction p as [|a p IH]; intros x y Hy Hxp Hxy; [reflexivity|].
  destruct y as [|b y]; cbn [is_prefix] in Hy; [discriminate|].
  apply andb_true_iff in Hy as [->%N.eqb_eq Hy].
  destruct x as [|c x]; cbn [bcmp] in Hxp; [congruence|].
  cbn [bcmp] in Hxy. cbn [is_prefix]. rewrite N.eqb_compare, (N.compare_antisym c b).
  destruct (c ?= b); cbn [CompOpp] in *; [eapply IH; eassumption | congruence | congruence].
Qed.
