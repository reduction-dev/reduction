(* Lists strictly ascending by a byte-string key ([asc]): the sorted association lists, memtables, key lists and btree
   specifications of Model/ are all of this kind, each with its own element type and its own copy of the functions.
   [kget] is the lookup by key, [kput] replace-or-insert, [kdel] the delete that stops at the first greater key; an
   ascending list is determined by its elements, hence by its lookups ([asc_unique], [asc_ext]).
   How the models' copies are tied to the functions here:
     by conversion (same body, the model's element type)  | by one induction, stated in the file that uses it
     LsmBase.mt_put, tbl_get, sortedb      (key := ekey)  | StateStore.sm_put / sm_del, Lsm.sm_put / sm_del,
     TimerStore.sins, sdel      (the element is its key)  |   SortedMap.rm_put, ZipTree.al_put (destructure the pair)
     Lsm.sm_get                 (up to [option_map snd])  | Ckpt.mt_put, mt_find (list first); SortedCache.roi, sdel
     C07_Sorted.sorted, C07_Spec.ksorted    (predicates)  | C03_Store.sorted, C10_Sorted.ssorted, the neighbour test
                                                          |   SstTable.keys_sorted (predicates)
   The library's [StronglySorted] by key, in which C19 is stated, is tied to [asc] at the end of this file.
   [apply] and [exact] see through a model's name to the function here, [rewrite] does not: an equation that is
   rewritten with is restated over the model's names in the client file and proved by [exact]. *)
From Coq Require Import Sorted.
From RV Require Export Base.Bytes.

Section Keyed.
  Context {A : Type} (key : A -> bytes).

  (* every key of [l] is above [k]: [k] is a strict lower bound of the keys of [l] *)
  Definition above (k : bytes) (l : list A) : Prop := forall y, In y l -> bcmp k (key y) = Lt.

  Fixpoint asc (l : list A) : Prop :=
    match l with [] => True | x :: r => above (key x) r /\ asc r end.

  Lemma above_trans a b l : bcmp a b = Lt -> above b l -> above a l.
  Proof. intros H Hl y Hy. exact (bcmp_lt_trans _ _ _ H (Hl y Hy)). Qed.

  Lemma above_cons k y l : bcmp k (key y) = Lt -> above (key y) l -> above k (y :: l).
  Proof. intros E H z [<-|Hz]; [exact E|exact (above_trans _ _ _ E H z Hz)]. Qed.

  Lemma above_neq k l x : above k l -> In x l -> key x <> k.
  Proof. intros H Hx E. apply H in Hx. rewrite E, bcmp_refl in Hx. discriminate. Qed.

  Lemma above_notin x l : above (key x) l -> ~ In x l.
  Proof. intros H Hx. exact (above_neq _ _ _ H Hx eq_refl). Qed.

  Lemma asc_app a b :
    asc (a ++ b) <-> asc a /\ asc b /\ (forall x y, In x a -> In y b -> bcmp (key x) (key y) = Lt).
  Proof.
    induction a as [|x a IH]; cbn [app asc]; [cbn; tauto|]. rewrite IH. unfold above. setoid_rewrite in_app_iff. cbn [In]. split.
    - intros (H1 & H2 & H3 & H4). repeat split; auto. intros x0 y [<-|Hx] Hy; auto.
    - intros ((H1 & H2) & H3 & H4). repeat split; auto. intros y [Hy|Hy]; auto.
  Qed.

  Lemma asc_filter f l : asc l -> asc (filter f l).
  Proof.
    induction l as [|x l IH]; cbn; [auto|]. intros [H1 H2]. destruct (f x); cbn; [split|]; auto.
    intros y [Hy _]%filter_In. auto.
  Qed.

  Lemma asc_NoDup l : asc l -> NoDup l.
  Proof. induction l as [|x l IH]; cbn; intros H; constructor; [apply above_notin|apply IH]; apply H. Qed.

  Lemma asc_unique : forall a b, asc a -> asc b -> (forall x, In x a <-> In x b) -> a = b.
  Proof.
    induction a as [|x a IH]; intros [|y b] Sa Sb H.
    - reflexivity.
    - destruct (proj2 (H y) (or_introl eq_refl)).
    - destruct (proj1 (H x) (or_introl eq_refl)).
    - destruct Sa as [Fa Sa], Sb as [Fb Sb].
      assert (x = y) as <-.
      { destruct (proj1 (H x) (or_introl eq_refl)) as [|Hb]; [congruence|].
        destruct (proj2 (H y) (or_introl eq_refl)) as [|Ha]; [assumption|].
        (* otherwise x is below y (in a) and y below x (in b) *)
        pose proof (bcmp_lt_trans _ _ _ (Fa y Ha) (Fb x Hb)) as C. rewrite bcmp_refl in C. discriminate. }
      f_equal. apply IH; [assumption..|]. intros z.
      pose proof (above_notin x a Fa). pose proof (above_notin x b Fb).
      specialize (H z). cbn [In] in H. intuition congruence.
  Qed.

  Definition kget (k : bytes) : list A -> option A := find (fun y => beqb (key y) k).

  Lemma kget_cons k x l : kget k (x :: l) = if beqb (key x) k then Some x else kget k l.
  Proof. reflexivity. Qed.

  Lemma kget_some k l e : kget k l = Some e -> In e l /\ key e = k.
  Proof. intros [H1 H2%beqb_eq]%find_some. auto. Qed.

  Lemma kget_none k l : kget k l = None <-> forall e, In e l -> key e <> k.
  Proof.
    split.
    - intros H e He Hk. apply (find_none _ _ H) in He. rewrite Hk, beqb_refl in He. discriminate.
    - intros H. destruct (kget k l) eqn:E; [|reflexivity]. apply kget_some in E as [E1 E2]. destruct (H _ E1 E2).
  Qed.

  Lemma kget_above k l : above k l -> kget k l = None.
  Proof. intros H. apply kget_none. intros e. apply above_neq, H. Qed.

  Lemma kget_In l e : asc l -> In e l -> kget (key e) l = Some e.
  Proof.
    induction l as [|x l IH]; cbn [asc In]; [intros _ []|]. intros [H1 H2] [<-|He]; rewrite kget_cons.
    - now rewrite beqb_refl.
    - rewrite beqb_lt; auto.
  Qed.

  Lemma key_inj l e e' : asc l -> In e l -> In e' l -> key e = key e' -> e = e'.
  Proof. intros Hs He He' Hk. pose proof (kget_In _ _ Hs He) as H. rewrite Hk, (kget_In _ _ Hs He') in H. congruence. Qed.

  Lemma asc_ext a b : asc a -> asc b -> (forall k, kget k a = kget k b) -> a = b.
  Proof.
    intros Sa Sb H. apply asc_unique; [assumption..|].
    intros x. split; intros Hx%kget_In; try assumption; [rewrite H in Hx|rewrite <- H in Hx]; apply (kget_some _ _ _ Hx).
  Qed.

  Lemma kget_filter f k l : asc l ->
    kget k (filter f l) = match kget k l with Some e => if f e then Some e else None | None => None end.
  Proof.
    induction l as [|x l IH]; [reflexivity|]. intros [H1 H2]. cbn [filter]. rewrite (kget_cons k x l).
    destruct (beqb (key x) k) eqn:E.
    - destruct (f x); [now rewrite kget_cons, E|]. apply beqb_eq in E as <-.
      apply kget_above. intros e [He _]%filter_In. auto.
    - destruct (f x); [rewrite kget_cons, E|]; apply IH, H2.
  Qed.

  Fixpoint kput (x : A) (l : list A) : list A :=
    match l with
    | [] => [x]
    | y :: r => match bcmp (key x) (key y) with Lt => x :: l | Eq => x :: r | Gt => y :: kput x r end
    end.

  Fixpoint kdel (k : bytes) (l : list A) : list A :=
    match l with
    | [] => []
    | y :: r => match bcmp k (key y) with Lt => l | Eq => r | Gt => y :: kdel k r end
    end.

  (* [kput x] and [kdel k] walk the list the same way to the place of the key and differ in what they leave there:
     [[x]] or nothing.  [kupd h k] leaves [h]. *)
  Fixpoint kupd (h : list A) (k : bytes) (l : list A) : list A :=
    match l with
    | [] => h
    | y :: r => match bcmp k (key y) with Lt => h ++ l | Eq => h ++ r | Gt => y :: kupd h k r end
    end.

  Lemma kput_kupd x l : kput x l = kupd [x] (key x) l.
  Proof. induction l as [|y l IH]; cbn; [|rewrite IH]; reflexivity. Qed.

  Lemma kdel_kupd k l : kdel k l = kupd [] k l.
  Proof. induction l as [|y l IH]; cbn; [|rewrite IH]; reflexivity. Qed.

  Lemma kupd_above h k l : above k l -> kupd h k l = h ++ l.
  Proof. destruct l as [|y l]; cbn; intros H; [now rewrite app_nil_r|now rewrite (H y (or_introl eq_refl))]. Qed.

  Lemma In_kupd_inv h k l x : In x (kupd h k l) -> In x h \/ In x l.
  Proof.
    induction l as [|y l IH]; cbn [kupd]; [auto|].
    destruct (bcmp k (key y)); rewrite ?in_app_iff; cbn [In]; tauto.
  Qed.

  Lemma In_kupd_of h k l x : In x h \/ In x l /\ key x <> k -> In x (kupd h k l).
  Proof.
    induction l as [|y l IH]; cbn [kupd In]; [tauto|].
    destruct (bcmp_spec k (key y)) as [->|E|E]; rewrite ?in_app_iff; cbn [In]; [|tauto..].
    intros [|[[<-|] ?]]; tauto.
  Qed.

  (* on an ascending list nothing else has the key *)
  Lemma In_kupd h k l x : asc l -> (In x (kupd h k l) <-> In x h \/ In x l /\ key x <> k).
  Proof.
    intros Hs. split; [|apply In_kupd_of].
    induction l as [|y l IH]; cbn [kupd]; [tauto|]. destruct Hs as [H1 H2].
    destruct (bcmp_spec k (key y)) as [->|E|E]; rewrite ?in_app_iff.
    - intros [|Hx]; [tauto|]. right. split; [now right|exact (above_neq _ _ _ H1 Hx)].
    - intros [|Hx]; [tauto|]. right. split; [exact Hx|]. exact (above_neq _ _ _ (above_cons _ _ _ E H1) Hx).
    - intros [<-|Hx]; [right; split; [now left|intros <-; rewrite bcmp_refl in E; discriminate]|].
      destruct (IH H2 Hx) as [|[]]; [tauto|right; split; [now right|assumption]].
  Qed.

  Lemma kupd_asc h k l : asc h -> (forall x, In x h -> key x = k) -> asc l -> asc (kupd h k l).
  Proof.
    intros Sh Hk. assert (Hcat : forall l, above k l -> asc l -> asc (h ++ l)).
    { intros l0 H S0. apply asc_app. repeat split; auto. intros x y Hx Hy. rewrite (Hk x Hx). auto. }
    induction l as [|y l IH]; [intros _; exact Sh|]. intros [H1 H2]. cbn [kupd].
    destruct (bcmp_spec k (key y)) as [->|E|E].
    - now apply Hcat.
    - apply Hcat; [exact (above_cons _ _ _ E H1)|now split].
    - split; [|now apply IH]. intros z [Hz|[Hz _]]%In_kupd; auto. now rewrite (Hk z Hz).
  Qed.

  Lemma kget_kput x l k : kget k (kput x l) = if beqb (key x) k then Some x else kget k l.
  Proof.
    induction l as [|y l IH]; cbn [kput]; [reflexivity|].
    destruct (bcmp_spec (key x) (key y)) as [E|E|E]; rewrite !kget_cons; [rewrite E; now destruct (beqb (key y) k)|reflexivity|].
    rewrite IH. destruct (beqb (key y) k) eqn:Ey; [|reflexivity].
    apply beqb_eq in Ey as <-. now rewrite beqb_sym, (beqb_lt _ _ E).
  Qed.

  Lemma kget_kdel k l k' : asc l -> kget k' (kdel k l) = if beqb k k' then None else kget k' l.
  Proof.
    induction l as [|y l IH]; cbn [kdel asc]; [now destruct (beqb k k')|]. intros [H1 H2].
    assert (Hclear : forall l, above k l -> kget k' l = if beqb k k' then None else kget k' l).
    { intros l0 H. destruct (beqb k k') eqn:E; [|reflexivity]. apply beqb_eq in E as <-. now apply kget_above. }
    destruct (bcmp_spec k (key y)) as [->|E|E].
    - rewrite kget_cons. destruct (beqb (key y) k') eqn:Ey; [apply beqb_eq in Ey as <-; now apply kget_above|reflexivity].
    - apply Hclear, above_cons; assumption.
    - rewrite !kget_cons, (IH H2). destruct (beqb (key y) k') eqn:Ey; [|reflexivity].
      apply beqb_eq in Ey as <-. now rewrite beqb_sym, (beqb_lt _ _ E).
  Qed.

  Lemma filter_kupd f h k l : asc l -> filter f (kupd h k l) = kupd (filter f h) k (filter f l).
  Proof.
    assert (Hcat : forall l, above k l -> kupd (filter f h) k (filter f l) = filter f h ++ filter f l).
    { intros l0 H. apply kupd_above. intros z [Hz _]%filter_In. auto. }
    induction l as [|y l IH]; [reflexivity|]. intros [H1 H2]. cbn [kupd filter].
    destruct (bcmp_spec k (key y)) as [->|E|E]; rewrite ?filter_app.
    - (* [y] has the key: what is kept of [l] comes after it, whether [y] itself is kept or not *)
      destruct (f y); cbn [kupd]; [now rewrite bcmp_refl|]. symmetry. now apply Hcat.
    - (* the key sorts before [y], hence before everything kept of [y :: l] *)
      symmetry. apply (Hcat (y :: l)), above_cons; assumption.
    - cbn [filter]. rewrite (IH H2). destruct (f y); cbn [kupd filter]; [|reflexivity].
      now rewrite bcmp_antisym, E.
  Qed.

  Lemma kput_in x l z : In z (kput x l) -> z = x \/ In z l.
  Proof. rewrite kput_kupd. intros [[<-|[]]|H]%In_kupd_inv; auto. Qed.

  Lemma kput_has x l : In x (kput x l).
  Proof. rewrite kput_kupd. apply In_kupd_of. left. now left. Qed.

  Lemma kput_keeps x l z : In z l -> key z <> key x -> In z (kput x l).
  Proof. rewrite kput_kupd. intros H1 H2. apply In_kupd_of. now right. Qed.

  Lemma kput_asc x l : asc l -> asc (kput x l).
  Proof. rewrite kput_kupd. apply kupd_asc; [split; [intros ? []|exact I]|now intros z [<-|[]]]. Qed.

  Lemma In_kdel k l z : asc l -> (In z (kdel k l) <-> In z l /\ key z <> k).
  Proof. intros H. rewrite kdel_kupd, (In_kupd _ _ _ _ H). cbn [In]. tauto. Qed.

  Lemma kdel_asc k l : asc l -> asc (kdel k l).
  Proof. rewrite kdel_kupd. now apply kupd_asc. Qed.

  Lemma kdel_absent k l : (forall z, In z l -> key z <> k) -> kdel k l = l.
  Proof.
    induction l as [|y l IH]; cbn [kdel]; intros H; [reflexivity|].
    destruct (bcmp_spec k (key y)) as [E|E|E]; [destruct (H y (or_introl eq_refl)); now symmetry|reflexivity|].
    f_equal. apply IH. intros z Hz. apply H. now right.
  Qed.

  Lemma kput_present x l : asc l -> In x l -> kput x l = l.
  Proof.
    induction l as [|y l IH]; cbn [kput asc In]; [intros _ []|]. intros [H1 H2] [->|Hx].
    - now rewrite bcmp_refl.
    - rewrite bcmp_antisym, (H1 x Hx). cbn. f_equal. auto.
  Qed.

  Lemma kput_app_right x l1 l2 :
    (forall y, In y l1 -> bcmp (key y) (key x) = Lt) -> kput x (l1 ++ l2) = l1 ++ kput x l2.
  Proof.
    induction l1 as [|y l1 IH]; cbn [app kput]; intros H; [reflexivity|].
    rewrite bcmp_antisym, (H y (or_introl eq_refl)). cbn [CompOpp]. f_equal. apply IH. intros z Hz. apply H. now right.
  Qed.

  Lemma kput_last x l : (forall y, In y l -> bcmp (key y) (key x) = Lt) -> kput x l = l ++ [x].
  Proof. intros H. rewrite <- (app_nil_r l) at 1. now apply kput_app_right. Qed.

  (* a put that the filter drops still removes the element it replaces *)
  Lemma filter_kput f x l : asc l ->
    filter f (kput x l) = if f x then kput x (filter f l) else kdel (key x) (filter f l).
  Proof. intros H. rewrite kput_kupd, filter_kupd by exact H. cbn [filter]. destruct (f x); [now rewrite kput_kupd|now rewrite kdel_kupd]. Qed.

  Lemma filter_kdel f k l : asc l -> filter f (kdel k l) = kdel k (filter f l).
  Proof. intros H. now rewrite !kdel_kupd, filter_kupd. Qed.

  Fixpoint ascb (l : list A) : bool :=
    match l with
    | [] => true
    | x :: r => match r with [] => true | y :: _ => bltb (key x) (key y) end && ascb r
    end.

  Lemma ascb_asc l : ascb l = true -> asc l.
  Proof.
    induction l as [|x l IH]; cbn [ascb asc]; [auto|]. intros [H1 H2]%andb_true_iff.
    specialize (IH H2). split; [|exact IH]. destruct l as [|y l]; [intros ? []|].
    apply above_cons; [apply bltb_lt, H1|exact (proj1 IH)].
  Qed.
End Keyed.

Section Map.
  Context {A B : Type} (key : A -> bytes) (key' : B -> bytes) (f : A -> B).
  Hypothesis Hf : forall x, key' (f x) = key x.

  Lemma asc_map l : asc key l -> asc key' (map f l).
  Proof.
    induction l as [|x l IH]; cbn [map asc]; [auto|]. intros [H1 H2]. split; [|auto].
    intros y (z & <- & Hz)%in_map_iff. rewrite !Hf. auto.
  Qed.

  Lemma kget_map k l : kget key' k (map f l) = option_map f (kget key k l).
  Proof. induction l as [|x l IH]; [reflexivity|]. cbn [map]. rewrite !kget_cons, Hf. now destruct (beqb (key x) k). Qed.

  (* ascending lists whose lookups agree up to f have the same image *)
  Lemma asc_map_ext a b : asc key a -> asc key b ->
    (forall k, option_map f (kget key k a) = option_map f (kget key k b)) -> map f a = map f b.
  Proof.
    intros Ha Hb H. apply (asc_ext key'); [apply asc_map, Ha|apply asc_map, Hb|]. intros k. rewrite !kget_map. apply H.
  Qed.
End Map.

(* The same lists as the standard library's [StronglySorted], which the statements of C19 use.  Some of them spell the
   order out: [fun a b => bcmp (fst a) (fst b) = Lt] is [klt fst], [fun a b => bcmp a b = Lt] and [C19_SortedCache.blt]
   are [klt (fun x => x)], all by conversion; the lemmas below apply to them once [key] is given. *)
Section Strongly.
  Context {A : Type} (key : A -> bytes).

  Definition klt (a b : A) : Prop := bcmp (key a) (key b) = Lt.

  Lemma ssorted_asc l : StronglySorted klt l <-> asc key l.
  Proof.
    split.
    - induction 1 as [|a l _ IH Ha]; [exact I|]. split; [exact (proj1 (Forall_forall _ _) Ha)|exact IH].
    - induction l as [|a l IH]; [constructor|]. intros [H1 H2]. constructor; [auto|exact (proj2 (Forall_forall _ _) H1)].
  Qed.

  Lemma ssorted_nodup l : StronglySorted klt l -> NoDup l.
  Proof. rewrite ssorted_asc. apply asc_NoDup. Qed.

  Lemma ssorted_unique : forall l1 l2,
    StronglySorted klt l1 -> StronglySorted klt l2 -> (forall x, In x l1 <-> In x l2) -> l1 = l2.
  Proof. intros l1 l2. rewrite !ssorted_asc. apply asc_unique. Qed.

  Lemma kdel_ssorted k l : StronglySorted klt l -> StronglySorted klt (kdel key k l).
  Proof. rewrite !ssorted_asc. apply kdel_asc. Qed.

  Lemma kput_ssorted x l : StronglySorted klt l -> StronglySorted klt (kput key x l).
  Proof. rewrite !ssorted_asc. apply kput_asc. Qed.
End Strongly.
