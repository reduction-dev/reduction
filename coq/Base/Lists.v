(* Facts about lists that belong to no model in particular, by subject: left folds (several state machines of Model/ run by
   [fold_left] over a list of actions; there an invariant, or a simulation by a reference machine, of one step is one of the
   whole run), maxima and sums, positions, membership and filters, [StronglySorted] for any relation, and four functions the
   models share by their body: the forward scan [take_while], the insertion [insert_by], the interval [iota] and the binary
   search [bisect]. *)
From Coq Require Import List Permutation NArith Arith Lia Sorted.
Import ListNotations.

Section Folds.
  Context {X Y O : Type} (f : X -> O -> X) (g : Y -> O -> Y).

  Lemma fold_left_inv (P : X -> Prop) :
    (forall s o, P s -> P (f s o)) -> forall ops s, P s -> P (fold_left f ops s).
  Proof. intros H. induction ops as [|o ops IH]; cbn [fold_left]; auto. Qed.

  (* the same where a step keeps P only for the actions that occur *)
  Lemma fold_left_inv_in (P : X -> Prop) ops :
    (forall s o, In o ops -> P s -> P (f s o)) -> forall s, P s -> P (fold_left f ops s).
  Proof.
    induction ops as [|o ops IH]; intros H s Hs; cbn [fold_left]; [exact Hs|].
    apply IH; [intros s' o' Ho'; apply H; right; exact Ho'|apply H; [left; reflexivity|exact Hs]].
  Qed.

  Lemma fold_left_keeps {C} (p : X -> C) ops :
    (forall s o, In o ops -> p (f s o) = p s) -> forall s, p (fold_left f ops s) = p s.
  Proof. intros H s. apply (fold_left_inv_in (fun s' => p s' = p s)); [|reflexivity]. intros s' o Ho <-. apply H, Ho. Qed.

  Lemma fold_left_sim (R : X -> Y -> Prop) :
    (forall s t o, R s t -> R (f s o) (g t o)) ->
    forall ops s t, R s t -> R (fold_left f ops s) (fold_left g ops t).
  Proof. intros H. induction ops as [|o ops IH]; cbn [fold_left]; auto. Qed.

  Lemma fold_left_refines (I : X -> Prop) (abs : X -> Y) :
    (forall s o, I s -> I (f s o) /\ abs (f s o) = g (abs s) o) ->
    forall ops s, I s -> I (fold_left f ops s) /\ abs (fold_left f ops s) = fold_left g ops (abs s).
  Proof.
    intros H ops s Hs. apply (fold_left_sim (fun s t => I s /\ abs s = t)); [|auto].
    intros s0 t o [Hi <-]. apply H, Hi.
  Qed.
End Folds.

(* a fold whose every step adds to a set, and keeps [Inv]: afterwards the set holds what it held and what the steps added *)
Lemma fold_left_adds {E S X} (f : S -> E -> S) (Inv : S -> Prop) (mem : S -> X -> Prop) (new : E -> X -> Prop) l :
  (forall s e, In e l -> Inv s -> Inv (f s e) /\ forall x, mem (f s e) x <-> mem s x \/ new e x) ->
  forall s, Inv s ->
    Inv (fold_left f l s) /\ forall x, mem (fold_left f l s) x <-> mem s x \/ exists e, In e l /\ new e x.
Proof.
  induction l as [|e l IH]; intros Hf s Hs; cbn [fold_left In].
  - split; [exact Hs|]. intros x. split; [auto|]. intros [H|(e & [] & _)]. exact H.
  - destruct (Hf s e (or_introl eq_refl) Hs) as [Hs1 M1].
    destruct (IH (fun s e' H => Hf s e' (or_intror H)) _ Hs1) as [Hs2 M2]. split; [exact Hs2|].
    intros x. rewrite M2, M1. split.
    + intros [[H|H]|(e' & Hin & H)]; [left; exact H|right; exists e; auto|right; exists e'; auto].
    + intros [H|(e' & [<-|Hin] & H)]; [auto|auto|right; exists e'; auto].
Qed.

(* the largest value and the total of a measure over a list, as the models fold them *)
Lemma fold_max_bound {A} (f : A -> N) l x : In x l -> (f x <= fold_right (fun y a => N.max (f y) a) 0 l)%N.
Proof. induction l as [|y l IH]; [intros []|]. cbn [fold_right]. intros [->|H]; [lia|]. specialize (IH H). lia. Qed.

Lemma fold_max_le {A} (f : A -> N) l b :
  (forall x, In x l -> (f x <= b)%N) -> (fold_right (fun y a => N.max (f y) a) 0 l <= b)%N.
Proof.
  induction l as [|y l IH]; cbn [fold_right]; intro H; [lia|].
  specialize (H y (or_introl eq_refl)) as Hy. specialize (IH (fun x Hx => H x (or_intror Hx))). lia.
Qed.

Lemma fold_left_max_spec {A} (f : A -> N) l : forall m, let r := fold_left (fun m x => N.max m (f x)) l m in
  (m <= r)%N /\ (forall x, In x l -> (f x <= r)%N) /\ (r = m \/ exists x, In x l /\ r = f x).
Proof.
  induction l as [|y l IH]; intro m; cbn [fold_left In]; [repeat split; [lia|tauto|left; reflexivity]|].
  destruct (IH (N.max m (f y))) as (H1 & H2 & H3). split; [lia|]. split.
  - intros x [<-|Hx]; [lia|exact (H2 x Hx)].
  - destruct H3 as [->|(x & Hx & ->)]; [|right; exists x; auto].
    destruct (N.max_spec m (f y)) as [[_ ->]|[_ ->]]; [right; exists y|left]; auto.
Qed.

Lemma fold_sum_app {A} (f : A -> N) a b :
  (fold_right (fun e s => f e + s) 0 (a ++ b) = fold_right (fun e s => f e + s) 0 a + fold_right (fun e s => f e + s) 0 b)%N.
Proof. induction a as [|x a IH]; cbn [app fold_right]; [reflexivity|]. rewrite IH. lia. Qed.

Lemma nth_error_lt {A} (l : list A) i a : nth_error l i = Some a -> i < length l.
Proof. intros H. apply nth_error_Some. congruence. Qed.

Lemma In_firstn {A} n (l : list A) x : In x (firstn n l) -> In x l.
Proof. intros H. rewrite <- (firstn_skipn n l). apply in_or_app. left. exact H. Qed.

Lemma firstn_S_nth {A} (l : list A) p x : nth_error l p = Some x -> firstn (S p) l = firstn p l ++ [x].
Proof.
  revert p. induction l as [|a l IH]; intros [|p] Hn; try discriminate; cbn in *.
  - inversion Hn; reflexivity.
  - f_equal. apply IH; exact Hn.
Qed.

Lemma nth_error_snoc {A} (l : list A) v j w :
  nth_error (l ++ [v]) j = Some w <-> nth_error l j = Some w \/ (j = length l /\ w = v).
Proof.
  destruct (Nat.lt_total j (length l)) as [H|[->|H]].
  - rewrite nth_error_app1 by exact H. split; [auto|]. intros [E|[-> _]]; [exact E|lia].
  - rewrite nth_error_app2, Nat.sub_diag, (proj2 (nth_error_None l _)) by lia. cbn.
    split; [intros [= ->]; auto|intros [[=]|[_ ->]]; reflexivity].
  - rewrite (proj2 (nth_error_None (l ++ [v]) j)), (proj2 (nth_error_None l j)) by (rewrite ?app_length; cbn; lia).
    split; [discriminate|intros [[=]|[-> _]]; lia].
Qed.

Lemma firstn_app_le {A} (l l' : list A) d : d <= length l -> firstn d (l ++ l') = firstn d l.
Proof. intros H. rewrite firstn_app. replace (d - length l) with 0 by lia. apply app_nil_r. Qed.

Lemma firstn_app_exact {A} (a b : list A) n : n = length a -> firstn n (a ++ b) = a.
Proof. intros ->. rewrite firstn_app, firstn_all, Nat.sub_diag. apply app_nil_r. Qed.

Lemma skipn_app_exact {A} (a b : list A) n : n = length a -> skipn n (a ++ b) = b.
Proof. intros ->. rewrite skipn_app, skipn_all, Nat.sub_diag. reflexivity. Qed.

Lemma find_app {A} (f : A -> bool) (a b : list A) :
  find f (a ++ b) = match find f a with Some x => Some x | None => find f b end.
Proof. induction a as [|x a IH]; cbn [app find]; [reflexivity|]. destruct (f x); [reflexivity|exact IH]. Qed.

Lemma flat_map_snoc {A B} (f : A -> list B) l x : flat_map f (l ++ [x]) = flat_map f l ++ f x.
Proof. rewrite flat_map_app. cbn [flat_map]. rewrite app_nil_r. reflexivity. Qed.

Lemma skipn_nth_cons {A} (d : A) : forall l i, i < length l -> skipn i l = nth i l d :: skipn (S i) l.
Proof. induction l as [|x l IH]; intros [|i] H; cbn [length] in H; try lia; [reflexivity|]. cbn [skipn nth]. apply IH. lia. Qed.

Lemma Forall_firstn_nth {A} (P : A -> Prop) d : forall l r,
  (forall h, h < r -> h < length l -> P (nth h l d)) -> Forall P (firstn r l).
Proof.
  induction l as [|x l IH]; intros [|r] H; cbn [firstn]; constructor.
  - apply (H 0); cbn; lia.
  - apply IH. intros h Hh Hl. apply (H (S h)); cbn; lia.
Qed.

Lemma Forall_skipn_nth {A} (P : A -> Prop) d : forall l r,
  (forall h, r <= h -> h < length l -> P (nth h l d)) -> Forall P (skipn r l).
Proof.
  induction l as [|x l IH]; intros [|r] H; cbn [skipn]; [constructor|constructor| |].
  - apply Forall_nth. intros i d' Hi. rewrite (nth_indep _ d' d Hi). apply H; [lia|exact Hi].
  - apply IH. intros h Hh Hl. apply (H (S h)); cbn; lia.
Qed.

(* Replacing and dropping the element at a position.  Align.set_nth, Reorder.set_nth and TimerStore.upd have the body of
   [set_at], Batcher.drop_nth, Publish.drop_nth and Reorder.del_nth that of [drop_at], and must keep it: the lemmas apply to
   them by conversion.  Not so Heap.upd, although its text is that of [set_at]: it is defined in a Section, so its type
   argument is bound outside the [fix], here inside, and the two do not convert; nor Gc.upd, KinReader.set_nth / del_nth
   (list first) and Sys.remove_nth (matches the position first).  Their lemmas are proved per copy. *)
Fixpoint set_at {A} (i : nat) (v : A) (l : list A) : list A :=
  match l, i with
  | [], _ => []
  | _ :: r, O => v :: r
  | x :: r, S i' => x :: set_at i' v r
  end.

Fixpoint drop_at {A} (i : nat) (l : list A) : list A :=
  match l, i with
  | [], _ => []
  | _ :: r, O => r
  | x :: r, S i' => x :: drop_at i' r
  end.

Lemma set_at_length {A} i (v : A) l : length (set_at i v l) = length l.
Proof. revert i; induction l as [|a l IH]; intros [|i]; cbn; auto. Qed.

Lemma nth_error_set_at_eq {A} i (v : A) l : i < length l -> nth_error (set_at i v l) i = Some v.
Proof. revert i; induction l as [|a l IH]; intros [|i] H; cbn in *; try lia; auto. apply IH; lia. Qed.

Lemma nth_error_set_at_neq {A} i j (v : A) l : i <> j -> nth_error (set_at i v l) j = nth_error l j.
Proof. revert i j; induction l as [|a l IH]; intros [|i] [|j] H; cbn; auto; try congruence. Qed.

Lemma nth_error_set_at {A} i j (v w : A) l :
  nth_error (set_at i v l) j = Some w -> j = i /\ w = v \/ nth_error l j = Some w.
Proof.
  destruct (Nat.eq_dec i j) as [<-|H]; [|rewrite nth_error_set_at_neq by exact H; auto].
  intros E. pose proof (nth_error_lt _ _ _ E) as L. rewrite set_at_length in L.
  rewrite nth_error_set_at_eq in E by exact L. injection E as <-. auto.
Qed.

Lemma nth_set_at_eq {A} i (v d : A) l : i < length l -> nth i (set_at i v l) d = v.
Proof. intros H. apply nth_error_nth, nth_error_set_at_eq, H. Qed.

Lemma nth_set_at_neq {A} i j (v d : A) l : i <> j -> nth j (set_at i v l) d = nth j l d.
Proof.
  intros H. destruct (nth_error l j) as [w|] eqn:E.
  - rewrite (nth_error_nth _ _ _ E). apply nth_error_nth. now rewrite nth_error_set_at_neq.
  - apply nth_error_None in E. rewrite !nth_overflow; [reflexivity|exact E|now rewrite set_at_length].
Qed.

Lemma In_drop_at {A} (x : A) k l : In x (drop_at k l) -> In x l.
Proof.
  revert k. induction l as [|y l IH]; intros [|k] H; cbn [drop_at] in H; try (right; exact H); try exact H.
  destruct H as [H|H]; [left; exact H|right; exact (IH k H)].
Qed.

(* [set_at i] and [drop_at i] as [l1 ++ x :: l2] and [l1 ++ l2] for the split of [l] at position [i] *)
Lemma set_drop_at_split {A} (l : list A) i g : nth_error l i = Some g ->
  exists l1 l2, l = l1 ++ g :: l2 /\ (forall x, set_at i x l = l1 ++ x :: l2) /\ drop_at i l = l1 ++ l2.
Proof.
  revert i. induction l as [|y l IH]; intros [|i] H; try discriminate; cbn in H.
  - injection H as ->. now exists [], l.
  - destruct (IH i H) as (l1 & l2 & -> & E1 & E2). exists (y :: l1), l2. cbn. rewrite E2.
    repeat split. intros x. now rewrite E1.
Qed.

Lemma NoDup_drop_at {A} (l : list A) k n : NoDup l -> nth_error l k = Some n ->
  NoDup (drop_at k l) /\ ~ In n (drop_at k l).
Proof. intros H E. destruct (set_drop_at_split _ _ _ E) as (l1 & l2 & -> & _ & ->). apply NoDup_remove, H. Qed.

(* most membership tests of the models are [existsb (eqb x)] for the equality test of their element type (not
   SplitTracker.mem, KinReader.memN, Align.mem_nat: Fixpoints of their own, with their own inductions) *)
Lemma existsb_eqb_In {A} (eqb : A -> A -> bool) : (forall a b, eqb a b = true <-> a = b) ->
  forall x l, existsb (eqb x) l = true <-> In x l.
Proof.
  intros E x l. rewrite existsb_exists. split.
  - intros (y & Hy & ->%E). exact Hy.
  - intros H. exists x. split; [exact H|apply E; reflexivity].
Qed.

Lemma in_snoc {A} (x y : A) l : In x (l ++ [y]) <-> In x l \/ y = x.
Proof. rewrite in_app_iff. cbn [In]. tauto. Qed.

Lemma NoDup_snoc {A} (x : A) l : NoDup l -> ~ In x l -> NoDup (l ++ [x]).
Proof. intros Hnd Hni. apply (Permutation_NoDup (Permutation_cons_append l x)). constructor; assumption. Qed.

Lemma NoDup_app_iff {A} (a b : list A) :
  NoDup (a ++ b) <-> NoDup a /\ NoDup b /\ forall x, In x a -> In x b -> False.
Proof.
  induction a as [|y a IH]; cbn [app].
  - split; [intros H; repeat split; [constructor|exact H|intros x []]|intros (_ & H & _); exact H].
  - split.
    + intros N. inversion N as [|? ? NI N']; subst. apply IH in N' as (Na & Nb & D). split; [|split; [exact Nb|]].
      * constructor; [intro H; apply NI, in_or_app; auto|exact Na].
      * intros x [->|Ha] Hb; [apply NI, in_or_app; auto|exact (D x Ha Hb)].
    + intros (Na & Nb & D). inversion Na as [|? ? NI Na']; subst. constructor.
      * intros [H|H]%in_app_or; [contradiction|exact (D y (or_introl eq_refl) H)].
      * apply IH. split; [exact Na'|split; [exact Nb|]]. intros x Ha. apply D. right; exact Ha.
Qed.

Lemma filter_nil {A} (f : A -> bool) l : (forall x, In x l -> f x = false) -> filter f l = [].
Proof.
  induction l as [|x l IH]; intros H; [reflexivity|]. cbn [filter]. rewrite (H x (or_introl eq_refl)).
  apply IH. intros y Hy. apply H. right; exact Hy.
Qed.

Lemma filter_all {A} (f : A -> bool) l : (forall x, In x l -> f x = true) -> filter f l = l.
Proof.
  induction l as [|x l IH]; intros H; [reflexivity|]. cbn [filter]. rewrite (H x (or_introl eq_refl)), IH; [reflexivity|].
  intros y Hy. apply H. right; exact Hy.
Qed.

Lemma filter_filter_imp {A} (f g : A -> bool) l :
  (forall x, f x = true -> g x = true) -> filter f (filter g l) = filter f l.
Proof.
  intros H. induction l as [|x l IH]; [reflexivity|]. cbn [filter]. destruct (g x) eqn:G; cbn [filter].
  - rewrite IH. reflexivity.
  - destruct (f x) eqn:F; [rewrite (H x F) in G; discriminate|exact IH].
Qed.

Section Sorted.
  Context {A : Type} (R : A -> A -> Prop).

  Lemma StronglySorted_nth (l : list A) : StronglySorted R l ->
    forall i j a b, i < j -> nth_error l i = Some a -> nth_error l j = Some b -> R a b.
  Proof.
    induction 1 as [|x l Hs IH Hall]; intros i [|j] a b Hij Ha Hb; [destruct i; discriminate.. | lia |].
    destruct i as [|i]; cbn [nth_error] in Ha, Hb.
    - injection Ha as <-. exact (proj1 (Forall_forall _ _) Hall b (nth_error_In _ _ Hb)).
    - apply (IH i j); [lia | assumption..].
  Qed.

  Lemma StronglySorted_app l1 l2 :
    StronglySorted R (l1 ++ l2) <->
    StronglySorted R l1 /\ StronglySorted R l2 /\ Forall (fun a => Forall (R a) l2) l1.
  Proof.
    induction l1 as [|a l1 IH]; cbn [app].
    - split; [intros H; repeat split; [constructor | exact H | constructor] | intros (_ & H & _); exact H].
    - split.
      + intros [(S1 & S2 & F)%IH [Fa1 Fa2]%Forall_app]%StronglySorted_inv.
        repeat split; [constructor | | constructor]; assumption.
      + intros ([S1 Fa1]%StronglySorted_inv & S2 & [Fa2 F]%Forall_cons_iff).
        constructor; [apply IH; repeat split; assumption | apply Forall_app; split; assumption].
  Qed.

  Lemma StronglySorted_impl (R' : A -> A -> Prop) l :
    (forall a b, In a l -> In b l -> R a b -> R' a b) -> StronglySorted R l -> StronglySorted R' l.
  Proof.
    intros H Hs. induction Hs as [|x l Hs IH Hx]; constructor.
    - apply IH. intros a b Ha Hb. apply H; right; assumption.
    - rewrite Forall_forall in *. intros y Hy. apply H; [left; reflexivity|right; exact Hy|exact (Hx y Hy)].
  Qed.

  Lemma StronglySorted_skipn n l : StronglySorted R l -> StronglySorted R (skipn n l).
  Proof.
    revert l. induction n as [|n IH]; intros l Hs; [exact Hs|]. destruct l as [|x l]; [constructor|].
    apply IH. inversion Hs; assumption.
  Qed.

  Lemma StronglySorted_filter f l : StronglySorted R l -> StronglySorted R (filter f l).
  Proof.
    induction 1 as [|a l Hs IH Hf]; cbn [filter]; [constructor|].
    destruct (f a); [constructor; [exact IH | exact (incl_Forall (incl_filter f l) Hf)] | exact IH].
  Qed.

  Lemma StronglySorted_NoDup l : (forall a, ~ R a a) -> StronglySorted R l -> NoDup l.
  Proof.
    intros Irr. induction 1 as [|a l _ IH Hf]; constructor; [|exact IH].
    intros Hin. exact (Irr a (proj1 (Forall_forall _ _) Hf a Hin)).
  Qed.
End Sorted.

(* A forward scan that stops at the first failure.  Model.Rescale.take_while has this body and must keep it: the lemma
   below applies to it by conversion. *)
Fixpoint take_while {A} (f : A -> bool) (l : list A) : list A :=
  match l with [] => [] | x :: l' => if f x then x :: take_while f l' else [] end.

(* the scan is the filter when nothing after a failure passes *)
Lemma take_while_filter {A} (f : A -> bool) l :
  StronglySorted (fun a b => f a = false -> f b = false) l -> take_while f l = filter f l.
Proof.
  induction 1 as [|x l Hs IH Hx]; [reflexivity|]. cbn [take_while filter]. destruct (f x); [rewrite IH; reflexivity|].
  symmetry. apply filter_nil. intros y Hy. rewrite Forall_forall in Hx. exact (Hx y Hy eq_refl).
Qed.

(* Insertion in front of the first element that is not before [x], and the insertion sort the models fold from it.
   PPQ.ins_sorted, SnapStore.ins_sorted, SortedMap.sort_ins, Rescale.ins_table, LsmCompaction.ins_age and
   UpstreamWm.tins_sorted have the body of [insert_by] (for [N.leb], [bleb], the start keys under [bleb], the ages and the
   wrapped timestamps under [N.ltb]) and must keep it: the lemmas apply to them by conversion.
   Not so PathSeg.insert_by_name, which tests the other way round, and the set inserts, which drop an equal element
   (JobSM.ins, SplitTracker.ins_id, Ckpt.ins_key, Savepoint.ins_bytes). *)
Section Insert.
  Context {A : Type} (leb : A -> A -> bool).

  Fixpoint insert_by (x : A) (l : list A) : list A :=
    match l with [] => [x] | y :: l' => if leb x y then x :: l else y :: insert_by x l' end.

  Lemma insert_by_perm x l : Permutation (insert_by x l) (x :: l).
  Proof.
    induction l as [|y l IH]; cbn [insert_by]; [apply Permutation_refl|].
    destruct (leb x y); [apply Permutation_refl|].
    eapply perm_trans; [apply perm_skip; exact IH|apply perm_swap].
  Qed.

  Lemma In_insert_by x l y : In y (insert_by x l) <-> y = x \/ In y l.
  Proof.
    split; intros H.
    - destruct (Permutation_in _ (insert_by_perm x l) H) as [<-|H']; auto.
    - apply (Permutation_in _ (Permutation_sym (insert_by_perm x l))). destruct H as [->|H]; [left; reflexivity|right; exact H].
  Qed.

  Lemma sort_by_perm l : Permutation (fold_right insert_by [] l) l.
  Proof.
    induction l as [|x l IH]; cbn [fold_right]; [apply perm_nil|].
    eapply perm_trans; [apply insert_by_perm|apply perm_skip; exact IH].
  Qed.

  Lemma In_sort_by x l : In x (fold_right insert_by [] l) <-> In x l.
  Proof. split; apply Permutation_in; [|apply Permutation_sym]; apply sort_by_perm. Qed.
End Insert.

(* The numbers [s, s + n).  Lsm.tw_names, Splitters.iota_from and HttpReader.h_range have this body and must keep it: the
   lemmas apply to them by conversion. *)
Fixpoint iota (s : N) (n : nat) : list N :=
  match n with O => [] | S k => s :: iota (s + 1) k end.

Lemma In_iota n : forall s i, In i (iota s n) <-> (s <= i < s + N.of_nat n)%N.
Proof. induction n as [|n IH]; intros s i; cbn [iota In]; [lia|]. rewrite IH. lia. Qed.

Lemma NoDup_iota n : forall s, NoDup (iota s n).
Proof. induction n as [|n IH]; intro s; cbn [iota]; constructor; [|apply IH]. rewrite In_iota. lia. Qed.

(* the midpoint of a non-empty window of positions lies in it: the step of every binary search *)
Lemma div2_mid low high : low < high -> low <= Nat.div2 (low + high) < high.
Proof.
  intros H. rewrite Nat.div2_div. split; [apply Nat.div_le_lower_bound | apply Nat.div_lt_upper_bound]; lia.
Qed.

(* slices.BinarySearchFunc over positions.  Model.Rescale.bsearch has this body and must keep it (the lemmas below apply to
   it by conversion); Model.SstTable.bsearch is this search as long as its callback does not fail. *)
Fixpoint bisect (fuel : nat) (c : nat -> comparison) (i j : nat) : nat :=
  match fuel with
  | O => i
  | S f =>
      if Nat.ltb i j then
        let h := Nat.div2 (i + j) in
        match c h with
        | Lt => bisect f c (S h) j
        | _ => bisect f c i h
        end
      else i
  end.

(* where "less" is an initial stretch of [0, n), the search returns its end *)
Lemma bisect_spec (c : nat -> comparison) n :
  (forall a b, a <= b -> b < n -> c b = Lt -> c a = Lt) ->
  forall fuel i j, j - i < fuel -> i <= j -> j <= n ->
  (forall h, h < i -> c h = Lt) -> (forall h, j <= h -> h < n -> c h <> Lt) ->
  let r := bisect fuel c i j in
  r <= n /\ (forall h, h < r -> c h = Lt) /\ (forall h, r <= h -> h < n -> c h <> Lt).
Proof.
  intros Hmono. induction fuel as [|fuel IH]; intros i j Hf Hij Hjn Hlo Hhi; [lia|]. cbn [bisect].
  destruct (Nat.ltb_spec i j) as [E|E]; [|repeat split; [lia|exact Hlo|intros h Hh; apply Hhi; lia]].
  pose proof (div2_mid i j E) as Hh. set (h := Nat.div2 (i + j)) in *.
  destruct (c h) eqn:Ch.
  2:{ (* "less" up to h *)
      apply (IH (S h) j); [lia|lia|lia| |exact Hhi]. intros k Hk. apply (Hmono k h); [lia|lia|exact Ch]. }
  (* not "less" from h on *)
  all: apply (IH i h); [lia|lia|lia|exact Hlo|]; intros k Hk Hkn Hc; rewrite (Hmono h k Hk Hkn Hc) in Ch; discriminate.
Qed.

Lemma bisect_all (c : nat -> comparison) n :
  (forall a b, a <= b -> b < n -> c b = Lt -> c a = Lt) ->
  let r := bisect (S n) c 0 n in
  r <= n /\ (forall h, h < r -> c h = Lt) /\ (forall h, r <= h -> h < n -> c h <> Lt).
Proof. intros Hm. apply (bisect_spec c n Hm); intros; lia. Qed.

(* on a slice: the elements before the result are "less", those from it on are not *)
Lemma bisect_list {A} (f : A -> comparison) d l : StronglySorted (fun a b => f b = Lt -> f a = Lt) l ->
  let r := bisect (S (length l)) (fun h => f (nth h l d)) 0 (length l) in
  Forall (fun x => f x = Lt) (firstn r l) /\ Forall (fun x => f x <> Lt) (skipn r l).
Proof.
  intros Hs. destruct (bisect_all (fun h => f (nth h l d)) (length l)) as (_ & Hlo & Hhi).
  - intros a b Hab Hb. destruct (Nat.eq_dec a b) as [->|Hne]; [auto|].
    apply (StronglySorted_nth _ l Hs a b); [lia|apply nth_error_nth'; lia..].
  - split; [apply (Forall_firstn_nth _ d); intros h Hh _; exact (Hlo h Hh)|apply (Forall_skipn_nth _ d); exact Hhi].
Qed.
