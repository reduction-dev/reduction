(* C09 - files needed by retained checkpoints or live tables are never deleted.
   Statements, each proved in a few lines from the lemmas of Proofs/C09_Gc.v and C09_Inv.v. The world model (Model/Gc.v) has one shared file system, several database
   objects with their heaps of table objects, and OGc = collection of every unreachable table object. *)
From Coq Require Import List NArith Bool.
Import ListNotations.
From RV Require Import Base.Bytes Model.Ckpt Model.Gc Proofs.C09_Gc.
Open Scope N_scope.

(* retained_files_exist at full strength: in every reachable state, every file referenced by the persisted document of a
   completed handle that no retention update dropped exists. FALSE of the faithful model (finding D11): after ODrop of the
   object that created a checkpoint's tables, a collection deletes them although the document is still retained. *)
Definition retained_files_exist_full_statement : Prop := retained_files_exist_full 60 1000.

Theorem retained_files_exist_full_refuted : ~ retained_files_exist_full_statement.
Proof. exact full_statement_refuted. Qed.
Print Assumptions retained_files_exist_full_refuted.

Theorem retained_files_exist_refuted :
  let w := run (init_world 60 1000) d11_history in
  handle_dir w 1 = Some 0 /\ handle_files_exist w 1 = false /\
  handle_files_exist (run (init_world 60 1000) (firstn 12 d11_history)) 1 = true.
Proof. exact C09_Gc.retained_files_exist_refuted. Qed.
Print Assumptions retained_files_exist_refuted.

(* the same history with a crash instead of the same-process drop keeps every file: the class of D11 is exactly the drop *)
Theorem crash_keeps_files :
  handle_files_exist (run (init_world 60 1000) (firstn 11 d11_history ++ [OCrash 0; OGc])) 1 = true.
Proof. vm_compute. reflexivity. Qed.
Print Assumptions crash_keeps_files.

(* retained_files_exist_partial - the step facts the invariant consists of (the induction over whole histories outside the
   D11 class is NOT proved; it is what the correspondence check tests on every run, codes 100/101/103): *)

(* 1. a collection never deletes a file the collecting object can still reach (current level set, retained and pending
      checkpoints, tables held by a flush or compaction between write and swap) *)
Theorem retained_files_exist_partial_own_reachable : forall w x n, In n (gc_one w x) -> ~ In n (reachable_names x).
Proof. exact gc_spares_own_reachable. Qed.
Print Assumptions retained_files_exist_partial_own_reachable.

(* 2. an erroring / unreachable neighbour means keep *)
Theorem neighbour_error_means_keep : forall w x o lo hi,
  o_fromdoc o = true -> x_own x = OwnRange lo hi -> x_nb x = NbErr -> cleanup_deletes w x o = false.
Proof. intros w x o lo hi F O N. apply (unclean_answer_keeps w x o lo hi AErr F O); [rewrite N; left|]; reflexivity. Qed.
Print Assumptions neighbour_error_means_keep.

(* 3. a live neighbour that references the table in any checkpoint of its list - loaded or taken by itself - keeps it *)
Theorem neighbour_need_means_keep : forall w x o lo hi y,
  o_fromdoc o = true -> x_own x = OwnRange lo hi ->
  x_nb x = NbLive -> In y (g_dbs w) -> is_live y = true -> needs_table y (o_name o) = true ->
  cleanup_deletes w x o = false.
Proof.
  intros w x o lo hi y F O N Hy L Nd. apply (unclean_answer_keeps w x o lo hi ALive F O); [rewrite N; left; reflexivity|].
  apply negb_false_iff, existsb_exists. exists y. split; [exact Hy|]. rewrite L, Nd. reflexivity.
Qed.
Print Assumptions neighbour_need_means_keep.

(* "unknown / not deployed" is never "not needed": a member of the assembly whose process is gone (its operator is registered
   but has no database: the NeedsTable RPC fails) keeps the file *)
Theorem undeployed_neighbour_means_keep : forall w x o lo hi y,
  o_fromdoc o = true -> x_own x = OwnRange lo hi -> x_nb x = NbOp ->
  In y (g_dbs w) -> x_nb y = NbOp -> x_state y = Crashed -> cleanup_deletes w x o = false.
Proof.
  intros w x o lo hi y F O N Hy Ny Cy. apply (unclean_answer_keeps w x o lo hi AOp F O); [rewrite N; left; reflexivity|].
  apply negb_false_iff, existsb_exists. exists y. split; [exact Hy|]. rewrite Ny, Cy. apply orb_true_r.
Qed.
Print Assumptions undeployed_neighbour_means_keep.

Theorem needs_table_covers_own_checkpoints : forall x c t, In c (x_ckpts x) -> In t (c_tabs c) -> needs_table x (t_name t) = true.
Proof.
  intros x c t Hc Ht. apply existsb_exists. exists c. split; [exact Hc|]. apply mem_name_in, in_map, Ht.
Qed.
Print Assumptions needs_table_covers_own_checkpoints.

(* 4. a crashed process runs no cleanup *)
Theorem crashed_objects_delete_nothing : forall w f done dels x,
  x_state x = Crashed -> gc_db w (f, done, dels) x = (f, done ++ [x], dels).
Proof. intros w f done dels x C. unfold gc_db. rewrite C. reflexivity. Qed.
Print Assumptions crashed_objects_delete_nothing.

(* dropped_wals_removed: once the retention update HAS BEEN SAVED (its Save returned without error), the WAL file of every
   checkpoint it dropped is gone (a checkpoint is dropped when its id is neither listed nor newer than every listed id); EVERY WAL handle of a checkpoint
   restored from several instances is removed, also when a sibling has already removed one of them ... *)
Theorem dropped_wals_removed : forall w d ids f x c,
  get_db w d = Some x -> retain_empty w d ids = false -> retain_ok w d ids f = true -> In c (x_ckpts x) -> retain_keeps ids c = false ->
  forall n, In n (c_allw c) -> fs_has (g_fs (step_retain w d ids f)) n = false.
Proof.
  intros w d ids f x c G NE OK Hc NK n Hn. rewrite (step_retain_fs w d ids f x G), NE. unfold retain_ok in OK. rewrite G in OK.
  apply (save_ok_removes_pending_wals _ _ _ c); [exact OK| |exact Hn].
  cbn [with_ck x_pending]. apply in_or_app. right. apply filter_In. split; [exact Hc|]. rewrite NK. reflexivity.
Qed.
Print Assumptions dropped_wals_removed.

(* a retention update that names no checkpoint of the database (a late update of an earlier generation) is refused and changes
   nothing: neither the list nor the pending removals *)
Theorem refused_retention_update_changes_nothing : forall w d ids f, retain_empty w d ids = true -> step_retain w d ids f = w.
Proof.
  intros w d ids f. unfold retain_empty, step_retain. destruct (get_db w d) as [x|]; [|discriminate].
  destruct (filter (retain_keeps ids) (x_ckpts x)); [reflexivity|discriminate].
Qed.
Print Assumptions refused_retention_update_changes_nothing.

(* ... and only then: a retention update whose Save fails (storage fault while writing the checkpoints file, or while deleting)
   removes no file at all - the durable list still references the dropped checkpoints and their WALs are still there *)
Theorem failed_retention_save_removes_nothing : forall w d ids f x n,
  get_db w d = Some x -> retain_ok w d ids f = false -> fname_eqb n (x_dir x, 2, 0) = false ->
  fs_has (g_fs (step_retain w d ids f)) n = fs_has (g_fs w) n.
Proof.
  intros w d ids f x n G OK NE. rewrite (step_retain_fs w d ids f x G). destruct (retain_empty w d ids); [reflexivity|].
  unfold retain_ok in OK. rewrite G in OK. apply failed_save_deletes_nothing; [exact OK|exact NE].
Qed.
Print Assumptions failed_retention_save_removes_nothing.

(* ---------------------------------------------------------------------------------------------------------------------------
   retained_files_exist_partial: the invariant, by induction over EVERY history of the world model (writes, flush incl. a failing
   table save, compaction, Checkpoint and its asynchronous part incl. failing WAL / list saves, retention update + Save incl.
   failing saves, restore into the same or a fresh directory, collection of every unreachable table object under every
   neighbour answer, crash, drop) whose steps satisfy the monitor [step_ok] (Proofs/C09_Inv.v):
     - a collection removes no file that a party OTHER than the collecting object needs ([gc_ok]; its failure by a table object
       created by a dropped database object is finding D11 - [d11_pattern]; its failure by an object opened from a document is an
       unsound ownership / neighbour answer);
     - the Destroy of a saved retention update removes no WAL another party needs ([destroy_ok]);
     - Checkpoint ids are fresh in the list, operations address live objects, a restore uses a handle that no saved update
       dropped and, into the source's directory, only when no live object writes there; compaction outputs are table files.
   What an object does to itself and to the durable list of its own directory (own collection, own Destroy, own saves -
   successful or failing) is PROVED safe, not assumed. *)
From RV Require Import Proofs.C09_Inv.

Theorem retained_files_exist_partial : forall mem wm ops,
  run_ok (init_world mem wm) ops ->
  let w := run (init_world mem wm) ops in
  (forall id D, In (id, D) (g_handles w) -> ~ In id (g_dropped w) ->
     exists docs d, fs_get (g_fs w) (D, 2, 0) = Some (FCk docs) /\ find_doc docs id = Some d /\
                    fs_has (g_fs w) (dc_wal d) = true /\ forall t, In t (dc_tables d) -> fs_has (g_fs w) (td_name t) = true) /\
  (forall i x t, nth_error (g_dbs w) i = Some x -> x_state x = Live -> In t (d_tables (x_core x)) -> fs_has (g_fs w) (t_name t) = true).
Proof. exact (fun mem wm ops OK => safe_files_exist _ (safe_run ops _ (safe_init mem wm) OK)). Qed.
Print Assumptions retained_files_exist_partial.

(* the invariant is preserved by every single step *)
Theorem retained_files_exist_step : forall w o, Safe w -> step_ok w o -> Safe (step w o).
Proof. intros w o. apply safe_step. Qed.
Print Assumptions retained_files_exist_step.

(* the class predicate of finding D11, and that it is a failure of the monitor *)
Theorem d11_is_a_monitor_failure : forall w, d11_pattern w -> ~ gc_ok w.
Proof.
  intros w [i [x [o [Hx [Dp [Ho [Cr P]]]]]]] OK. apply (OK i x (o_name o) Hx); [rewrite Dp; discriminate| |exact P].
  unfold gc_one. apply in_map, filter_In. split; [|unfold cleanup_deletes; rewrite Cr; reflexivity].
  apply filter_In. split; [exact Ho|]. unfold reachable_names. rewrite Dp. reflexivity.
Qed.
Print Assumptions d11_is_a_monitor_failure.

(* non-vacuity: a history with a checkpoint, a retention update whose save fails, and a collection satisfies the monitor *)
Example monitored_history_exists :
  run_ok (init_world 60 1000)
    [OPut 0 [0;0;97] [49] false; OCkpt 0 1; OStepCkpt 0 1; OStepCkpt 0 1; ORetainF 0 [1] 1; OGc; OCrash 0; ORestore 1 1 false OwnAll NbNone].
Proof.
  cbn [run_ok]. repeat match goal with |- _ /\ _ => split end; try exact I.
  - (* OCkpt: the object is live, the id new *) intros x H. vm_compute in H. inversion H; subst. split; [reflexivity|]. cbn. intros [].
  - (* OStepCkpt, WAL save: nothing pending *) intros x H. vm_compute in H. inversion H; subst. split; [reflexivity|]. intros c n [].
  - (* OStepCkpt, list save: nothing pending *) intros x H. vm_compute in H. inversion H; subst. split; [reflexivity|]. intros c n [].
  - (* ORetainF: the Save fails, no Destroy *) intros x H. vm_compute in H. inversion H; subst. split; [reflexivity|]. intro E. vm_compute in E. discriminate.
  - (* OGc: the one object has nothing to collect *) intros i x n Hx NC Hn. exfalso.
    destruct i as [|i]; [|destruct i; vm_compute in Hx; discriminate]. vm_compute in Hx. inversion Hx; subst. vm_compute in Hn. exact Hn.
  - (* ORestore: the id is not dropped, the directory fresh *) split; [vm_compute; intros []|]. intros E. discriminate E.
Qed.

(* several neighbours: the decision of the table cleanup is invariant under permutation of the order in which the answers
   arrive; any claim, failure or missing answer among them keeps the file, and the file goes only when every answer was a
   clean "not needed" *)
Theorem neighbour_answer_order_irrelevant : forall w x o l l',
  Permutation.Permutation l l' ->
  cleanup_deletes w (mkW (x_core x) (x_dir x) (x_own x) (NbSeq l) (x_next x) (x_ckpts x) (x_pending x) (x_flush x) (x_flushq x) (x_comp x) (x_compq x) (x_cktasks x) (x_objs x) (x_state x)) o =
  cleanup_deletes w (mkW (x_core x) (x_dir x) (x_own x) (NbSeq l') (x_next x) (x_ckpts x) (x_pending x) (x_flush x) (x_flushq x) (x_comp x) (x_compq x) (x_cktasks x) (x_objs x) (x_state x)) o.
Proof.
  intros w x o l l' P. unfold cleanup_deletes. cbn [x_own x_nb]. destruct (o_fromdoc o); [|reflexivity].
  destruct (x_own x); [reflexivity|]. apply forallb_permutation. exact P.
Qed.
Print Assumptions neighbour_answer_order_irrelevant.

Theorem any_claim_or_failure_means_keep : forall w x o lo hi l a,
  o_fromdoc o = true -> x_own x = OwnRange lo hi -> x_nb x = NbSeq l -> In a l ->
  (a = AClaim \/ a = AErr \/ a = ANever) -> cleanup_deletes w x o = false.
Proof.
  intros w x o lo hi l a F O N Ha K. apply (unclean_answer_keeps w x o lo hi a F O); [rewrite N; exact Ha|].
  destruct K as [->|[->| ->]]; reflexivity.
Qed.
Print Assumptions any_claim_or_failure_means_keep.
