(* C13 - restart resumes from the newest completed checkpoint; retention keeps it.  Statements, each proved in a few lines from the lemmas of Proofs/C13_*.v.
   Models: Model/PathSeg.v (pathSegment / idFromPathSegment at byte level, listing order, LoadCheckpoint's
   choice), Model/Publish.v (the individually schedulable steps of overlapping publications, crash, restart). *)
From RV Require Import Base.Mach Base.Bytes Model.PathSeg Model.Publish Proofs.C13_PathSeg Proofs.C13_Publish.
Open Scope N_scope.

(* idFromPathSegment inverts pathSegment for every 64-bit id (base64url modelled exactly) *)
Theorem path_segment_roundtrip : forall id, id <= max64 -> seg_id (path_segment id) = Some id.
Proof. exact seg_id_path_segment. Qed.
Print Assumptions path_segment_roundtrip.

(* for every finite set of ids present in storage, the repaired LoadCheckpoint loads the maximum -
   whatever the order in which the storage lists the files *)
Theorem load_picks_max : forall ids, ids <> [] -> Forall (fun i => i <= max64) ids ->
  load false ids = Some (list_max ids) /\
  (forall listed, listed <> [] -> Forall (fun i => i <= max64) listed -> load_max listed = Some (list_max listed)).
Proof.
  intros ids Hne Hok. split; [exact (load_picks_max_lemma ids Hne Hok)|].
  intros listed H1 H2. exact (load_max_any_order listed H1 H2).
Qed.
Print Assumptions load_picks_max.

(* D16 (repaired by a fix: commit): file names are not monotone in the id and the old "first listed file" is refuted *)
Theorem names_not_monotone : exists a b, a < b /\ bltb (snap_name a) (snap_name b) = true.
Proof. exists 2, 3. split; [lia|vm_compute; reflexivity]. Qed.
Print Assumptions names_not_monotone.

Theorem load_first_listed_refuted :
  exists ids, ids <> [] /\ Forall (fun i => i <= max64) ids /\ load true ids <> Some (list_max ids).
Proof.
  exists [2; 3]. split; [discriminate|]. split; [repeat constructor; vm_compute; discriminate|vm_compute; discriminate].
Qed.
Print Assumptions load_first_listed_refuted.

Example listing_of_1_to_6 : listing [1; 2; 3; 4; 5; 6] = [2; 1; 6; 5; 4; 3].
Proof. vm_compute. reflexivity. Qed.

(* publication, cleanup and notification: for EVERY schedule of the steps of arbitrarily many overlapping
   publications (Start / W / U / R / TL / TR of Model/Publish.v, disabled steps are no-ops) with crashes, plain
   restarts and starts from a savepoint (Rewind: ids of the abandoned timeline are issued again and their files
   rewritten) and failing snapshot writes (WFail) anywhere, starting from a storage that holds checkpoint [base] (0 = empty), at EVERY point:
   - the snapshot file of the newest checkpoint ever written is in storage, and no spawned Remove call names it;
   - LoadCheckpoint on the storage as it is now returns exactly that checkpoint (crash point = now);
   - the retained-id notifications received so far are strictly increasing, name only written checkpoints, and
     the one about to be delivered is newer than all of them. *)
Theorem publish_keeps_newest : forall base sched, base <= max64 ->
  let s := exec prepaired (boot prepaired base) sched in
  (written s = [] \/ In (list_max (written s)) (files s)) /\
  load false (files s) = match written s with [] => None | _ => Some (list_max (written s)) end /\
  (forall ids i, In ids (pend_rm s) -> In i ids -> i < list_max (written s)) /\
  completed (exec1 prepaired s Crash) = match written s with [] => [] | _ => [list_max (written s)] end /\
  incr (received s) /\
  (forall r, In r (received s) -> In r (written s)) /\
  (forall h, nhold s = Some h -> (forall r, In r (received s) -> r < h) /\ In h (written s)).
Proof.
  intros base sched Hb s. destruct (reach base sched Hb) as [K Nn].
  split; [exact (k_newest s K)|]. split; [exact (load_of_KS s K)|]. split; [exact (k_rm s K)|].
  split; [rewrite (crash_state s K); reflexivity|]. split; [exact (n_sorted Nn)|].
  split; [intros r Hr; apply (k_done s K); right; left; exact Hr|].
  intros h Hh. split; [exact (proj1 (n_hold Nn h Hh))|]. apply (k_done s K). right. right. left. exact Hh.
Qed.
Print Assumptions publish_keeps_newest.

(* D17 (repaired by a fix: commit): without the id guard a delayed publication deletes the newest file and
   an older id is announced after a newer one *)
Theorem unguarded_publication_refuted :
  exists sched, let s := exec (MkPQ false true) (boot (MkPQ false true) 0) sched in
    ~ In (list_max (written s)) (files s) /\ ~ incr (received s).
Proof.
  exists d17_schedule. vm_compute. split.
  - intros [H|[H|[]]]; discriminate.
  - intros [H _]. specialize (H 2 (or_introl eq_refl)). vm_compute in H. discriminate.
Qed.
Print Assumptions unguarded_publication_refuted.

(* non-vacuity: the same schedule on the repaired model keeps checkpoint 3 and announces only [3] *)
Example d17_schedule_repaired :
  let s := exec prepaired (boot prepaired 0) d17_schedule in
  files s = [2; 3; 1] /\ received s = [3] /\ completed s = [3].
Proof. vm_compute. repeat split. Qed.

(* operator side (modelled only): RetainOnly with a notification [n], however late it arrives, keeps the
   operator's newest checkpoint *)
Theorem retain_only_keeps_newest : forall n l, In n l -> In (list_max l) (retain_only [n] l).
Proof. exact retain_only_keeps_newest_lemma. Qed.
Print Assumptions retain_only_keeps_newest.

(* non-vacuity of the rewind regime: savepoint at 1, run to 3, start again from 1, reach 3 again, cleanup:
   file 3 (rewritten) is the newest and is what a restart loads *)
Example rewind_schedule :
  let s := exec prepaired (boot prepaired 0)
             [Start 1; W 1; U 1; Start 2; W 2; U 2; R 0; Start 3; W 3; U 3; R 0; Rewind 1;
              Start 2; W 2; U 2; R 0; Start 3; W 3; U 3; R 0] in
  files s = [3] /\ completed s = [3] /\ load false (files s) = Some 3.
Proof. vm_compute. repeat split. Qed.

(* operator side, whole sequences: a database that takes DKV checkpoints 1, 2, ... and receives retention
   notifications, each naming a checkpoint it holds at that moment - however late they arrive (after one, two, ...
   newer checkpoints were taken) - still holds the newest checkpoint it took.  Tied to the real dkv.DB by the
   `retain` cases of engine snapstore. *)
Theorem retain_run_keeps_newest : forall steps,
  retain_valid [] 1 steps ->
  (taken 1 steps = 0 /\ retain_run [] 1 steps = []) \/ In (taken 1 steps) (retain_run [] 1 steps).
Proof.
  intros steps Hv. rewrite <- (retain_run_max steps [] 1) by (cbn; trivial).
  destruct (retain_run [] 1 steps); [left; split; reflexivity|right; apply list_max_In; discriminate].
Qed.
Print Assumptions retain_run_keeps_newest.

Example late_retention_sequence :
  retain_run [] 1 [RCk; RCk; RRt 1; RCk; RRt 2; RCk] = [2; 3; 4] /\ retain_valid [] 1 [RCk; RCk; RRt 1; RCk; RRt 2; RCk].
Proof. vm_compute. repeat split; auto. Qed.

(* whenever the job (re)starts: jobs.New either starts from the checkpoint of the highest id present in its storage
   or refuses to start (any error of reading the chosen file) - it never starts empty while a checkpoint is listed *)
Theorem job_starts_from_newest_or_refuses : forall ids fault,
  Forall (fun i => i <= max64) ids ->
  (ids = [] /\ job_start ids fault = Some None) \/
  (ids <> [] /\ (job_start ids fault = None \/ job_start ids fault = Some (Some (list_max ids)))).
Proof.
  intros ids fault Hok. unfold job_start. destruct ids as [|x l]; [left; split; reflexivity|].
  right. split; [discriminate|]. rewrite load_picks_max_lemma by (auto; discriminate).
  destruct (fault =? 0); [right|left]; reflexivity.
Qed.
Print Assumptions job_starts_from_newest_or_refuses.

(* a snapshot write that fails leaves storage, completedSnapshots, pending removals, notifiers and notifications
   exactly as they were (the publication just disappears) *)
Theorem write_failure_is_inert : forall q s n,
  let s' := exec1 q s (WFail n) in
  files s' = files s /\ completed s' = completed s /\ pend_rm s' = pend_rm s /\ nwait s' = nwait s /\
  nhold s' = nhold s /\ received s' = received s /\ written s' = written s /\ last s' = last s.
Proof. intros q s n. unfold exec1. destruct (mem n (inflW s)); cbn; repeat split. Qed.
Print Assumptions write_failure_is_inert.
