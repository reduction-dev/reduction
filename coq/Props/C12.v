(* C12 - a job checkpoint is all-or-nothing and checkpoint ids only grow.  Statements only.
   The store model is Model/SnapStore.v ([step], [run], [trace]); the specification is the monitor
   [mon_run] of the same file, which reads nothing but (API call, result) pairs and reports
   11/12 (a published checkpoint is not exactly: one entry per operator of the assembly given at creation, each
   carrying the checkpoint's id, plus the split states of every source runner once / it was published before every
   node acknowledged), 13 (second checkpoint in progress), 14 (id not above the previous one of this store lifetime),
   15 (id not above every id published so far, restarts included), 16 (restart does not resume from the newest
   published checkpoint).  All theorems quantify over EVERY list of calls: duplicates, stale and future ids,
   unknown senders, creations while one is pending, savepoint joins, restarts at any point. *)
From RV Require Import Base.Mach Model.SnapStore Proofs.C12_SnapStore Proofs.C12_Inert.
From RV Require Model.PathSeg Model.Publish Proofs.C13_Publish.
Open Scope N_scope.

Theorem spec_accepts_every_history : forall acts, mon_run mon_init (trace repaired acts) = [].
Proof. intros acts. exact (run_accepted acts init mon_init Inv_init). Qed.
Print Assumptions spec_accepts_every_history.

Theorem published_complete : forall acts,
  ~ In 11 (mon_run mon_init (trace repaired acts)) /\ ~ In 12 (mon_run mon_init (trace repaired acts)).
Proof. intros acts. rewrite spec_accepts_every_history. split; intros []. Qed.
Print Assumptions published_complete.

Theorem bad_acks_inert : forall acts a,
  let w := final repaired init acts in
  bad_ack w a ->
  (fst (step repaired w a) = w /\ exists e, snd (step repaired w a) = RAck e None) \/ empty_assembly w.
Proof. intros acts a. exact (bad_ack_inert _ a (final_incomplete repaired acts init I)). Qed.
Print Assumptions bad_acks_inert.

Theorem at_most_one_pending : forall acts,
  ~ In 13 (mon_run mon_init (trace repaired acts)) /\
  (forall w ops srs p, w = final repaired init acts -> pend (w_store w) = Some p ->
     step repaired w (ACreate ops srs) = (w, RCreate true 0)).
Proof.
  intros acts. rewrite spec_accepts_every_history. split; [intros []|].
  intros w ops srs p _ Hp. exact (proj1 (create_while_pending_refused repaired w ops srs p Hp)).
Qed.
Print Assumptions at_most_one_pending.

Theorem ids_strictly_increase : forall acts,
  ~ In 14 (mon_run mon_init (trace repaired acts)) /\
  (forall w lifetime, w = final repaired init acts -> no_restart lifetime ->
     increasing_from (ckpt_id (w_store w)) (handed_ids (run repaired w lifetime))).
Proof.
  intros acts. rewrite spec_accepts_every_history. split; [intros []|].
  intros w lifetime _ Hnr. exact (ids_increase_in_lifetime repaired lifetime w Hnr).
Qed.
Print Assumptions ids_strictly_increase.

Theorem ids_exceed_published : forall acts,
  ~ In 15 (mon_run mon_init (trace repaired acts)) /\ ~ In 16 (mon_run mon_init (trace repaired acts)).
Proof. intros acts. rewrite spec_accepts_every_history. split; intros []. Qed.
Print Assumptions ids_exceed_published.

(* "published (persisted, used for recovery, announced for retention) only after ...": a checkpoint whose snapshot
   file could not be written is not published at all - in every state, when the write of a completed checkpoint
   fails the result is RAckFailed with no removal and no notification, and files, completedSnapshots (the recovery
   checkpoint), savepoint artifacts and the id counter are unchanged.  (Histories with failing writes are part of
   every theorem above: AFailNextWrite is an action, and the monitor's code 18 rejects any other outcome.) *)
Theorem failed_write_publishes_nothing : forall w p,
  is_complete p = true -> w_failw w = true ->
  let (w', r) := finish_if_complete w p in
  r = RAckFailed false [] [] (cur_of w) /\
  w_files w' = w_files w /\ completed (w_store w') = completed (w_store w) /\ w_sps w' = w_sps w /\
  ckpt_id (w_store w') = ckpt_id (w_store w) /\ pend (w_store w') = None.
Proof. intros w p Hc Hf. rewrite (finish_failed_write w p Hc Hf). repeat split. Qed.
Print Assumptions failed_write_publishes_nothing.

(* the stronger reading of "ids grow across restarts" (no id is ever handed out twice) does not hold:
   an id handed out but never published is handed out again after a restart *)
Theorem ids_handed_out_refuted :
  exists acts, ~ NoDup (handed_ids (run repaired init acts)).
Proof.
  exists [ACreate [1] [1]; ARestart; ACreate [1] [1]]. intros H. vm_compute in H.
  inversion H as [|? ? Hn _]. apply Hn. left. reflexivity.
Qed.
Print Assumptions ids_handed_out_refuted.

(* D15 (repaired by a fix: commit): the code before the repair violates published_complete *)
Theorem dup_sr_ack_refutes_published_complete :
  exists acts, In 11 (mon_run mon_init (trace before_d15 acts)).
Proof. exists [ACreate [1] [1]; AAckSr 1 1 [5]; AAckSr 1 1 [6]; AAckOp 1 1 1]. vm_compute. left. reflexivity. Qed.
Print Assumptions dup_sr_ack_refutes_published_complete.

(* non-vacuity: a history with a publication, bad acks and a restart, and the monitor does reject a wrong trace *)
Example history_publishes :
  exists pub, In (RAck false (Some pub))
    (run repaired init [ACreate [1;2] [1]; AAckSr 1 1 [5]; AAckSr 1 1 [6]; AAckOp 0 1 1; AAckOp 1 9 1; AAckOp 1 1 1; AAckOp 1 2 2; ARestart]).
Proof. eexists. vm_compute. do 6 right. left. reflexivity. Qed.
Example monitor_rejects_missing_entry :
  mon_run mon_init [(ACreate [1;2] [1], RCreate false 1); (AAckSr 1 1 [5], RAck false None);
                    (AAckOp 1 1 1, RAck false (Some (MkPub (MkSnap 1 [(1,1,1)] [5]) [] [] false)))] = [12].
Proof. vm_compute. reflexivity. Qed.
Example failed_write_history :
  run repaired init [ACreate [1] [1]; AAckOp 1 1 1; AAckSr 1 1 [7]; AFailNextWrite; ACreate [1] [1]; AAckOp 2 1 2; AAckSr 2 1 [8];
                     ACreate [1] [1]; ARestart]
  = [RCreate false 1; RAck false None; RAck false (Some (MkPub (MkSnap 1 [(1, 1, 1)] [7]) [] [] false)); RFault;
     RCreate false 2; RAck false None; RAckFailed false [] [] (Some 1); RCreate false 3;
     RRestart [1] (Some (MkSnap 1 [(1, 1, 1)] [7]))].
Proof. vm_compute. reflexivity. Qed.
Example bad_ack_satisfiable : bad_ack (final repaired init [ACreate [1] [1]]) (AAckOp 1 9 0).
Proof. vm_compute. right. discriminate. Qed.
(* non-vacuity of the restart regime: the cleanup of three publications is lost, the restart finds the files of
   1, 2 and 3, resumes from 3 and hands out 4 *)
Example restart_with_obsolete_files :
  let acts := [ALoseRemoves true; ACreate [1] [1]; AAckOp 1 1 1; AAckSr 1 1 [7]; ACreate [1] [1]; AAckOp 2 1 2; AAckSr 2 1 [8];
               ACreate [1] [1]; AAckOp 3 1 3; AAckSr 3 1 [9]; ARestart; ACreate [1] [1]] in
  map sn_id (w_files (final repaired init acts)) = [3; 2; 1] /\
  nth 10 (run repaired init acts) RFault = RRestart [3; 2; 1] (Some (MkSnap 3 [(1, 3, 3)] [9])) /\
  nth 11 (run repaired init acts) RFault = RCreate false 4.
Proof. vm_compute. repeat split. Qed.
(* a start from a savepoint is an explicit rewind: the store resumes from the savepoint, ids continue above the
   savepoint's id (ids of the abandoned timeline are issued again, by design of "the savepoint overrides the
   local checkpoints"), and the monitor accepts exactly that *)
Example start_from_savepoint :
  let acts := [ASavepoint [1] [1]; AAckOp 1 1 1; AAckSr 1 1 [7]; ACreate [1] [1]; AAckOp 2 1 2; AAckSr 2 1 [8];
               ARestartFrom 1; ACreate [1] [1]; AAbort; AAckOp 2 1 5] in
  nth 6 (run repaired init acts) RFault = RRestart [2] (Some (MkSnap 1 [(1, 1, 1)] [7])) /\
  nth 7 (run repaired init acts) RFault = RCreate false 2 /\
  nth 9 (run repaired init acts) RFault = RAck true None.
Proof. vm_compute. repeat split. Qed.

(* "used for recovery ... ids only grow", under overlapping publications (Model/Publish.v, every schedule of
   Start / write / locked update / remove / notifier steps, any number of publications in flight): within a store
   lifetime the id of the checkpoint the store would recover from (completedSnapshots) never decreases - a
   publication whose file write returns after a newer checkpoint was published does not replace it *)
Theorem current_checkpoint_never_goes_back : forall base sched st,
  (base <= PathSeg.max64)%N ->
  let s := Publish.exec Publish.prepaired (Publish.boot Publish.prepaired base) sched in
  match st with
  | Publish.Crash | Publish.Rewind _ => True
  | _ => (C13_Publish.cur_id s <= C13_Publish.cur_id (Publish.exec1 Publish.prepaired s st))%N
  end.
Proof. intros base sched st _ s. apply C13_Publish.cur_monotone_step. Qed.
Print Assumptions current_checkpoint_never_goes_back.

(* seeded C12r3-3 / D17: with the unguarded reset the current checkpoint goes back from 3 to 2 *)
Theorem unguarded_reset_goes_back :
  exists sched st, let q := Publish.MkPQ false true in
    let s := Publish.exec q (Publish.boot q 0) sched in
    (C13_Publish.cur_id (Publish.exec1 q s st) < C13_Publish.cur_id s)%N.
Proof.
  exists [Publish.Start 1; Publish.W 1; Publish.U 1; Publish.Start 2; Publish.Start 3; Publish.W 3; Publish.U 3; Publish.W 2], (Publish.U 2).
  vm_compute. reflexivity.
Qed.
Print Assumptions unguarded_reset_goes_back.
