(* C06 - rescaling redistributes checkpointed state completely and exclusively. Statements, each proved in a few lines from the lemmas of Proofs/C06_*.v. *)
From Coq Require Import List NArith Sorting.Permutation Sorting.Sorted.
From RV Require Import Model.AssignRanges Model.Rescale Proofs.C06_Assign Proofs.C06_Rescale.
From RV Require Import Proofs.C07_Sorted Proofs.C18_Layout Proofs.C06_Clean Proofs.C06_Search.
Import ListNotations.
Open Scope N_scope.

(* For ANY two lists of ranges - hence every M, N >= 1, every key-group count and every order (permutation) in which
   the old operators' checkpoints were recorded - AssignRanges returns one entry per new range, and entry i lists,
   ascending and without repetition, exactly the positions j of the recorded list with to[i].Overlaps(from[j]). *)
Theorem assign_exact : forall to from,
  length (assign_ranges to from) = length to /\
  forall i, (i < length to)%nat ->
    let a := nth i (assign_ranges to from) [] in
    (forall j, In j a <-> (j < N.of_nat (length from) /\ overlaps (nth i to dflt) (nth (N.to_nat j) from dflt) = true)) /\
    StronglySorted N.lt a /\
    a = map fst (filter (fun p => overlaps (nth i to dflt) (snd p)) (indexed 0 from)).
Proof.
  intros to from. split; [apply assign_ranges_length|]. intros i Hi a. subst a. rewrite (assign_ranges_nth _ _ _ Hi).
  split; [apply assign_scan_owned|]. split; [apply assign_scan_sorted|apply assign_scan_filter].
Qed.
Print Assumptions assign_exact.

(* Property level: `from` is any permutation of the M old ranges of keyGroupRanges(count, M).  Every key group has
   exactly one old and one new owner and the old owner's checkpoint is handed to the new owner (complete); whatever is
   handed to a new operator shares a key group with it (exclusive; for non-empty ranges). *)
Theorem assign_complete_and_exclusive : forall count m n from,
  1 <= m -> 1 <= n -> Permutation from (kg_ranges count m) ->
  let to := kg_ranges count n in
  let asg := assign_ranges to from in
  length asg = N.to_nat n /\
  (forall kg, kg < count ->
     exists i j, (i < N.to_nat n)%nat /\ (j < length from)%nat /\
       includes_kg (nth i to dflt) kg = true /\ includes_kg (nth j from dflt) kg = true /\
       (forall i', (i' < N.to_nat n)%nat -> includes_kg (nth i' to dflt) kg = true -> i' = i) /\
       (forall j', (j' < length from)%nat -> includes_kg (nth j' from dflt) kg = true -> j' = j) /\
       In (N.of_nat j) (nth i asg [])) /\
  (forall i j, (i < N.to_nat n)%nat -> In j (nth i asg []) ->
     j < N.of_nat (length from) /\
     (fst (nth i to dflt) < snd (nth i to dflt) -> fst (nth (N.to_nat j) from dflt) < snd (nth (N.to_nat j) from dflt) ->
      exists kg, includes_kg (nth i to dflt) kg = true /\ includes_kg (nth (N.to_nat j) from dflt) kg = true)).
Proof.
  intros count m n from Hm Hn Hp to asg. destruct (assign_hands_owners to from) as [Hc He].
  unfold asg, to in *. rewrite assign_ranges_length, C05_KeySpace.kg_ranges_length in *. split; [reflexivity|]. split; [|exact He].
  intros kg Hk. destruct (C05_KeySpace.kg_ranges_partition count n kg (N.lt_le_trans _ _ _ N.lt_0_1 Hn) Hk) as (i & Hi & Hii & Hiu).
  destruct (unique_owner count m from kg Hm Hp Hk) as (j & Hj & Hji & Hju).
  exists i, j. repeat split; try assumption. exact (Hc i j kg Hi Hj Hii Hji).
Qed.
Print Assumptions assign_complete_and_exclusive.

(* non-vacuity: a permuted instance *)
Example assign_instance : Permutation [(2,4);(0,2)] (kg_ranges 4 2) /\ assign_ranges (kg_ranges 4 3) [(2,4);(0,2)] = [[1];[0];[0]].
Proof. split; [apply perm_swap|reflexivity]. Qed.

(* rescale_exact, the full statement ("each new operator sees, for every prefix of keys it owns, exactly what the old
   owner's database showed", Proofs/C06_Rescale.v sees_old_state) is FALSE of the faithful model of the repaired code:
   a permutation of the two old ranges, a new operator and an owned prefix where the old owner's entry is not read.
   The witness is in the class recompacted_shared_table (two different files with meeting key ranges in one level
   >= 1 of the composite) and outside the clean inputs; replayed on the implementation it is the known finding D22
   (corpus/rescale/d22_recompacted_shared_table.json). *)
Theorem rescale_exact_refuted :
  exists count n recorded i p,
    Permutation (map fst recorded) (kg_ranges count 2) /\
    ~ sees_old_state count n recorded i p /\
    class_witness count n recorded i = true /\ forallb doc_clean recorded = false.
Proof.
  exists 2, 1, d22_recorded, 0%nat, [0;1;2]. split; [apply perm_swap|]. split; [|split; vm_compute; reflexivity].
  intros H. specialize (H 0%nat (1, 2) docB' eq_refl).
  specialize (H (fun k => key_in_prefix (1, 2) 0 1 [2] k) (fun k => key_in_prefix (0, 2) 0 1 [2] k)).
  vm_compute in H. discriminate.
Qed.
Print Assumptions rescale_exact_refuted.

(* rescale_exact_partial: for ALL documents, handle orders and ranges, the database a new operator opens from its
   handles holds exactly the tables of those checkpoints (multiset equality: complete and exclusive at the level of
   files), its memtable holds exactly the OWNED entries of their WALs, in order, and nothing foreign; every replayed
   entry is numbered above every table, and the write counter continues above every loaded table, so that later writes
   win every merge by sequence number.  Together with assign_exact (the handles are exactly the overlapping old
   checkpoints) this is the part of rescale_exact that holds for every input.
   The step from here to "reads exactly the old owner's state" on clean inputs is rescale_exact_clean below. *)
Theorem rescale_exact_partial : forall sorted own d rest st,
  restore sorted own (d :: rest) = Some st ->
  Permutation (concat (s_levels st)) (flat_map tables_of (d :: rest)) /\
  map payload (s_mem st) = rev (map payload (filter (fun e => key_in own (e_key e)) (concat (flat_map d_wals (d :: rest))))) /\
  (forall e, In e (s_mem st) -> key_in own (e_key e) = true) /\
  (forall e t, In e (s_mem st) -> In t (concat (s_levels st)) -> t_endseq t < e_seq e) /\
  (forall t, In t (concat (s_levels st)) -> t_endseq t <= s_seq st).
Proof. exact (fun sorted own d rest => restore_spec sorted own (d :: rest)). Qed.
Print Assumptions rescale_exact_partial.

(* The level search of AllTablesForPrefix (slices.BinarySearchFunc with RangePrefixCompare, then the forward scan while
   RangeContainsPrefix) on a level that is a chain of disjoint key ranges returns every table that holds an entry with
   the prefix. *)
Theorem level_search_complete : forall lvl p t e,
  level_ok lvl -> In t lvl -> In e (t_entries t) -> is_prefix p (e_key e) = true -> In t (select_level lvl p).
Proof. exact select_complete_proved. Qed.
Print Assumptions level_search_complete.

(* The composite level list that LoadCheckpointList + the D21 repair build from CLEAN documents, handles in ANY order,
   is a valid layout for the read path: every table covers its entries, every level below L0 is a chain of pairwise
   disjoint key ranges in key order.  docwf (Proofs/C06_Clean.v) = the clean class: every table / WAL entry of the
   checkpoint lies in the checkpoint's key-group range (doc_clean), table ranges cover their entries, end-sequence
   numbers bound the entries, the checkpoint's own levels below L0 are chains; pairdisj = the handles' ranges are
   pairwise disjoint (any selection from a permutation of keyGroupRanges). *)
Theorem composite_of_clean_is_valid : forall (hs : list (kgrange * ckdoc)) d rest c,
  map snd hs = d :: rest -> merge_into d rest = Some c ->
  pairdisj (map fst hs) -> (forall rd, In rd hs -> docwf rd) ->
  levels_ok (level_list true (d_levels c)).
Proof. exact composite_levels_ok. Qed.
Print Assumptions composite_of_clean_is_valid.

(* rescale_exact_clean: for EVERY key-group count, M, N, EVERY order of the recorded checkpoints, every new operator i
   and every prefix p whose keys belong to old operator j and to new operator i (a subject's state prefix, a key group's
   timer prefix): on CLEAN inputs, what new operator i's restored database returns for ScanPrefix(p) is exactly what
   old operator j's own restore of its checkpoint returns - the latest value of every entry and every pending timer,
   no deleted one, nothing else.  LLInv (trl dj) is c07c18's layout invariant (Proofs/C18_Layout.v) of the old owner's
   level list, translated entry by entry (it holds of every layout a database reaches: Props/C18.v
   reachable_layouts_valid); it provides "one version per key and sequence number".  The per-key merge of
   Model/Rescale.v is tied to c07c18's [Mx] characterisation ("per key the greatest sequence number").
   Not claimed: a direct ScanPrefix of a prefix the new operator does NOT own may show entries of shared tables - the
   operator never issues one (events are routed to owners: C05; timers are loaded per owned key group); its memtable
   holds nothing foreign (rescale_exact_partial).  The class outside docwf is rescale_exact_refuted (D22). *)
Theorem rescale_exact_clean : forall count n recorded i j rj dj p st stj,
  pairdisj (map fst recorded) -> (forall rd, In rd recorded -> docwf rd) ->
  (i < N.to_nat n)%nat -> nth_error recorded j = Some (rj, dj) -> LLInv (trl dj) ->
  (forall k, is_prefix p k = true -> key_in rj k = true /\ key_in (nth i (kg_ranges count n) (0, 0)) k = true) ->
  restore_new true count n recorded i = Some st -> restore true rj [dj] = Some stj ->
  scan_prefix st p = scan_prefix stj p.
Proof. exact rescale_exact_clean_proved. Qed.
Print Assumptions rescale_exact_clean.

(* later writes: the entry a Put/Delete adds to the memtable (numbered above everything loaded, rescale_exact_partial)
   is what the merged view returns for its key *)
Theorem later_write_visible : forall p m (Tb : entry -> Prop) R new,
  Mx (fun x => exists e, x = tr e /\ is_prefix p (e_key e) = true /\ (In e (new :: m) \/ Tb e)) R ->
  uniq (fun x => exists e, x = tr e /\ is_prefix p (e_key e) = true /\ (In e (new :: m) \/ Tb e)) ->
  decr (new :: m) -> (forall e e', In e (new :: m) -> Tb e' -> e_seq e' < e_seq e) ->
  is_prefix p (e_key new) = true -> LsmBase.tbl_get (e_key new) R = Some (tr new).
Proof. exact write_visible. Qed.
Print Assumptions later_write_visible.

(* non-vacuity: all hypotheses of rescale_exact_clean hold of a clean scale-in with permuted acknowledgements, and the
   conclusion is obtained from the theorem *)
Example rescale_exact_clean_instance :
  pairdisj (map fst d21_recorded) /\ (forall rd, In rd d21_recorded -> docwf rd) /\ LLInv (trl docA) /\
  (forall k, is_prefix [0;0] k = true -> key_in (0, 1) k = true /\ key_in (nth 0 (kg_ranges 2 1) (0, 0)) k = true) /\
  exists st stA, restore_new true 2 1 d21_recorded 0 = Some st /\ restore true (0, 1) [docA] = Some stA /\
                 scan_prefix st [0;0] = scan_prefix stA [0;0] /\ scan_prefix stA [0;0] = [(kA1, 11); (kA2, 12)].
Proof. exact clean_instance. Qed.

(* non-vacuity / samples: a clean scale-in with permuted acknowledgements reads everything (after the D21 repair) *)
Example rescale_clean_sample :
  match restore_new true 2 1 d21_recorded 0 with
  | Some st => scan_prefix st [0;0] = [(kA1, 11); (kA2, 12)] /\ scan_prefix st [0;1] = [(kB1, 21); (kB2, 22)]
  | None => False
  end.
Proof. vm_compute. split; reflexivity. Qed.

(* history: before 4be9a8c (D21) even clean inputs failed: levels concatenated in acknowledgement order *)
Lemma rescale_failed_before_d21_fix :
  Permutation (map fst d21_recorded) (kg_ranges 2 2) /\ forallb doc_clean d21_recorded = true /\
  match restore_new false 2 1 d21_recorded 0, restore false (0, 1) [docA] with
  | Some st, Some stA => scan_prefix stA [0;0] = [(kA1, 11); (kA2, 12)] /\ scan_prefix st [0;0] = []
  | _, _ => False
  end.
Proof. split; [apply perm_swap|]. split; vm_compute; [reflexivity|split; reflexivity]. Qed.

(* history: the scan before 35e5e8b failed the statement (D20) *)
Lemma assign_exact_failed_before_fix :
  exists to from, Permutation from [(0,2);(2,4)] /\ to = [(0,2);(2,4)] /\
     nth 0 (assign_ranges_old to from) [] = [] /\ overlaps (nth 0 to (0,0)) (nth 1 from (0,0)) = true.
Proof. exists [(0,2);(2,4)], [(2,4);(0,2)]. repeat split; try reflexivity. apply perm_swap. Qed.
