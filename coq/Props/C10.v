(* C10 - event-time timers fire exactly once, in order, and survive recovery.  Statements, each proved in a few lines from the lemmas of Proofs/C10_*.v.

   Model: Model/TimerStore.v + Model/TimerRegistry.v, the current code ([quirks_now]) of workers/operator/timer_store.go
   and timer_registry.go over the SPECIFICATION of the DKV (a strictly sorted list of keys), of ds.SortedCache (sorted
   set + byteSize) and of ds.PartitionedPriorityQueue ("a partition with minimal Peek").
   Specification: Proofs/C10_Spec.v, a duplicate-free list of pending (subject key, timestamp) pairs:
     SetTimer k t   adds (k, t) unless t <= watermark or (k, t) is pending already
     Advance s w    records w for sender s, watermark := minimum over the upstreams; exactly the pending (k, t) with
                    t <= watermark are due and leave the pending list
     AdvanceSet     the same with SetTimer calls made by the consumer right after the n-th yield
     Restore        (checkpoint + restore) fresh registry and store over the DB content at that point: upstreams and
                    watermark back to the epoch, the pending list untouched
   [op_okc kgf start size] is the guard of a history element: registered timestamps are in [0, 2^63) ns and the subject
   key's group [kgf key] lies in the operator's range [start, start+size). *)
From RV Require Import Base.Bytes Model.TimerStore Model.TimerRegistry.
From RV Require Import Proofs.C10_Queue Proofs.C10_Spec Proofs.C10_History Proofs.C10_Registry Proofs.C10_SpecFacts.
From RV Require Import Model.TimerStoreKV Proofs.C10_OverLsm.
From RV Require Model.StateStore Model.StateStoreLsm Model.Lsm Proofs.C07_Refine Proofs.C03_OverLsm.
From Coq Require Import Permutation.
Open Scope N_scope.

(* For every history (any keys, timestamps in [0, 2^63), any repetition of identical registrations, SetTimer calls
   between two yields, consumers that stop after k items, Restore at any point), every cache size [cache] >= 0, every
   key-group function and range, every list of source runners - with [outs] the outputs of the advances:
   * a drained advance ([Advance], [AdvanceSet]; expectation [(due, None)]) yields exactly the due pending timers (a
     permutation of the specification's due list: none missing, none extra), in non-decreasing timestamp order, each once;
   * an advance whose consumer stops in the body of the k-th item ([AdvancePartial]; expectation [(due, Some k)]) hands out
     [partial_ok k due out]: distinct due timers, in timestamp order, min(k, number due) of them, none later than a due timer
     it did not hand out; the specification then removes exactly the handed-out timers from the pending list
     ([sp_advance_partial]): the CURRENT code deletes a timer from the store before it yields it, so a stopped consumer
     loses nothing (what was not handed out stays pending) and duplicates nothing (what was handed out is never handed out
     again, neither at a later watermark nor after a restore);
   * at the end (hence after every prefix, in particular across every Restore) the DB holds exactly the encodings of the
     specification's pending timers;
   * in every reachable state every key group's cache is a prefix of the group's sorted DB content - all of it when
     allDataInCache is set - with byteSize equal to the number of cached bytes. *)
Theorem timers_exactly_once_in_order :
  forall (kgf : bytes -> N) (start size cache : N) (srids : list N) (ops : list op),
    start + size <= 65536 ->
    Forall (op_okc kgf start size) ops ->
    let c := {| cf_q := quirks_now; cf_kgf := kgf; cf_start := start; cf_size := size; cf_cache := cache; cf_srids := srids |} in
    let outs := fst (run c ops (sys_new c [])) in
    let sp := spec_run srids ops outs (spec_new srids []) in
    Forall2 (fun out e =>
               match snd e with
               | None => Permutation out (fst e) /\ time_sorted out = true /\ NoDup out
               | Some k => partial_ok k (fst e) out
               end) outs (fst sp) /\
    Permutation (snd (snd (run c ops (sys_new c [])))) (map (enc kgf) (sp_pending (snd sp))) /\
    cache_inv (snd (run c ops (sys_new c []))).
Proof. intros kgf start size cache srids ops H Hok. exact (refinement kgf start size cache srids H ops Hok). Qed.
Print Assumptions timers_exactly_once_in_order.

(* The same statement with the timer store running ON THE LSM MODEL of C07 instead of on the sorted-list specification of the
   DKV: [run_kv] (Model/TimerStoreKV.v) is the transcription of timer_store.go / timer_registry.go over an abstract DKV
   (C03's [StateStore.KV]: put / delete / prefix scan / restore, each returning the next DKV state); the instance is
   [lsm_kv] (Proofs/C03_OverLsm.v): the LSM state machine of Model/Lsm.v (memtables, sealed memtables, flushes, levels,
   compactions) with the invariant of C07, where before every put / delete and before AND in the middle of every prefix
   scan the background steps that the schedule [sc] prescribes are run - for EVERY configuration [lcfg] that C07 accepts,
   EVERY schedule [sc] of flush and compaction steps, and every function [reopen] that re-opens a captured database with
   the contract of C08 (invariant, no read in flight, same contents).  [lsm_keys] are the keys of the LSM's abstract
   contents [absm].  Not covered: read faults (the LSM instance never reports one) and the internals of [reopen]. *)
Theorem timers_exactly_once_in_order_over_lsm :
  forall (lcfg : Lsm.dbcfg) (Hcfg : C07_Refine.cfg_ok lcfg) (reopen : Lsm.db -> Lsm.db)
         (Hreopen : forall st, C03_OverLsm.good st -> C03_OverLsm.good (reopen st) /\ C07_Refine.absm (reopen st) = C07_Refine.absm st)
         (sc : StateStoreLsm.schedule)
         (kgf : bytes -> N) (start size cache : N) (srids : list N) (ops : list op),
    start + size <= 65536 ->
    Forall (op_okc kgf start size) ops ->
    let K := C03_OverLsm.lsm_kv lcfg Hcfg reopen Hreopen in
    let c := {| cf_q := quirks_now; cf_kgf := kgf; cf_start := start; cf_size := size; cf_cache := cache; cf_srids := srids |} in
    let res := run_kv K c ops (sys_new_kv K c (C03_OverLsm.lsm_init lcfg Hcfg sc)) in
    let outs := fst res in
    let sp := spec_run srids ops outs (spec_new srids []) in
    Forall2 (fun out e =>
               match snd e with
               | None => Permutation out (fst e) /\ time_sorted out = true /\ NoDup out
               | Some k => partial_ok k (fst e) out
               end) outs (fst sp) /\
    Permutation (map fst (C03_OverLsm.lsm_contents (snd (snd res)))) (map (enc kgf) (sp_pending (snd sp))) /\
    cache_inv (fst (snd res), map fst (C03_OverLsm.lsm_contents (snd (snd res)))).
Proof.
  intros lcfg Hcfg reopen Hreopen sc kgf start size cache srids ops H Hok.
  exact (timers_over_lsm lcfg Hcfg reopen Hreopen kgf start size cache srids ops sc H Hok).
Qed.
Print Assumptions timers_exactly_once_in_order_over_lsm.

(* non-vacuity of the hypotheses: a re-opening function with the contract exists (C03_OverLsm.reopen_id_ok), and the LSM
   configurations C07 accepts are not empty (Props/C07.v) *)
Example reopen_contract_satisfiable :
  forall st, C03_OverLsm.good st -> C03_OverLsm.good ((fun d : Lsm.db => d) st) /\ C07_Refine.absm ((fun d : Lsm.db => d) st) = C07_Refine.absm st.
Proof. exact C03_OverLsm.reopen_id_ok. Qed.

(* a consumer that stops part-way: what it was handed is not pending any more (unless the consumer itself registered it
   again, later than the watermark), everything else that was pending still is, nothing else appears *)
Theorem stopped_consumer_loses_and_duplicates_nothing :
  forall sender wm during out s, NoDup (sp_pending s) ->
    let s' := snd (sp_advance_partial sender wm during out s) in
    sp_wm s' = ups_min (ups_set sender wm (sp_ups s)) /\
    NoDup (sp_pending s') /\
    (forall x, In x out -> In x (sp_pending s') -> exists a k t, In (a, k, t) during /\ (sp_wm s' < t)%Z /\ x = (k, t)) /\
    (forall x, In x (sp_pending s) -> ~ In x out -> In x (sp_pending s')) /\
    (forall x, In x (sp_pending s') -> In x (sp_pending s) \/ exists a k t, In (a, k, t) during /\ x = (k, t)).
Proof.
  intros sender wm during out s Hn s'. destruct (sp_advance_partial_pending sender wm during out s Hn) as [Hn' M]. fold s' in M.
  split; [reflexivity|]. split; [exact Hn'|]. split; [|split]; intros x Hx.
  - intros Hp. apply M in Hp as [Hp|([[a k] t] & Hin & _ & Hw & ->)]; [tauto|exists a, k, t; auto].
  - intros Hnx. apply M. auto.
  - apply M in Hx as [Hx|([[a k] t] & Hin & _ & _ & ->)]; [tauto|right; exists a, k, t; auto].
Qed.
Print Assumptions stopped_consumer_loses_and_duplicates_nothing.

(* What the specification says, in the words of the property.  An advance fires exactly the pending timers with
   t <= the new composite watermark, each once; afterwards no pending timer is at or before the watermark, none of the
   fired ones is pending (it cannot fire again unless it is registered again), and every pending timer later than the
   watermark is still pending. *)
Theorem advance_fires_exactly_the_due_timers :
  forall sender wm during s, NoDup (sp_pending s) ->
    let due := fst (sp_advance sender wm during s) in
    let s' := snd (sp_advance sender wm during s) in
    sp_wm s' = ups_min (ups_set sender wm (sp_ups s)) /\
    NoDup due /\
    (forall x, In x due <-> In x (sp_pending s) /\ (snd x <= sp_wm s')%Z) /\
    NoDup (sp_pending s') /\
    (forall x, In x (sp_pending s') -> (sp_wm s' < snd x)%Z) /\
    (forall x, In x due -> ~ In x (sp_pending s')) /\
    (forall x, In x (sp_pending s) -> (sp_wm s' < snd x)%Z -> In x (sp_pending s')).
Proof. exact sp_advance_facts. Qed.
Print Assumptions advance_fires_exactly_the_due_timers.

(* the SetTimer guard: a timer on or before the watermark is ignored; a later one becomes pending, once; the identical
   registration again changes nothing *)
Theorem set_timer_guard_and_idempotence :
  forall k t s,
    ((t <= sp_wm s)%Z -> sp_set k t s = s) /\
    ((sp_wm s < t)%Z -> NoDup (sp_pending s) -> In (k, t) (sp_pending (sp_set k t s)) /\ NoDup (sp_pending (sp_set k t s))) /\
    sp_set k t (sp_set k t s) = sp_set k t s.
Proof. intros k t s. split; [apply sp_set_guard|]. split; [apply sp_set_pending|apply sp_set_idem]. Qed.
Print Assumptions set_timer_guard_and_idempotence.

(* checkpoint + restore keeps exactly the pending timers *)
Theorem restore_keeps_pending :
  forall srids out s, sp_pending (snd (sp_step srids Restore out s)) = sp_pending s.
Proof. reflexivity. Qed.
Print Assumptions restore_keeps_pending.

(* timestamps before 1970 are outside the guard: uint64(UnixNano) wraps, such timers sort last; the model (and the code:
   corpus/timers/pre_epoch.json, known finding) fires them late and out of order *)
Theorem pre_epoch_order_refuted :
  exists ops, forallb op_ok ops = false /\
    fst (run (one_group quirks_now 1000) ops (sys_new (one_group quirks_now 1000) [])) <> spec_out ops /\
    fst (run (one_group quirks_now 1000) ops (sys_new (one_group quirks_now 1000) [])) = [[]; []; [(k1, 5%Z); (k1, (-5)%Z)]].
Proof.
  exists h_pre_epoch. destruct pre_epoch_witness as (H1 & H2 & H3). unfold model_out in H2.
  split; [exact H1|]. split; [rewrite H2, H3; discriminate|exact H2].
Qed.
Print Assumptions pre_epoch_order_refuted.

(* the two repaired defects refute the property on the model of the code as it was (fix: f0e6d7e, 541bd63) *)
Theorem load_marks_all_cached_refutes_C10 :
  exists ops, forallb op_ok ops = true /\
    fst (run (one_group quirks_D12 40) ops (sys_new (one_group quirks_D12 40) [])) = [map (fun i => (k1, Z.of_nat i)) (seq 1 7); []] /\
    spec_out ops = [rev (map (fun i => (k1, Z.of_nat i)) (seq 1 8)); []].
Proof. exists h_D12. split; [vm_compute; reflexivity|]. exact (conj (proj1 D12_witness) (proj1 (proj2 D12_witness))). Qed.
Print Assumptions load_marks_all_cached_refutes_C10.

Theorem push_beyond_cache_max_refutes_C10 :
  exists ops, forallb op_ok ops = true /\
    fst (run (one_group quirks_D13 40) ops (sys_new (one_group quirks_D13 40) [])) =
      [[(k1, 10%Z)]; [(k1, 20%Z); (k1, 30%Z)]; [(k1, 60%Z); (k1, 40%Z); (k1, 50%Z)]] /\
    spec_out ops = [[(k1, 10%Z)]; [(k1, 40%Z); (k1, 30%Z); (k1, 20%Z)]; [(k1, 60%Z); (k1, 50%Z)]].
Proof. exists h_D13. split; [vm_compute; reflexivity|]. exact (conj (proj1 D13_witness) (proj1 (proj2 D13_witness))). Qed.
Print Assumptions push_beyond_cache_max_refutes_C10.

(* non-vacuity: the guard is satisfiable by a history that overflows a 40-byte cache, repeats a registration, restores
   and fires; the theorem's conclusion is then about these concrete outputs *)
Example guard_satisfiable :
  Forall (op_okc (fun _ => 0) 0 1) (h_D13 ++ [Restore; SetTimer k1 70%Z; SetTimer k1 70%Z; Advance 0 maxt]) /\
  fst (run (one_group quirks_now 40) (h_D13 ++ [Restore; SetTimer k1 70%Z; SetTimer k1 70%Z; Advance 0 maxt]) (sys_new (one_group quirks_now 40) []))
    = [[(k1, 10%Z)]; [(k1, 20%Z); (k1, 30%Z); (k1, 40%Z)]; [(k1, 50%Z); (k1, 60%Z)]; [(k1, 70%Z)]] /\
  Forall (op_okc (fun _ => 0) 0 1) h_partial /\
  fst (run (one_group quirks_now 40) h_partial (sys_new (one_group quirks_now 40) []))
    = [[(k1, 10%Z); (k1, 20%Z)]; [(k1, 30%Z); (k1, 40%Z)]; []].
Proof.
  split; [|split; [vm_compute; reflexivity|split; [|exact partial_witness]]];
  repeat constructor; cbn; unfold Proofs.C10_Codec.t_in, Proofs.C10_Store.in_range; cbn; try lia.
Qed.
