(* C02 - barrier alignment gives every operator checkpoint a consistent cut. Statements, each proved in a few lines from the lemmas of Proofs/C02_Align.v.

   Reading.  [exec c (init c) acts = Some x]: acts is a schedule all of whose actions were enabled,
   starting from a freshly deployed operator with [n_senders c] source runners, any batch size and
   time-out setting.  Enabledness of [Gate s it] requires sender s to be idle: one outstanding
   HandleEvent per sender (the hypothesis of the property).  [script acts s] is what sender s
   delivered, in order.  The log of x is newest-first; an entry's origin (s, j) says it stems from the
   j-th delivery of sender s: [LAct] = the event loop acted on it (event put into the batch, watermark
   registered and timers fired, barrier registered), [LApp] = its result (the event, or a timer fired
   by that watermark) was applied to state by a handler call, [LCkpt cid snap] = the DKV checkpoint of
   id cid was taken with content snap and reported. *)
From RV Require Import Model.Align Proofs.C02_Data Proofs.C02_Align.
From Coq Require Import List NArith Bool Arith.
Import ListNotations.
Open Scope N_scope.

(* For every number of senders, every schedule and every checkpoint record in the run (so: any number
   of consecutive checkpoints): every sender s delivered a barrier with exactly that id, at some
   position b s of its sequence, it was accepted before the record, and
   - everything logged before the record stems from deliveries at or before b s,
   - everything logged after the record stems from deliveries after b s (nothing a sender delivered
     after its barrier - event, watermark, timer fired by such a watermark - is acted on or applied
     before the checkpoint is taken),
   - every keyed event delivered before b s has been applied before the record and is in the
     checkpoint; every watermark delivered before b s has been acted on,
   - the checkpoint content is exactly what was applied before the record. *)
(* Redeployment: the log, the delivery positions and [script acts s] are those of the CURRENT deployment
   (everything after the schedule's last Deploy; Deploy empties the log). The records of an earlier deployment
   are covered by the same theorem applied to the prefix of the schedule that ends before the Deploy. In
   particular every barrier counted for a record was accepted in the record's own deployment.
   The schedule may contain sink faults (Fault): a failed sink write changes replies, never what is applied.
   The schedule may contain SourceComplete deliveries (IDone) and cancellations of parked calls (Cancel s):
   the quantification "forall s < n_senders c" is over ALL configured runners, completed or not, and a
   parked event whose call was cancelled is delivery > b s like any other, hence only in post. *)
Theorem consistent_cut : forall c acts x post cid snap pre,
  exec c (init c) acts = Some x ->
  log (dt x) = post ++ LCkpt cid snap :: pre ->
  (forall bi, In bi (fst snap) <-> In (LApp bi) pre) /\
  exists b : nat -> nat, forall s, (s < n_senders c)%nat ->
    nth_error (script acts s) (b s) = Some (IBar cid)
    /\ In (LAct (s, b s) (IBar cid) true) pre
    /\ (forall e j, In e pre -> entry_origin e = Some (s, j) -> (j <= b s)%nat)
    /\ (forall e j, In e post -> entry_origin e = Some (s, j) -> (b s < j)%nat)
    /\ (forall j id key tm, (j < b s)%nat -> nth_error (script acts s) j = Some (IEv id key tm) ->
          In (LApp (BEv (s, j) id key tm)) pre /\ In (BEv (s, j) id key tm) (fst snap))
    /\ (forall j t, (j < b s)%nat -> nth_error (script acts s) j = Some (IWm t) -> In (LAct (s, j) (IWm t) true) pre).
Proof.
  intros c acts x post cid snap pre H HL. destruct (exec_init _ _ _ H) as (I & Hs).
  destruct (i_hist _ _ I _ _ _ _ HL) as (Hsnap & b & Hb). split; [exact Hsnap|]. exists b. intros s Hlt.
  destruct (Hb s Hlt) as (C & _). apply (cut_at_ext _ _ _ _ _ _ _ _ _ C (Hs s)). apply C.
Qed.
Print Assumptions consistent_cut.

(* origins are truthful: an applied event is the j-th delivery of s, an applied timer was fired by a
   watermark that is the j-th delivery of s, anything acted on was delivered *)
Theorem applied_are_delivered : forall c acts x s j,
  exec c (init c) acts = Some x ->
  (forall id key tm, In (LApp (BEv (s, j) id key tm)) (log (dt x)) -> nth_error (script acts s) j = Some (IEv id key tm)) /\
  (forall k ts, In (LApp (BTm (s, j) k ts)) (log (dt x)) -> exists t, nth_error (script acts s) j = Some (IWm t)) /\
  (forall it ok, In (LAct (s, j) it ok) (log (dt x)) -> exists it', nth_error (script acts s) j = Some it').
Proof.
  intros c acts x s j H. repeat split.
  - intros id key tm Hin. destruct (log_stems _ _ _ _ _ _ H Hin eq_refl) as (it & Hn & ->). exact Hn.
  - intros k ts Hin. destruct (log_stems _ _ _ _ _ _ H Hin eq_refl) as (it & Hn & t & ->). eauto.
  - intros it ok Hin. destruct (log_stems _ _ _ _ _ _ H Hin eq_refl) as (it' & Hn & _). eauto.
Qed.
Print Assumptions applied_are_delivered.

(* the mechanism: in every reachable state a sender whose barrier of the checkpoint in progress is
   registered is never past the gate (it is idle or parked on that checkpoint) *)
Theorem registered_sender_blocked : forall c acts x cur m s it,
  exec c (init c) acts = Some x -> ckpt x = Some (cur, m) -> ~ In s m ->
  nth_error (modes x) s <> Some (Passed it) /\
  (forall g it', nth_error (modes x) s = Some (Parked g it') -> g = done x).
Proof.
  intros c acts x cur m s it H Ec Hn. destruct (exec_init _ _ _ H) as (I & _). split.
  - intros Hm. apply (i_passed _ _ I _ _ Hm). exists cur, m. auto.
  - intros g it' Hm. apply (i_parked _ _ I _ _ _ Hm). exists cur, m. auto.
Qed.
Print Assumptions registered_sender_blocked.

(* a barrier whose id differs from the checkpoint in progress is rejected and changes nothing *)
Theorem barrier_id_checked : forall c x s cid cur m x',
  ckpt x = Some (cur, m) -> nth_error (modes x) s = Some (Passed (IBar cid)) -> cid <> cur ->
  step c x (Handle s) = Some x' ->
  ckpt x' = Some (cur, m) /\ done x' = done x /\ applied (dt x') = applied (dt x) /\ batch (dt x') = batch (dt x) /\
  log (dt x') = LAct (s, length (nth s (sent x) [])) (IBar cid) false :: log (dt x).
Proof.
  intros c x s cid cur m x' Hck Hmode Hne Hstep.
  unfold step in Hstep. destruct (failed x); [discriminate|]. rewrite Hmode in Hstep.
  destruct (active (dt x)); [discriminate|]. injection Hstep as <-.
  unfold handle_item. rewrite Hck.
  destruct (cid =? cur) eqn:E; [apply N.eqb_eq in E; contradiction|].
  cbn. repeat split; reflexivity.
Qed.
Print Assumptions barrier_id_checked.

(* cancelling the context of a parked call changes nothing: the sender stays parked on the same checkpoint
   (the code's wait, enqueue and handlers ignore the context) *)
Theorem cancel_is_inert : forall c x s x', step c x (Cancel s) = Some x' ->
  x' = x /\ exists g it, nth_error (modes x) s = Some (Parked g it).
Proof.
  intros c x s x' H. cbn in H. destruct (nth_error (modes x) s) as [[|g it|]|] eqn:E; try discriminate.
  injection H as <-. split; eauto.
Qed.
Print Assumptions cancel_is_inert.

(* a runner's SourceComplete does not change which barriers a checkpoint waits for *)
Theorem source_complete_keeps_alignment : forall c x s x',
  nth_error (modes x) s = Some (Passed IDone) -> step c x (Handle s) = Some x' ->
  ckpt x' = ckpt x /\ done x' = done x /\
  (active (dt x') = remove_nat s (active (dt x)) \/ active (dt x') = active (dt x)).
Proof.
  intros c x s x' Hm H. unfold step in H. destruct (failed x); [discriminate|]. rewrite Hm in H.
  destruct (active (dt x)) as [|a l] eqn:Ea; [discriminate|].
  injection H as <-. unfold handle_item. cbn [ckpt done dt]. repeat split.
  destruct (errored _ _); [right|left]; cbn [set_active active]; rewrite active_flush; cbn [push_log active]; rewrite Ea; reflexivity.
Qed.
Print Assumptions source_complete_keeps_alignment.

(* HandleDeploy discards the half-aligned checkpoint of the previous assembly and starts from empty state *)
Theorem deploy_resets_alignment : forall c x x', step c x Deploy = Some x' ->
  ckpt x' = None /\ log (dt x') = [] /\ applied (dt x') = [] /\ batch (dt x') = [] /\
  sent x' = repeat [] (n_senders c) /\ modes x' = modes x /\ done x' = done x.
Proof.
  intros c x x' H. cbn in H. destruct (forallb _ (modes x)); [|discriminate].
  destruct (batch (dt x)); [|discriminate]. destruct (stopped (dt x)); [discriminate|].
  cbn in H. injection H as <-. cbn. repeat split; reflexivity.
Qed.
Print Assumptions deploy_resets_alignment.

(* processEventBatch applies timers and state mutations before it writes to the sink: an armed sink fault
   changes nothing of what a flush applies, logs, leaves pending or stores as timers (the error only decides
   replies - and, on the flush in front of the cut, that no checkpoint is taken) *)
Lemma fold_apply_set_fault f l z : fold_left apply_item l (set_fault f z) = set_fault f (fold_left apply_item l z).
Proof. revert z; induction l as [|b l IH]; intros z; cbn [fold_left]; auto. rewrite <- IH. reflexivity. Qed.
Theorem sink_fault_keeps_state : forall tok y f,
  applied (flush tok (set_fault f y)) = applied (flush tok y) /\ log (flush tok (set_fault f y)) = log (flush tok y) /\
  batch (flush tok (set_fault f y)) = batch (flush tok y) /\ timers (flush tok (set_fault f y)) = timers (flush tok y).
Proof.
  intros tok y f. unfold flush. cbn [set_fault batch btoken]. destruct (batch y); [cbn; auto|].
  destruct (match tok with None => true | Some t => t =? btoken y end); [|cbn; auto].
  cbn [set_fault inflight wms wm timers applied log active sinkfault batch btoken armed].
  (* the start record of the fold, read as [set_fault f _], so that fold_apply_set_fault moves the flag outwards *)
  match goal with |- context [fold_left apply_item ?l (mkDat ?a ?b ?c ?d ?e ?g ?h ?i ?j ?k f)] =>
    change (mkDat a b c d e g h i j k f) with (set_fault f (mkDat a b c d e g h i j k (sinkfault y))) end.
  rewrite fold_apply_set_fault. cbn. auto.
Qed.
Print Assumptions sink_fault_keeps_state.

(* A handler failure on the flush of a timed-out batch: the batch (already acknowledged to its senders) is lost and
   the operator stops. A stopped operator is silent: whatever is still scheduled, nothing is handled, flushed,
   applied, checkpointed or redeployed - in particular no checkpoint is ever reported without the lost events. *)
Theorem failed_timeout_flush_stops : forall c x x', step c x TimeoutFail = Some x' ->
  log (dt x') = log (dt x) /\ applied (dt x') = applied (dt x) /\
  (stopped (dt x') = true \/ batch (dt x') = batch (dt x)).
Proof.
  intros c x x' H. unfold step in H. destruct (sinkfault (dt x) || stopped (dt x) || failed x); [discriminate|].
  destruct (inflight (dt x)); [discriminate|]. cbn zeta in H. destruct (batch (dt x)) eqn:Eb.
  - injection H as <-. cbn. auto.
  - destruct (_ =? _); injection H as <-; cbn; auto.
Qed.
Print Assumptions failed_timeout_flush_stops.

Theorem stopped_operator_is_silent : forall c x a x', stopped (dt x) = true -> step c x a = Some x' ->
  log (dt x') = log (dt x) /\ applied (dt x') = applied (dt x) /\ stopped (dt x') = true.
Proof.
  intros c x a x' Hs H. destruct (not_running_step c x a x') as [->|(L & A & _ & E)]; [unfold running; rewrite Hs; reflexivity|exact H| |].
  - unfold step in H. rewrite Hs, andb_false_r in H. discriminate.
  - unfold stopped in *. rewrite E. auto.
Qed.
Print Assumptions stopped_operator_is_silent.

(* The flush in front of db.Checkpoint may fail (the user handler, or the sink): then the barrier's closure returns
   that error with every barrier registered, nothing is cut or reported, the completion count stays, and - for a
   handler failure - the batch Flush had taken out is gone. The operator is then [failed]: only Deploy leads on.
   consistent_cut is unaffected: a failed cut adds no record. *)
Theorem failed_cut_records_nothing : forall c hf x s cid,
  failed x = false -> failed (handle_item c hf x s (IBar cid)) = true ->
  done (handle_item c hf x s (IBar cid)) = done x /\
  forall c0 snap, In (LCkpt c0 snap) (log (dt (handle_item c hf x s (IBar cid)))) -> In (LCkpt c0 snap) (log (dt x)).
Proof.
  intros c hf x s cid Hnf Hf. unfold handle_item in *. unfold failed in Hnf.
  set (o := (s, length (nth s (sent x) []))) in *.
  destruct (match ckpt x with Some cm => cm | None => (cid, seq 0 (n_senders c)) end) as [cur m] eqn:Ecm.
  destruct (N.eqb_spec cid cur) as [_|Hne]; cbn [negb] in *.
  - destruct (remove_nat s m) as [|r m']; [|discriminate]. destruct (hf && _).
    + cbn. split; auto. intros c0 snap [H|H]; [discriminate|auto].
    + destruct (errored _ _); [|discriminate]. cbn [done dt]. split; auto.
      intros c0 snap Hin. apply flush_no_ckpt in Hin. destruct Hin as [H|H]; [discriminate|auto].
  - (* a rejected barrier leaves the slot as it found it: (cur, m) was there before, or nothing was and then cur is cid *)
    cbn [ckpt] in Hf. destruct (ckpt x) as [cm|]; [subst cm; destruct m; discriminate|]. injection Ecm as <- _. destruct (Hne eq_refl).
Qed.
Print Assumptions failed_cut_records_nothing.

(* a failed operator only moves on by a redeploy *)
Theorem failed_operator_waits_for_redeploy : forall c x a x', failed x = true -> step c x a = Some x' ->
  a = Deploy \/ (log (dt x') = log (dt x) /\ applied (dt x') = applied (dt x) /\ ckpt x' = ckpt x).
Proof.
  intros c x a x' Hf H. destruct (not_running_step c x a x') as [->|(L & A & C & _)]; auto.
  unfold running. rewrite Hf. apply andb_false_r.
Qed.
Print Assumptions failed_operator_waits_for_redeploy.

(* ---------- non-vacuity: enabled schedules with parked senders, a pending batch at the last barrier,
   two consecutive checkpoints, a rejected barrier, a time-out flush ---------- *)
Definition ex_cfg := mkCfg 2 3 true.
Definition ex_acts : list action :=
  [Gate 0 (IEv 1 1 5); Handle 0; Gate 1 (IEv 2 2 0); Handle 1; Gate 0 (IBar 7); Gate 1 (IEv 3 1 0); Handle 0;
   Gate 0 (IEv 4 1 0); Handle 1; Gate 1 (IBar 8); Handle 1; Gate 1 (IBar 7); Handle 1; Wake 0; Handle 0;
   Gate 0 (IWm 9); Gate 1 (IWm 6); Handle 0; Handle 1; TimerFire; Timeout;
   Gate 1 (IBar 9); Handle 1; Gate 1 (IEv 5 1 0); Cancel 1; Gate 0 (IDone); Handle 0; Gate 0 (IWm 11); Handle 0;
   Gate 0 (IBar 9); Handle 0; Wake 1; Handle 1].
Example ex_runs :
  option_map (fun x => (length (filter (fun e => match e with LCkpt _ _ => true | _ => false end) (log (dt x))),
                        existsb (fun e => match e with LAct _ (IBar 8) false => true | _ => false end) (log (dt x))))
             (exec ex_cfg (init ex_cfg) ex_acts) = Some (2%nat, true).
Proof. vm_compute. reflexivity. Qed.
Example ex_parks : option_map (fun x => nth_error (modes x) 0) (exec ex_cfg (init ex_cfg) (firstn 8 ex_acts))
                   = Some (Some (Parked 0 (IEv 4 1 0))).
Proof. vm_compute. reflexivity. Qed.

(* a redeployment in the middle of an alignment: the barrier runner 0 delivered before it does not count; the checkpoint
   with the reused id is taken only after runner 0 delivered it again *)
Definition ex_acts2 : list action :=
  [Gate 0 (IBar 7); Handle 0; Deploy; Gate 1 (IEv 1 1 0); Handle 1; Gate 1 (IBar 7); Handle 1;
   Gate 0 (IEv 2 1 0); Handle 0; Gate 0 (IBar 7); Handle 0].
Example ex_redeploy :
  option_map (fun x => map (fun e => match e with LCkpt c (a, _) => Some (c, length a) | _ => None end)
                           (filter (fun e => match e with LCkpt _ _ => true | _ => false end) (log (dt x))))
             (exec ex_cfg (init ex_cfg) ex_acts2) = Some [Some (7, 2%nat)]
  /\ option_map (fun x => length (filter (fun e => match e with LCkpt _ _ => true | _ => false end) (log (dt x))))
             (exec ex_cfg (init ex_cfg) (firstn 7 ex_acts2)) = Some 0%nat.
Proof. split; vm_compute; reflexivity. Qed.

(* a time-out fires on a partial batch and the handler fails on that flush: the operator stops, no checkpoint follows *)
Example ex_timeout_fail :
  option_map (fun x => (stopped (dt x), batch (dt x), log (dt x)))
             (exec ex_cfg (init ex_cfg) [Gate 0 (IEv 1 1 0); Handle 0; TimerFire; TimeoutFail; Gate 0 (IBar 1)])
    = Some (true, [], [LAct (0%nat, 0%nat) (IEv 1 1 0) true])
  /\ exec ex_cfg (init ex_cfg) [Gate 0 (IEv 1 1 0); Handle 0; TimerFire; TimeoutFail; Gate 0 (IBar 1); Handle 0] = None.
Proof. split; vm_compute; reflexivity. Qed.

(* the handler fails on the flush in front of the cut: no checkpoint, the operator waits for its redeploy; after it the
   checkpoint with the reused id contains exactly the new assembly's pre-barrier events *)
Example ex_failed_cut :
  option_map (fun x => (failed x, batch (dt x), filter (fun e => match e with LCkpt _ _ => true | _ => false end) (log (dt x))))
             (exec ex_cfg (init ex_cfg) [Gate 0 (IEv 1 1 0); Handle 0; Gate 0 (IBar 1); Handle 0; Gate 1 (IBar 1); HandleFail 1])
    = Some (true, [], [])
  /\ option_map (fun x => map (fun e => match e with LCkpt c (a, _) => Some (c, length a) | _ => None end)
                           (filter (fun e => match e with LCkpt _ _ => true | _ => false end) (log (dt x))))
             (exec ex_cfg (init ex_cfg) [Gate 0 (IEv 1 1 0); Handle 0; Gate 0 (IBar 1); Handle 0; Gate 1 (IBar 1); HandleFail 1;
                                        Deploy; Gate 0 (IEv 2 1 0); Handle 0; Gate 0 (IBar 1); Handle 0; Gate 1 (IBar 1); Handle 1])
    = Some [Some (1, 1%nat)].
Proof. split; vm_compute; reflexivity. Qed.
