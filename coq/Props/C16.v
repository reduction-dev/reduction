(* C16 - source positions match the barrier cut; every split has exactly one reader. Statements, each proved in a few lines from the lemmas of Proofs/C16_*.v. *)
From Coq Require Import List NArith.
From RV Require Import Model.RunnerLoop Model.SplitTracker Model.Splitters
                       Proofs.C16_Runner Proofs.C16_Static Proofs.C16_Kinesis Proofs.C16_Assign Proofs.C16_Http Model.HttpReader Proofs.C16_KinReader Model.KinReader.
From Coq Require Import Permutation.
Import ListNotations.
Open Scope N_scope.

(* ---- positions_match_cut ---- *)

(* The split positions the runner reports for checkpoint [id] cover exactly the records it emitted ahead of
   barrier [id]: for every sequence of split assignments, read batches and checkpoints (merged output stream). *)
Theorem positions_match_cut : forall steps, cut_exact steps.
Proof. exact positions_match_cut_all. Qed.
Print Assumptions positions_match_cut.

(* ... and in every operator's stream, for every routing of records to operators. *)
Theorem positions_match_cut_per_operator : forall steps, cut_exact_ops steps.
Proof. exact positions_match_cut_ops. Qed.
Print Assumptions positions_match_cut_per_operator.

(* the real httpapi reader (bounded topic of n records, server pages of b): after any number of reads from a
   start cursor c0 the records emitted are exactly the consecutive topic records from c0 and Checkpoint() reports
   c0 + their number - also after the last page, which carries records together with end of input *)
Theorem positions_match_cut_httpapi_reader : forall n b k c0, c0 <= n ->
  let '(r, evs) := h_reads n b k (h_assign c0) in
  evs = h_range c0 (length evs) /\ h_checkpoint r = c0 + N.of_nat (length evs) /\ h_checkpoint r <= n.
Proof. intros n b k. exact (http_cursor_matches_emitted n b k false). Qed.
Print Assumptions positions_match_cut_httpapi_reader.

(* the real kinesis reader: one ReadEvents call emits the next consecutive records of exactly one held shard and
   moves that shard's position behind them, or reports it finished (closed and fully emitted) and drops it; every
   other held shard keeps its position; Checkpoint() lists every held shard with its position *)
Theorem positions_match_cut_kinesis_reader : forall limit avail closed r r' recs fin,
  kr_read limit avail closed r = (r', recs, fin) ->
  (kr_shards r = [] /\ r' = r /\ recs = [] /\ fin = []) \/
  (kr_shards r <> [] /\ nth_error (kr_shards r) (kr_idx r) = None /\ r' = r /\ recs = [] /\ fin = []) \/
  exists s p e, nth_error (kr_shards r) (kr_idx r) = Some (s, p) /\ p <= e /\
    recs = map (fun i => (s, i)) (h_range p (N.to_nat (e - p))) /\ (e <= N.max p (lookupN avail s)) /\
    ((fin = [] /\ forall x, In x (kr_shards r') <-> x = (s, e) \/ exists j, j <> kr_idx r /\ nth_error (kr_shards r) j = Some x) \/
     (fin = [s] /\ memN s closed = true /\ lookupN avail s <= e /\
      forall x, In x (kr_shards r') <-> exists j, j <> kr_idx r /\ nth_error (kr_shards r) j = Some x)).
Proof. exact kinesis_read_step. Qed.
Print Assumptions positions_match_cut_kinesis_reader.

Theorem restore_resumes_positions_kinesis_reader : forall r,
  (forall x, In x (kr_shards r) <-> In x (kr_checkpoint r)) /\
  kr_shards (kr_assign (kr_checkpoint r) kr_new) = kr_checkpoint r.
Proof. intro r. split; [intro x|]; reflexivity. Qed.
Print Assumptions restore_resumes_positions_kinesis_reader.

(* Job.start: whatever is published while the assembly is being deployed (cur_after_deploy arbitrary), the source
   splitter is started from the job checkpoint the operators were deployed from *)
Theorem restore_resumes_positions_same_checkpoint : forall cur_at_read cur_after_deploy,
  fst (job_start cur_at_read cur_after_deploy) = snd (job_start cur_at_read cur_after_deploy) /\
  fst (job_start cur_at_read cur_after_deploy) = cur_at_read.
Proof. intros. split; reflexivity. Qed.
Print Assumptions restore_resumes_positions_same_checkpoint.

(* ---- restore_resumes_positions ---- *)

(* runner: a split assigned with cursor c0 (e.g. the checkpointed position) never emits a record below c0 *)
Theorem restore_resumes_positions : forall steps s c0, first_assigned steps s = Some c0 ->
  forall i, In (Rec s i) (out (run steps)) -> c0 <= i.
Proof.
  intros steps s c0 H i Hi. pose proof (proj2 (run_spec steps) s) as Hs. rewrite H in Hs.
  destruct Hs as (c & _ & _ & Hin). apply Hin, Hi.
Qed.
Print Assumptions restore_resumes_positions.

(* Kinesis splitter: every assignment carries the checkpointed cursor of its shard, to a runner index < n *)
Theorem restore_resumes_positions_kinesis : forall n cs shards r i c,
  In (r, i, c) (assign_out n cs shards) -> c = cursor_of cs i /\ r < n /\ exists s, In s shards /\ sid s = i.
Proof.
  intros n cs shards r i c H. destruct (assignment_carries_cursor_with _ n cs shards r i c H) as (H1 & H2 & s & H3 & H4 & _). eauto.
Qed.
Print Assumptions restore_resumes_positions_kinesis.

(* embedded splitter: the cursor handed out on restore is a checkpointed reader state of that split *)
Theorem restore_resumes_positions_embedded : forall states split c,
  embedded_cursor states split = Some c -> In (split, c) states.
Proof.
  intros states split c H. unfold embedded_cursor in H. destruct (find _ (rev states)) as [[a b]|] eqn:E; [|discriminate].
  injection H as <-. apply find_some in E as [Hin Heq]. apply N.eqb_eq in Heq as <-. apply in_rev. exact Hin.
Qed.
Print Assumptions restore_resumes_positions_embedded.

(* ---- one_reader_per_split ---- *)

Theorem one_reader_per_split_embedded : forall split_count runners, (1 <= runners)%nat ->
  length (embedded_assign split_count runners) = runners /\
  forall i, i < N.of_nat split_count ->
    exists j, (j < runners)%nat /\ In i (nth j (embedded_assign split_count runners) []) /\
              forall k, In i (nth k (embedded_assign split_count runners) []) -> k = j.
Proof.
  intros sc r Hr. destruct (partition_unique (iota_from 0 sc) r (Base.Lists.NoDup_iota sc 0) Hr) as [Hlen H].
  split; [exact Hlen|]. intros i Hi. apply H, Base.Lists.In_iota. split; [apply N.le_0_l|exact Hi].
Qed.
Print Assumptions one_reader_per_split_embedded.

Theorem one_reader_per_split_httpapi : forall runners states, (1 <= runners)%nat ->
  httpapi_assign runners states = [(0, httpapi_cursor states)].
Proof. intros [|r] states H; [inversion H|reflexivity]. Qed.
Print Assumptions one_reader_per_split_httpapi.

(* source runner: assignment rounds go through a one-slot channel the event loop consumes; a HandleAssignSplits
   call is acknowledged only when its round is in the slot. For every interleaving of calls and loop turns the
   acknowledged rounds are the delivered ones plus at most the one in the slot, in order - none is dropped or
   duplicated; after the loop's next turn they are equal. *)
Theorem one_reader_per_split_runner : forall steps,
  acked (a_run steps) = delivered (a_run steps) ++ slot_list (a_run steps) /\
  (slot (a_run steps) = None -> concat (delivered (a_run steps)) = concat (acked (a_run steps))) /\
  delivered (a_run (steps ++ [ATake])) = acked (a_run (steps ++ [ATake])).
Proof.
  intro steps. split; [apply a_inv|]. split; [intros ->%a_drained; reflexivity|].
  apply a_drained. unfold a_run. rewrite fold_left_app. cbn [fold_left a_step].
  destruct (slot (fold_left a_step steps a_init)) eqn:E; [reflexivity|exact E].
Qed.
Print Assumptions one_reader_per_split_runner.

Example assignment_rounds_example :
  let st := a_run [AOffer [(1, 0)]; AOffer [(2, 0)]; ATake; AOffer [(2, 0)]; AOffer [(3, 5)]; ATake; ATake] in
  acked st = [[(1, 0)]; [(2, 0)]] /\ delivered st = [[(1, 0)]; [(2, 0)]] /\ slot st = None.
Proof. vm_compute. repeat split. Qed.

(* WHICH runner reads a split is not part of the property. For ANY function choosing a runner index < n, grouping the
   splits by it is a partition: every split is in exactly one runner's list. *)
Theorem one_reader_per_split_any_policy : forall (A : Type) (f : A -> N) (l : list A) n, (forall x, In x l -> f x < n) ->
  Permutation (flat_map (fun r => filter (fun x => f x =? r) l) (iota_from 0 (N.to_nat n))) l.
Proof.
  intros A f l n Hf. apply grouping_is_a_partition. intros x Hx. rewrite N2Nat.id. split; [apply N.le_0_l|exact (Hf x Hx)].
Qed.
Print Assumptions one_reader_per_split_any_policy.

(* one AssignSplits call of the Kinesis splitter lists every pending shard exactly once, with its checkpointed cursor,
   under a runner index < n - for every assignment function into range (the code's uniformlyAssignShard is one) *)
Theorem one_reader_per_split_kinesis_call : forall f n cs shards, (forall s, In s shards -> f s < n) ->
  Permutation (map (fun a => snd (fst a)) (assign_out_with f n cs shards)) (map sid shards) /\
  forall r i c, In (r, i, c) (assign_out_with f n cs shards) ->
    c = cursor_of cs i /\ r < n /\ exists s, In s shards /\ sid s = i /\ f s = r.
Proof.
  intros f n cs shards Hf. split; [apply assign_out_with_each_once; exact Hf|].
  intros r i c H. apply (assignment_carries_cursor_with f n cs shards r i c H).
Qed.
Print Assumptions one_reader_per_split_kinesis_call.

(* ---- one_reader_per_split (Kinesis) and children_after_parents ---- *)

(* Every shard handed out in a valid history after a fresh Start (stream growth by splits/merges, discovery
   rounds, finished shards in any order): it was not handed out before, it is not finished, and all its parents
   are finished. *)
Theorem children_after_parents : forall st pre op post c,
  wf_stream st ->
  let s0 := started st (tick_tracker st new_tracker) [] in
  valid_history s0 (pre ++ op :: post) ->
  let s := run_ops s0 pre in
  In c (pending s op) ->
  ~ In (sid c) (hist s) /\ mem (sid c) (fin (mid s op)) = false /\
  forall q, In q (parents c) -> mem q (fin (mid s op)) = true.
Proof. intros st pre op post c Hwf. apply history_hands_out_correctly, inv_fresh_start, Hwf. Qed.
Print Assumptions children_after_parents.

(* the first assignment of a fresh Start hands out only shards without parents *)
Theorem children_after_parents_at_start : forall st c, wf_stream st ->
  In c (available (tick_tracker st new_tracker)) -> parents c = [].
Proof.
  intros st c Hwf. apply (available_roots (mkSys st _ [] [])); [apply inv_discover, inv_new, Hwf|reflexivity].
Qed.
Print Assumptions children_after_parents_at_start.

(* FULL STATEMENT (checkpoint/restore of the splitter at any point) is refuted on the current code, see
   children_after_parents_restore_refuted. What holds: when the checkpoint is taken in a state where no known
   shard at or below LastAssignedShardId is unassigned ([no_loss]), the restored splitter satisfies the same
   invariant again, on any later extension of the stream, so the run after the restore behaves as above.
   Missing for the full statement: the checkpoint format would have to carry the known, unassigned shards. *)
Theorem children_after_parents_restore_partial : forall s st' pre op post c,
  Inv s -> no_loss (trk_ s) ->
  (exists sh, st' = stream s ++ sh /\ wf_stream st' /\ forall x y, In x sh -> In y (stream s) -> sid y < sid x) ->
  let s0 := started st' (tick_tracker st' (restored_tracker (trk_ s))) (fin s) in
  valid_history s0 (pre ++ op :: post) ->
  let s1 := run_ops s0 pre in
  In c (pending s1 op) ->
  ~ In (sid c) (hist s1) /\ mem (sid c) (fin (mid s1 op)) = false /\
  forall q, In q (parents c) -> mem q (fin (mid s1 op)) = true.
Proof. intros s st' pre op post c HI Hnl Hext. apply history_hands_out_correctly, inv_restore; assumption. Qed.
Print Assumptions children_after_parents_restore_partial.

Theorem children_after_parents_restore_start_partial : forall s st' c,
  Inv s -> no_loss (trk_ s) ->
  (exists sh, st' = stream s ++ sh /\ wf_stream st' /\ forall x y, In x sh -> In y (stream s) -> sid y < sid x) ->
  In c (available (tick_tracker st' (restored_tracker (trk_ s)))) ->
  mem (sid c) (fin s) = false /\ forall q, In q (parents c) -> mem q (fin s) = true.
Proof. intros s st' c HI Hnl Hext Hc. apply (available_facts _ c (inv_restore_mid s st' HI Hnl Hext) Hc). Qed.
Print Assumptions children_after_parents_restore_start_partial.

(* the invariant is reachable: every valid history from a fresh start satisfies it *)
Theorem kinesis_invariant : forall st ops, wf_stream st ->
  valid_history (started st (tick_tracker st new_tracker) []) ops ->
  Inv (run_ops (started st (tick_tracker st new_tracker) []) ops).
Proof. intros st ops Hwf Hv. apply inv_history; [apply inv_fresh_start; exact Hwf|exact Hv]. Qed.
Print Assumptions kinesis_invariant.

(* Refutation of the full statement on the model of the current code (known finding, code 105): a reachable
   state with a known, unassigned shard below LastAssignedShardId; after restoring from its checkpoint the
   shards 3 and 4 are never handed out, and their merge child 7 is handed out although they were never read. *)
Theorem children_after_parents_restore_refuted :
  ~ no_loss (trk_ d24b_before) /\
  (mem 1 (fin d24b_after) = true /\ ~ In 3 (hist d24b_after) /\ ~ In 4 (hist d24b_after)) /\
  (In 7 (hist d24b_after2) /\ mem 3 (fin d24b_after2) = false /\ mem 4 (fin d24b_after2) = false).
Proof.
  split; [|vm_compute; intuition discriminate].
  (* shard 3 is known, 3 <= last = 6, and it is not assigned: computed, H reads
     "3 is one of the known shards -> (3 ?= 6) <> Gt -> false = true"; its two premises come back as goals *)
  intro H. specialize (H (mkShard 3 [1] 0 4)). vm_compute in H. discriminate H; [right; left; reflexivity|discriminate].
Qed.
Print Assumptions children_after_parents_restore_refuted.

(* ---- non-vacuity ---- *)

Example cut_example :
  let steps := [SAssign [(1, 0); (2, 5)]; SRead [(1, 2); (2, 1)]; SCkpt 7; SRead [(2, 2)]] in
  reports (run steps) = [(7, [(1, 2); (2, 6)])] /\
  before_bar 7 (out (run steps)) = [Rec 1 0; Rec 1 1; Rec 2 5] /\
  after_bar 7 (out (run steps)) = [Rec 2 6; Rec 2 7].
Proof. vm_compute. repeat split. Qed.

(* a valid history with a withheld child: 1 is split into 2,3; they are handed out only after 1 is finished *)
Example kinesis_example :
  let st := [mkShard 1 [] 0 9] in
  let s0 := started st (tick_tracker st new_tracker) [] in
  let ops := [OAppend [mkShard 2 [1] 0 4; mkShard 3 [1] 5 9]; OTick; OFinish [1]] in
  hist s0 = [1] /\ hist (run_ops s0 [OAppend [mkShard 2 [1] 0 4; mkShard 3 [1] 5 9]; OTick]) = [1] /\
  hist (run_ops s0 ops) = [2; 3; 1].
Proof. vm_compute. repeat split. Qed.

(* the repaired defects stay recognisable on the models of the old code *)
Example d28_old_code : map sid (snd (old_tick d24b_stream
    (fst (old_finish [5] (fst (old_finish [1] (fst (old_finish [2] (fst (old_tick d24b_stream new_tracker)))))))))) = [5].
Proof. vm_compute. reflexivity. Qed.
