(* C19 - in-memory ordered structures behave as ordered maps and priority queues, for every operation sequence.
   Statements, each proved in a few lines from the lemmas of Proofs/C19_*.v. *)
From Coq Require Import Sorted Permutation.
From RV Require Import Base.Bytes Model.Search Model.Heap Model.PPQ Model.ZipTree Model.SortedCache Model.MergeSort Model.DsSet Model.SortedMap Model.HeapIdx.
From RV Require Import Proofs.C19_Search Proofs.C19_Heap Proofs.C19_Hist Proofs.C19_PPQ Proofs.C19_ZipTree Proofs.C19_SortedCache.
From RV Require Import Proofs.C19_HeapIdx.
From RV Require Proofs.C19_Merge Proofs.C19_DsSet Proofs.C19_SortedMap.
Open Scope N_scope.

(* ================= SearchUnique ================= *)
(* x sorted relative to the target (at most one match, smaller before, greater after): Some i exactly when x[i] matches *)
Theorem search_unique_finds : forall (E T : Type) (cmp : E -> T -> comparison) (x : list E) (t : T),
  sorted_for cmp t x ->
  forall i, search_unique cmp x t = Some i <-> exists e, nth_error x i = Some e /\ cmp e t = Eq.
Proof. exact @search_unique_finds_gen. Qed.
Print Assumptions search_unique_finds.

Theorem search_unique_finds_strictly_sorted : forall (x : list N) (t : N), StronglySorted N.lt x ->
  forall i, search_unique N.compare x t = Some i <-> nth_error x i = Some t.
Proof.
  intros x t Hs i. rewrite (search_unique_finds_gen N.compare x t (sorted_for_N x t Hs)).
  split; [intros [e [Hn ->%N.compare_eq]]; exact Hn | intros Hn; exists t; split; [exact Hn | apply N.compare_refl]].
Qed.
Print Assumptions search_unique_finds_strictly_sorted.

(* level lookup of the LSM: tables with disjoint ascending [start,end] ranges, Table.RangeKeyCompare *)
Theorem search_unique_finds_table : forall tbls key, ranges_ok tbls ->
  forall i, search_unique range_key_compare tbls key = Some i <-> exists tb, nth_error tbls i = Some tb /\ in_range tb key.
Proof.
  intros tbls key Hok i. rewrite (search_unique_finds_gen range_key_compare tbls key (sorted_for_ranges tbls key Hok)).
  split; intros [tb [Hn H]]; exists tb; (split; [exact Hn|]); apply range_key_compare_eq; exact H.
Qed.
Print Assumptions search_unique_finds_table.

(* history: the code before the repair (high = i - 1) misses a present element *)
Theorem search_unique_before_repair_refuted :
  exists (x : list N) (t : N), StronglySorted N.lt x /\ In t x /\ search_unique_old N.compare x t = None.
Proof. exists [0; 10], 0. split; [repeat constructor | split; [left; reflexivity | vm_compute; reflexivity]]. Qed.
Print Assumptions search_unique_before_repair_refuted.

Example sorted_for_nonvacuous : sorted_for N.compare 10 [0; 10; 20].
Proof. apply sorted_for_N. repeat constructor. Qed.
Example ranges_ok_nonvacuous : ranges_ok [([1], [2]); ([3], [3; 0])].
Proof. split; repeat constructor; discriminate. Qed.

(* ================= merge iterators ================= *)
Definition cmp_ok := @C19_Merge.cmp_ok.
Definition sortedT := @C19_Merge.sortedT.
Definition ssortedT := @C19_Merge.ssortedT.

(* MergeSorted: the output is a permutation of all inputs and is sorted *)
Theorem merge_sorted_perm : forall (T : Type) (cmp : T -> T -> comparison) its,
  Permutation (merge_sorted cmp its) (concat its).
Proof. exact @C19_Merge.merge_sorted_perm. Qed.
Print Assumptions merge_sorted_perm.

Theorem merge_sorted_sorted : forall (T : Type) (cmp : T -> T -> comparison), cmp_ok T cmp ->
  forall its, (forall it, In it its -> sortedT T cmp it) -> sortedT T cmp (merge_sorted cmp its).
Proof. exact @C19_Merge.merge_sorted_sorted. Qed.
Print Assumptions merge_sorted_sorted.

(* Merge (LSM): strictly sorted output, exactly the keys of the union, every output element is an input element *)
Theorem merge_sorted_dedup : forall (T : Type) (cmp : T -> T -> comparison) pick eqT,
  cmp_ok T cmp -> (forall a b, eqT a b = true <-> a = b) -> (forall a b, pick a b = a \/ pick a b = b) ->
  forall its, (forall it, In it its -> sortedT T cmp it) ->
  exists out, merge cmp pick eqT its = Some out /\ ssortedT T cmp out /\
              (forall x, In x out -> In x (concat its)) /\
              (forall y, In y (concat its) -> exists x, In x out /\ cmp x y = Eq).
Proof.
  intros T cmp pick eqT Hok HeqT Hpick its Hs.
  destruct (C19_Merge.merge_survivor cmp pick eqT (fun _ _ => True) Hok HeqT Hpick) with (its := its)
    as (out & Hm & Hss & Hsub & Hcov); auto.
  exists out. split; [exact Hm|]. split; [exact Hss|]. split; [exact Hsub|].
  intros y Hy. destruct (Hcov y Hy) as (x & Hx & E & _). exists x. split; assumption.
Qed.
Print Assumptions merge_sorted_dedup.

(* ... and the survivor of every key is a newest candidate (keepNewest: newer a b := seq b < seq a) *)
Theorem merge_keeps_newest : forall (T : Type) (cmp : T -> T -> comparison) pick eqT,
  cmp_ok T cmp -> (forall a b, eqT a b = true <-> a = b) -> (forall a b, pick a b = a \/ pick a b = b) ->
  forall (newer : T -> T -> bool), swo newer -> (forall a b, pick a b = if newer a b then a else b) ->
  forall its out, (forall it, In it its -> sortedT T cmp it) -> merge cmp pick eqT its = Some out ->
  forall x y, In x out -> In y (concat its) -> cmp x y = Eq -> newer y x = false.
Proof. intros T cmp pick eqT Hok HeqT _. exact (C19_Merge.merge_keeps_newest cmp pick eqT Hok HeqT). Qed.
Print Assumptions merge_keeps_newest.

(* Merge is the sequential group-fold of what MergeSorted yields *)
Theorem merge_is_dedup_of_merge_sorted : forall (T : Type) (cmp : T -> T -> comparison) pick eqT its,
  merge cmp pick eqT its = C19_Merge.dedup cmp pick eqT (merge_sorted cmp its).
Proof. exact @C19_Merge.merge_is_dedup. Qed.
Print Assumptions merge_is_dedup_of_merge_sorted.

Example cmp_ok_nonvacuous : cmp_ok N N.compare.
Proof.
  split.
  - intros a b. apply N.compare_antisym.
  - intros a b c H1 H2. destruct (N.compare_spec a b), (N.compare_spec b c), (N.compare_spec a c); try congruence; lia.
Qed.

(* ================= heap ================= *)
Theorem heap_pop_min : forall (A : Type) (lt : A -> A -> bool), swo lt ->
  forall l x l', heap_ok lt l -> pop lt l = (Some x, l') -> forall y, In y l -> lt y x = false.
Proof. exact @pop_min. Qed.
Print Assumptions heap_pop_min.

Theorem heap_perm : forall (A : Type) (lt : A -> A -> bool),
  (forall x l, Permutation (push lt x l) (x :: l)) /\
  (forall l x l', pop lt l = (Some x, l') -> Permutation l (x :: l')) /\
  (forall l l', pop lt l = (None, l') -> l = [] /\ l' = []) /\
  (forall l i, Permutation (fix_ lt l i) l).
Proof. intros A lt. exact (conj (push_perm lt) (conj (pop_perm lt) (conj (pop_none lt) (fix_perm lt)))). Qed.
Print Assumptions heap_perm.

Theorem heap_order_preserved : forall (A : Type) (lt : A -> A -> bool), swo lt ->
  (forall x l, heap_ok lt l -> heap_ok lt (push lt x l)) /\
  (forall l o l', heap_ok lt l -> pop lt l = (o, l') -> heap_ok lt l').
Proof. intros A lt H. split; [apply push_ok; exact H|apply pop_ok; exact H]. Qed.
Print Assumptions heap_order_preserved.

(* Fix(i) after an arbitrary change of the element at i restores the heap order *)
Theorem heap_fix_restores : forall (A : Type) (lt : A -> A -> bool), swo lt ->
  forall l i v, (i < length l)%nat -> heap_ok lt l -> heap_ok lt (fix_ lt (upd i v l) i).
Proof.
  intros A lt H l i v Hi Hok. apply fix_restores; [exact H|rewrite upd_length; exact Hi|apply upd_heap_ok_except; assumption].
Qed.
Print Assumptions heap_fix_restores.

(* every history of Push / Pop / change+Fix keeps the heap order; so every Pop yields a minimum and removes exactly it *)
Theorem heap_history : forall (A : Type) (lt : A -> A -> bool), swo lt -> forall ops : list (@hop A),
  heap_ok lt (fold_left (hstep lt) ops []) /\
  forall x h', pop lt (fold_left (hstep lt) ops []) = (Some x, h') ->
    (forall y, In y (fold_left (hstep lt) ops []) -> lt y x = false) /\ Permutation (fold_left (hstep lt) ops []) (x :: h').
Proof.
  intros A lt H ops. pose proof (heap_history_ok lt H ops) as Hok. split; [exact Hok|].
  intros x h' Hp. split; [exact (pop_min lt H _ _ _ Hok Hp) | exact (pop_perm lt _ _ _ Hp)].
Qed.
Print Assumptions heap_history.

(* the index-assigner call-backs (the events the Go code emits, transcribed in Model/HeapIdx.v) keep every live element's
   reported index equal to its position, for duplicate-free contents: this is what PartitionedPriorityQueue relies on
   when it calls Fix(partition.Index()) *)
Theorem heap_index_assigner_tracks : forall (A : Type) (lt eqb : A -> A -> bool), (forall a b, eqb a b = true <-> a = b) ->
  (forall x l, fst (pushE lt x l) = push lt x l) /\ (forall l, fst (popE lt l) = pop lt l) /\ (forall l i, fst (fixE lt l i) = fix_ lt l i) /\
  (forall x l idx, NoDup (l ++ [x]) -> tracks l idx -> tracks (push lt x l) (apply_events eqb (snd (pushE lt x l)) idx)) /\
  (forall l idx x l', NoDup l -> tracks l idx -> pop lt l = (Some x, l') ->
     tracks l' (apply_events eqb (snd (popE lt l)) idx) /\ ((length l > 1)%nat -> apply_events eqb (snd (popE lt l)) idx x = (-1)%Z)) /\
  (forall l i idx, NoDup l -> tracks l idx -> tracks (fix_ lt l i) (apply_events eqb (snd (fixE lt l i)) idx)).
Proof.
  intros A lt eqb Heqb. split; [apply pushE_fst|]. split; [apply popE_fst|]. split; [apply fixE_fst|].
  split; [apply pushE_tracks; exact Heqb|]. split; [apply popE_tracks; exact Heqb|apply fixE_tracks_gen; exact Heqb].
Qed.
Print Assumptions heap_index_assigner_tracks.

(* quirk of the code (not of the property): popping the only element reports index -1 and then 0 for it *)
Theorem heap_pop_last_element_index_quirk : forall (A : Type) (lt eqb : A -> A -> bool), (forall a b, eqb a b = true <-> a = b) ->
  forall l idx x l', length l = 1%nat -> pop lt l = (Some x, l') ->
  snd (popE lt l) = [(x, (-1)%Z); (x, 0%Z)] /\ apply_events eqb (snd (popE lt l)) idx x = 0%Z.
Proof. exact @popE_last_element_quirk. Qed.
Print Assumptions heap_pop_last_element_index_quirk.

Example swo_nonvacuous : swo N.ltb.
Proof.
  split.
  - intros a b H. apply N.ltb_lt in H. apply N.ltb_ge. lia.
  - intros a b c H1 H2. apply N.ltb_ge in H1, H2. apply N.ltb_ge. lia.
Qed.

(* ================= partitioned priority queue ================= *)
Theorem ppq_pop_global_min : forall ps ops x p q', Forall sortedN ps ->
  let q := fold_left qstep ops (ppq_new ps) in
  ppq_pop q = (Some (x, p), q') ->
  In x (ppq_contents q) /\ (forall y, In y (ppq_contents q) -> x <= y) /\ Permutation (ppq_contents q) (x :: ppq_contents q').
Proof.
  intros ps ops x p q' Hps q Hpop.
  destruct (ppq_pop_global_min q x p q' (ppq_history_inv ps ops Hps) Hpop) as [H1 [H2 [H3 _]]]. auto.
Qed.
Print Assumptions ppq_pop_global_min.

Theorem ppq_pop_none_iff_empty : forall ps ops q', Forall sortedN ps ->
  let q := fold_left qstep ops (ppq_new ps) in ppq_pop q = (None, q') -> ppq_contents q = [].
Proof. intros ps ops q' Hps q Hpop. exact (proj1 (ppq_pop_none q q' (ppq_history_inv ps ops Hps) Hpop)). Qed.
Print Assumptions ppq_pop_none_iff_empty.

Theorem ppq_peek_is_global_min : forall ps ops, Forall sortedN ps ->
  let q := fold_left qstep ops (ppq_new ps) in
  match ppq_peek q with
  | Some x => In x (ppq_contents q) /\ (forall y, In y (ppq_contents q) -> x <= y)
  | None => ppq_contents q = []
  end /\ (ppq_is_empty q = true <-> ppq_contents q = []).
Proof.
  intros ps ops Hps q. split; [apply ppq_peek_min|apply ppq_is_empty_spec]; apply ppq_history_inv; exact Hps.
Qed.
Print Assumptions ppq_peek_is_global_min.

(* the contents are what was pushed minus what was popped / deleted *)
Theorem ppq_matches_multiset_reference : forall x p q, (p < length (parts q))%nat ->
  Permutation (ppq_contents (ppq_push x p q)) (x :: ppq_contents q) /\
  (In x (nth p (parts q) []) -> Permutation (x :: ppq_contents (ppq_delete x p q)) (ppq_contents q)) /\
  (~ In x (nth p (parts q) []) -> ppq_contents (ppq_delete x p q) = ppq_contents q).
Proof.
  intros x p q Hp. split; [apply ppq_push_contents; exact Hp|split]; [apply ppq_delete_contents; exact Hp|apply ppq_delete_absent].
Qed.
Print Assumptions ppq_matches_multiset_reference.

(* ================= zip tree ================= *)
(* for EVERY rank sequence: search-tree invariant, and the in-order listing is the sorted association list of the Puts *)
Theorem zip_bst : forall puts : list (bytes * bytes * N),
  let t := fold_left zput puts Leaf in bst t /\ inorder t = fold_left rput puts [].
Proof. exact zip_history. Qed.
Print Assumptions zip_bst.

Theorem zip_get_put : forall puts k,
  get k (fold_left zput puts Leaf) = al_get k (fold_left rput puts []).
Proof. intros puts k. destruct (zip_history puts) as [Hb Hi]. rewrite get_inorder by exact Hb. rewrite Hi. reflexivity. Qed.
Print Assumptions zip_get_put.

Theorem zip_get_after_put : forall k k' v rank t, bst t ->
  get k (fst (put k v rank t)) = Some v /\ (k' <> k -> get k' (fst (put k v rank t)) = get k' t) /\
  snd (put k v rank t) = get k t.
Proof.
  intros k k' v rank t Hb. split; [apply get_put_same; exact Hb|split]; [intros Hne; apply get_put_other; assumption|].
  rewrite put_replaced, get_inorder by exact Hb. reflexivity.
Qed.
Print Assumptions zip_get_after_put.

Theorem zip_ascend_prefix : forall puts p,
  ascend_prefix p (fold_left zput puts Leaf) = filter (fun kv => is_prefix p (fst kv)) (fold_left rput puts []).
Proof. intros puts p. destruct (zip_history puts) as [Hb Hi]. rewrite ascend_prefix_spec by exact Hb. rewrite Hi. reflexivity. Qed.
Print Assumptions zip_ascend_prefix.

(* the iterator is a function of the tree alone (no state between ranges of the same iter.Seq): every pass, complete or
   stopped after n items, over the tree reached by any history is a prefix of the same filtered sorted listing *)
Theorem zip_iterator_stateless : forall puts p (ns : list nat),
  map (fun n => firstn n (ascend_prefix p (fold_left zput puts Leaf))) ns =
  map (fun n => firstn n (filter (fun kv => is_prefix p (fst kv)) (fold_left rput puts []))) ns.
Proof. intros puts p ns. rewrite zip_ascend_prefix. reflexivity. Qed.
Print Assumptions zip_iterator_stateless.

Theorem zip_iteration_sorted_no_duplicates : forall puts,
  StronglySorted (fun a b => bcmp (fst a) (fst b) = Lt) (fold_left rput puts []).
Proof. intros puts. destruct (zip_history puts) as [Hb Hi]. rewrite <- Hi. apply bst_sorted. exact Hb. Qed.
Print Assumptions zip_iteration_sorted_no_duplicates.

(* ================= sorted cache ================= *)
Theorem cache_size_exact : forall mx ops,
  let c := fold_left cstep ops (cache_new mx) in
  byte_size c = sum_len (items c) /\ sorted_set (items c) /\ cache_is_full c = (mx <=? sum_len (items c)).
Proof.
  intros mx ops. destruct (cache_history mx ops) as (Hsz & Hso & Hmx). cbv zeta. split; [exact Hsz|]. split; [exact Hso|].
  unfold cache_is_full. rewrite Hmx, Hsz. reflexivity.
Qed.
Print Assumptions cache_size_exact.

Theorem cache_pop_order : forall c x c', sorted_set (items c) ->
  (cache_pop c = (Some x, c') -> items c = x :: items c' /\ forall y, In y (items c') -> blt x y) /\
  (cache_pop_last c = (Some x, c') -> items c = items c' ++ [x] /\ forall y, In y (items c') -> blt y x).
Proof. intros c x c' Hs. split; [apply cache_pop_min|apply cache_pop_last_max]; exact Hs. Qed.
Print Assumptions cache_pop_order.

Theorem cache_set_semantics : forall v c x, sorted_set (items c) ->
  (In x (items (cache_push v c)) <-> x = v \/ In x (items c)) /\ ~ In v (items (cache_delete v c)).
Proof. intros v c x Hs. split; [apply cache_push_contents|apply cache_delete_removes]; exact Hs. Qed.
Print Assumptions cache_set_semantics.

(* history: the Push before the repair double-counts *)
Theorem cache_size_before_repair_refuted :
  exists ops, let c := fold_left cstep_old ops (cache_new 10) in byte_size c <> sum_len (items c).
Proof. exists [OPush [1]; OPush [1]]. vm_compute. discriminate. Qed.
Print Assumptions cache_size_before_repair_refuted.

(* ================= insertion-ordered set ================= *)
(* after any sequence of Add / Without: Slice is the duplicate-free first-insertion-order reference, Has is membership *)
Theorem set_semantics : forall ops,
  let s := fold_left sstep ops set_empty in
  let r := fold_left sref_step ops [] in
  set_slice s = r /\ NoDup r /\ (forall v, set_has v s = true <-> In v r) /\ set_size s = length r.
Proof. intros ops. destruct (set_history ops) as [Hi <-]. split; [reflexivity | apply C19_DsSet.set_reads, Hi]. Qed.
Print Assumptions set_semantics.

Theorem set_reference_is_a_set : forall ref vs v,
  (In v (ref_add ref vs) <-> In v ref \/ In v vs) /\ (In v (ref_without ref vs) <-> In v ref /\ ~ In v vs) /\
  (exists t, ref_add ref vs = ref ++ t).
Proof. intros ref vs v. split; [apply C19_DsSet.ref_add_in|split]; [apply C19_DsSet.ref_without_in|apply C19_DsSet.ref_add_prefix]. Qed.
Print Assumptions set_reference_is_a_set.

(* persistent use (Added / Without / Diff return NEW sets, the old ones stay in use): for every history over a pool of set
   values, every member lists exactly its own first-insertion-order reference at every moment, whatever was derived from it
   or from its siblings *)
Theorem set_pool_semantics : forall ops : list pop_,
  let pool := fold_left pstep ops [] in
  let rpool := fold_left prstep ops [] in
  map set_slice pool = rpool /\
  forall i s, nth_error pool i = Some s ->
    NoDup (set_slice s) /\ (forall v, set_has v s = true <-> In v (set_slice s)) /\ set_size s = length (set_slice s).
Proof.
  intros ops. destruct (set_pool_history ops) as [Hinv Hsl]. split; [exact Hsl|]. intros i s Hn.
  apply C19_DsSet.set_reads. exact (proj1 (Forall_forall _ _) Hinv s (nth_error_In _ _ Hn)).
Qed.
Print Assumptions set_pool_semantics.

(* deriving a set never changes an existing set value (only the in-place Add changes the set it is called on) *)
Theorem set_values_immutable : forall pool o i s,
  (forall k vs, o <> PoAddInPlace k vs) -> nth_error pool i = Some s -> nth_error (pstep pool o) i = Some s.
Proof. exact set_values_immutable_gen. Qed.
Print Assumptions set_values_immutable.

(* ================= sorted map ================= *)
(* after any sequence of Set / Delete / ordered reads: All/Keys/Values list the sorted association-list reference,
   Get is its lookup, Set/Delete report novelty/presence, iteration is strictly increasing in the key *)
Theorem sorted_map_semantics : forall ops,
  let s := fold_left mstep ops smap_empty in
  let r := fold_left mref_step ops [] in
  snd (smap_all s) = r /\ snd (smap_keys s) = map fst r /\ snd (smap_values s) = map snd r /\
  (forall k, smap_get k s = rm_get k r) /\ smap_size s = length r /\
  StronglySorted (fun a b => bcmp (fst a) (fst b) = Lt) r /\
  (forall k v, snd (smap_set k v s) = match rm_get k r with None => true | Some _ => false end) /\
  (forall k, snd (smap_delete k s) = match rm_get k r with None => false | Some _ => true end).
Proof.
  intros ops. destruct (smap_history_inv ops) as [Hi <-]. cbv zeta. repeat apply conj.
  - exact (proj2 (proj2 (C19_SortedMap.smap_all_spec _ Hi))).
  - exact (proj2 (proj2 (C19_SortedMap.smap_keys_spec _ Hi))).
  - exact (proj2 (proj2 (C19_SortedMap.smap_values_spec _ Hi))).
  - intros k. exact (C19_SortedMap.smap_get_spec k _ Hi).
  - exact (C19_SortedMap.smap_size_spec _).
  - exact (C19_SortedMap.smap_ref_sorted _ Hi).
  - intros k v. exact (proj2 (proj2 (C19_SortedMap.smap_set_spec k v _ Hi))).
  - intros k. exact (proj2 (proj2 (C19_SortedMap.smap_delete_spec k _ Hi))).
Qed.
Print Assumptions sorted_map_semantics.
