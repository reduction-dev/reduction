(* C11 - watermarks are monotone; operators act on the minimum of their upstreams.  Statements only.
   Time = Z nanoseconds since the Unix epoch; go_zero_time = time.Time{} = year 1 = -62135596800 s. *)
From Coq Require Import ZArith List Sorted.
From RV Require Import Model.Wmark Model.UpstreamWm Proofs.C11_Wmark Proofs.C11_Upstream.
Import ListNotations.
Open Scope Z_scope.

(* --- one source runner's watermark --- *)

(* never decreases: for every history of AdvanceTime (timestamps ordered or not, any protobuf encoding) and
   CurrentWatermark calls, the stamped watermarks are non-decreasing; any allowed lateness. *)
Theorem wm_monotone : forall late ops,
  StronglySorted Z.le (map instant (wm_trace (wm_new late) ops)) /\
  forall w ts, wm_current w <= wm_current (wm_advance w ts).
Proof. intros late ops. exact (conj (wm_monotone_l ops (wm_new late)) wm_step_monotone). Qed.
Print Assumptions wm_monotone.

(* follows the largest forwarded timestamp exactly: max - lateness - 1 ns (so it advances with event time);
   the maximum starts at the zero time.Time (year 1), the smallest valid protobuf Timestamp. *)
Theorem wm_tracks : forall late,
  (forall tss, wm_current (wm_run late tss) = zmax_list go_zero_time tss - late - 1) /\
  (forall ops, map instant (wm_trace (wm_new late) ops) =
               map (fun fw => zmax_list go_zero_time fw - late - 1) (wm_forwarded_before [] ops)).
Proof.
  intros late. exact (conj (wm_tracks_l late) (fun ops => wm_trace_tracks_gen ops (wm_new late) go_zero_time late [] eq_refl eq_refl)).
Qed.
Print Assumptions wm_tracks.

(* never reaches the largest forwarded timestamp: for every sequence with largest element mx that is a
   valid protobuf Timestamp (>= year 1) and every allowed lateness >= 0, watermark < mx, in fact = mx - late - 1. *)
Theorem wm_below_forwarded : forall late tss mx,
  0 <= late -> In mx tss -> (forall x, In x tss -> x <= mx) -> go_zero_time <= mx ->
  wm_current (wm_run late tss) < mx /\ wm_current (wm_run late tss) = mx - late - 1.
Proof.
  intros late tss mx Hl Hin Hle Hz. rewrite (wm_at_largest late tss mx Hin Hle Hz). split; [|reflexivity].
  rewrite <- Z.sub_add_distr. apply Z.lt_sub_pos, Z.lt_succ_r, Hl.
Qed.
Print Assumptions wm_below_forwarded.

(* the hypotheses are needed: a negative allowed lateness, or timestamps all before year 1, put the watermark
   at or above the largest forwarded timestamp (the unexported lateness field is never set by production code). *)
Example wm_below_needs_late : wm_current (wm_run (-1) [5]) = 5.
Proof. reflexivity. Qed.
Example wm_below_needs_year1 : wm_current (wm_run 0 [go_zero_time - 10]) > go_zero_time - 10.
Proof. vm_compute. reflexivity. Qed.

(* the stamp is taken when the placeholder is SENT: every Watermark an operator receives carries
   max(year 1, every keyed timestamp sent before it to any operator) - 1 ns, re-encoded by timestamppb.New. *)
Theorem stamp_after_forwarded : forall ops pre stamp post,
  pipe_run (wm_new 0) ops = pre ++ SendW stamp :: post ->
  stamp = pb_new (zmax_list go_zero_time (sent_ts pre) - 1) /\ 0 <= snd stamp < NS.
Proof.
  intros ops pre stamp post H. rewrite (stamp_after_forwarded_gen ops (wm_new 0) pre stamp post H). exact (conj eq_refl (pb_new_normal _)).
Qed.
Print Assumptions stamp_after_forwarded.

Theorem stamps_monotone_and_below : forall ops pre stamp post,
  pipe_run (wm_new 0) ops = pre ++ SendW stamp :: post ->
  (forall mid s2 post', post = mid ++ SendW s2 :: post' -> instant stamp <= instant s2) /\
  (forall t, In t (sent_ts pre) -> (forall x, In x (sent_ts pre) -> x <= t) -> go_zero_time <= t -> instant stamp = t - 1).
Proof.
  intros ops pre stamp post H. split; [intros mid s2 post' ->; exact (stamps_monotone_gen _ _ _ _ _ _ _ H)|].
  intros t. exact (stamp_below_forwarded_gen ops (wm_new 0) pre stamp post t H).
Qed.
Print Assumptions stamps_monotone_and_below.

(* protobuf conversions lose nothing: AsTime (New t) = t with nanos in [0, 1e9) *)
Theorem pb_roundtrip : forall t, as_time (Some (pb_new t)) = t /\ 0 <= snd (pb_new t) < NS.
Proof. intros t. exact (conj (instant_pb_new t) (pb_new_normal t)). Qed.
Print Assumptions pb_roundtrip.

(* --- the operator's effective watermark --- *)

(* For every set of configured runners and every history of AdvanceWatermark (any senders, known or not, any
   order, regressing or not) and SetTimer calls, the registry's cached watermark is the specified composite:
   the MINIMUM over all participants (configured runners and senders seen so far) of their latest report,
   where a runner that has not reported counts as the epoch and only a sender's most recent message counts;
   in particular it is the epoch before the first watermark message (code repaired: 9b0e491). *)
Theorem composite_is_min : forall ids ops,
  let msgs := rop_msgs ops in
  let c := r_wm (reg_run (reg_new ids) ops) in
  c = spec_composite ids msgs /\
  (participants ids msgs <> [] ->
     (forall s, In s (participants ids msgs) -> c <= latest msgs s) /\
     (exists s, In s (participants ids msgs) /\ c = latest msgs s)) /\
  (participants ids msgs = [] -> c = epoch) /\
  (forall s, ~ In s (map fst msgs) -> latest msgs s = epoch) /\
  (forall m1 s t m2, msgs = m1 ++ (s, t) :: m2 -> ~ In s (map fst m2) -> latest msgs s = t).
Proof.
  intros ids ops msgs c. unfold c. rewrite reg_run_wm.
  exact (conj eq_refl (conj (spec_composite_char ids msgs) (conj (spec_composite_nobody ids msgs)
           (conj (latest_unreported_l msgs) (latest_last_l msgs))))).
Qed.
Print Assumptions composite_is_min.

(* Every AdvanceWatermark of every history leaves the cached watermark at the specified composite of the
   messages so far, and every timer it fires is at or before that minimum. *)
Theorem no_timer_beyond_min : forall ids ops i fired w,
  nth_error (reg_trace (reg_new ids) ops) i = Some (fired, w) ->
  w = spec_composite ids (rop_msgs (firstn (S i) ops)) /\ forall t k, In (t, k) fired -> t <= w.
Proof. intros ids ops i fired w. exact (reg_trace_spec_gen ops ids [] (reg_new ids) i fired w (reg_inv_new ids)). Qed.
Print Assumptions no_timer_beyond_min.

(* the SetTimer guard: a timer at or before the composite watermark is dropped (so a timer at or before the
   epoch set before any watermark message is a no-op); a later one is stored and the watermark is untouched *)
Theorem set_timer_guard : forall r k t,
  (t <= r_wm r -> set_timer r k t = r) /\
  (r_wm r < t -> In (swrap64 t, k) (r_timers (set_timer r k t)) /\ r_wm (set_timer r k t) = r_wm r) /\
  (forall ids, t <= epoch -> set_timer (reg_new ids) k t = reg_new ids).
Proof.
  intros r k t.
  exact (conj (set_timer_dropped r k t) (conj (set_timer_stored r k t) (fun ids => set_timer_dropped (reg_new ids) k t))).
Qed.
Print Assumptions set_timer_guard.

(* For every handler (any function), every batch size, every interleaving of keyed events, watermark messages,
   SourceComplete and redeploys of the live operator: the Watermark field of every ProcessEventBatchRequest
   issued while the i-th incoming event is handled is the specified composite after the first i+1 events, i.e. the
   minimum over the CURRENT deployment's runners of their latest report in this deployment (unreported = epoch). *)
Theorem handler_told_composite : forall (h : handler) ids m ops i calls,
  nth_error (op_trace h m (op_new ids) ops) i = Some calls ->
  forall c, In c calls -> c_told c = pb_new (spec_at ids (firstn (S i) ops)).
Proof.
  intros h ids m ops i calls H c Hc. exact (proj1 (op_trace_spec_gen h m ops ids [] (op_new ids) i calls (op_inv_new ids) H c Hc)).
Qed.
Print Assumptions handler_told_composite.

(* what spec_at is: without a redeploy the composite of all watermark messages of the history; from a (re)deploy
   until that deployment's first watermark message the epoch (nothing of the previous deployment survives);
   in general spec_composite (characterised by composite_is_min) of the current deployment's runners / messages *)
Theorem spec_at_meaning : forall ids0 pre,
  ((forall ids, ~ In (ODeploy ids) pre) -> spec_at ids0 pre = spec_composite ids0 (oop_msgs pre)) /\
  (forall a ids post, pre = a ++ ODeploy ids :: post ->
     (forall s p, ~ In (OWm s p) post) -> (forall ids', ~ In (ODeploy ids') post) -> spec_at ids0 pre = epoch) /\
  spec_at ids0 pre = spec_composite (fst (drun (ids0, []) pre)) (snd (drun (ids0, []) pre)).
Proof.
  intros ids0 pre. split; [apply spec_at_no_deploy|].
  split; [intros a ids post ->; apply spec_at_after_deploy|reflexivity].
Qed.
Print Assumptions spec_at_meaning.

(* an early stop of the due-timer iterator (its consumer returns in the middle: a handler error during the
   advance) rolls nothing back: table and cached composite are exactly those of a fully drained advance
   (no_timer_beyond_min above covers RAdvStop entries: the watermark after the call is the specified minimum) *)
Theorem early_stop_keeps_composite : forall r s p k,
  r_ups (fst (advance_stop r s p k)) = r_ups (fst (advance r s p)) /\
  r_wm (fst (advance_stop r s p k)) = r_wm (fst (advance r s p)).
Proof. intros r s p k. unfold advance_stop, advance. destruct (fire _ _). split; reflexivity. Qed.
Print Assumptions early_stop_keeps_composite.

(* the operator's table and composite after any history do not depend on the handler at all - in particular not
   on which of its calls failed (handler = None) nor on the batch size; handler_told_composite quantifies over
   failing handlers too, so the calls after a failed timer batch are told the minimum of the upstream table *)
Theorem handler_error_keeps_composite : forall (h h' : handler) m m' ops st st',
  r_ups (o_reg st) = r_ups (o_reg st') -> r_wm (o_reg st) = r_wm (o_reg st') ->
  forall i, let run := fun hh mm s0 => fold_left (fun s o => fst (op_step hh mm s o)) (firstn i ops) s0 in
  r_ups (o_reg (run h m st)) = r_ups (o_reg (run h' m' st')) /\
  r_wm (o_reg (run h m st)) = r_wm (o_reg (run h' m' st')).
Proof.
  intros h h' m m' ops st st' Hu Hw i. apply pair_equal_spec.
  exact (table_independent_of_handler h h' m m' (firstn i ops) st st' (f_equal2 pair Hu Hw)).
Qed.
Print Assumptions handler_error_keeps_composite.

(* a finished source runner keeps counting: SourceComplete changes neither the upstream table nor the composite
   (so composite_is_min / handler_told_composite above range over ALL runners' latest reports, finished or not:
   OComplete contributes nothing to oop_msgs and removes nothing) *)
Theorem source_complete_keeps_min : forall (h : handler) m st s,
  r_ups (o_reg (fst (op_step h m st (OComplete s)))) = r_ups (o_reg st) /\
  r_wm (o_reg (fst (op_step h m st (OComplete s)))) = r_wm (o_reg st).
Proof. intros h m st s. apply pair_equal_spec. exact (op_step_table h m st (OComplete s)). Qed.
Print Assumptions source_complete_keeps_min.

(* ... and every TimerExpired the handler ever receives is not later than the composite that held right after
   one of the watermark messages handled before (with batches > 1 a fired timer may be delivered later). *)
Theorem no_timer_beyond_min_at_handler : forall (h : handler) ids m ops i calls,
  nth_error (op_trace h m (op_new ids) ops) i = Some calls ->
  forall c, In c calls -> forall k t, In (HT k t) (c_events c) ->
  exists a s p b, firstn (S i) ops = a ++ OWm s p :: b /\ t <= spec_at ids (a ++ [OWm s p]).
Proof.
  intros h ids m ops i calls H c Hc. exact (proj2 (op_trace_spec_gen h m ops ids [] (op_new ids) i calls (op_inv_new ids) H c Hc)).
Qed.
Print Assumptions no_timer_beyond_min_at_handler.

(* non-vacuity *)
Example wm_example : map instant (wm_trace (wm_new 0) [WAdv (Some (5, 0)); WCur; WAdv (Some (3, 7)); WCur; WAdv None; WAdv (Some (9, -1)); WCur])
                     = [4999999999; 4999999999; 8999999998].
Proof. vm_compute. reflexivity. Qed.
Example pipe_example : pipe_run (wm_new 0) [PW; PK [(0%N, 1%N, Some (7, 0)); (1%N, 2%N, Some (2, 5))]; PW]
                     = [SendW (-62135596801, 999999999); SendK 0 1 (Some (7, 0)); SendK 1 2 (Some (2, 5)); SendW (6, 999999999)].
Proof. vm_compute. reflexivity. Qed.

(* the repository's two-upstream scenario, in both arrival orders, and an unknown sender *)
Example reg_example :
  reg_trace (reg_new [1%N; 2%N]) [RSet 7 (tm 2 0); RAdv 1 (Some (2, 0)); RAdv 2 (Some (1, 0)); RAdv 2 (Some (2, 0))]
  = [([], 0); ([], 0); ([], tm 1 0); ([(tm 2 0, 7%N)], tm 2 0)] /\
  reg_trace (reg_new [1%N; 2%N]) [RSet 7 (tm 2 0); RAdv 2 (Some (2, 0)); RAdv 9 (Some (5, 0)); RAdv 1 (Some (3, 0)); RAdv 1 (Some (1, 0))]
  = [([], 0); ([], 0); ([], 0); ([(tm 2 0, 7%N)], tm 2 0); ([], tm 1 0)].
Proof. vm_compute. split; reflexivity. Qed.
Example op_example :
  map (map c_told) (op_trace (fun _ evs => Some (map (fun e => match e with HK _ k ts => (k, ts) | HT k _ => (k, []) end) evs)) 1 (op_new [1%N; 2%N])
    [OEv 1 1 7 [Some (2, 0)]; OWm 1 (Some (3, 0)); OWm 2 (Some (2, 5)); OEv 2 2 7 []])
  = [[(0, 0)]; []; [(2, 5)]; [(2, 5)]].
Proof. vm_compute. reflexivity. Qed.

(* the code before the repair violated handler_told_composite on the very first call *)
Lemma handler_told_before_fix_refuted_w :
  exists ids ops calls c,
    nth_error (op_trace (fun _ _ => Some []) 1 {| o_reg := reg_new_before_fix ids; o_batch := [] |} ops) 0 = Some calls /\
    In c calls /\ c_told c <> pb_new (spec_at ids (firstn 1 ops)).
Proof.
  exists [1%N], [OEv 1 1 0 []]. eexists. eexists. split; [reflexivity|]. split; [left; reflexivity|].
  vm_compute. discriminate.
Qed.

(* a runner finishes with the lowest watermark: it still holds the minimum back *)
Example complete_example :
  map (map c_told) (op_trace (fun _ evs => Some (map (fun e => match e with HK _ k ts => (k, ts) | HT k _ => (k, []) end) evs)) 1 (op_new [1%N; 2%N])
    [OWm 1 (Some (5, 0)); OWm 2 (Some (9, 0)); OEv 1 1 7 [Some (7, 0)]; OComplete 1; OWm 2 (Some (20, 0)); OEv 2 2 7 []])
  = [[]; []; [(5, 0)]; []; []; [(5, 0)]].
Proof. vm_compute. reflexivity. Qed.

(* a redeploy of the live operator starts from the epoch again, whatever the previous deployment had reached *)
Example redeploy_example :
  map (map c_told) (op_trace (fun _ evs => Some (map (fun e => match e with HK _ k ts => (k, ts) | HT k _ => (k, []) end) evs)) 1 (op_new [1%N])
    [OWm 1 (Some (50, 0)); OEv 1 1 7 []; ODeploy [1%N]; OEv 1 2 7 [Some (20, 0)]; OWm 1 (Some (30, 0)); OEv 1 3 7 []])
  = [[]; [(50, 0)]; []; [(0, 0)]; [(30, 0)]; [(30, 0)]].
Proof. vm_compute. reflexivity. Qed.

(* the handler fails on the first expired timer of a watermark advance: the second due timer stays in the store,
   the next call is told the ADVANCED composite, a timer at or before it is dropped, and the remaining timer fires
   with the next advance *)
Example handler_error_example :
  map (map (fun c => (c_told c, c_events c)))
    (op_trace (fun _ evs => if existsb (fun e => match e with HT 6 _ => true | _ => false end) evs then None
                            else Some (map (fun e => match e with HK _ k ts => (k, ts) | HT k _ => (k, []) end) evs)) 1 (op_new [1%N])
      [OEv 1 1 6 [Some (10, 0)]; OEv 1 2 7 [Some (20, 0)]; OWm 1 (Some (30, 0)); OEv 1 3 5 [Some (25, 0)]; OWm 1 (Some (31, 0))])
  = [[((0, 0), [HK 1 6 [Some (10, 0)]])]; [((0, 0), [HK 2 7 [Some (20, 0)]])];
     [((30, 0), [HT 6 (tm 10 0)])];
     [((30, 0), [HK 3 5 [Some (25, 0)]])];
     [((31, 0), [HT 7 (tm 20 0)])]].
Proof. vm_compute. reflexivity. Qed.
