(* C15 - the job runs only on a full, live assembly and checkpointing resumes. Statements only.
   Model: Model/JobSM.v (instance [current] = the code after the repairs D18a/D18b/D30; [original] = before).
   [exec c l] is the state after ANY history l of registrations (= heartbeats), deregistrations, clock
   advances (heartbeat expiry), deployment endings (ok / failed), checkpoint ticks and acks: faults during a
   deployment and during an in-flight checkpoint are histories like any other.
   "Eventually" of the property text is stated as bounded response: given the tick and the acks of the members,
   completion follows within exactly those steps; real time-outs are exercised by the harness, not proved. *)
From Coq Require Import List NArith Bool.
From RV Require Import Model.JobSM Proofs.C15_JobSM.
Import ListNotations.
Open Scope N_scope.

(* ---- deploy_only_full_live: every Deploy fan-out goes to exactly WorkerCount distinct operators and WorkerCount
   distinct source runners, each registered and within the heartbeat deadline in the state that formed the assembly. *)
Theorem deploy_only_full_live : forall c l o d,
  let s' := fst (step c (exec c l) o) in
  In d (o_deps (snd (step c (exec c l) o))) ->
  length (d_ops d) = wc c /\ length (d_srs d) = wc c /\ NoDup (d_ops d) /\ NoDup (d_srs d) /\
  (forall n, In n (d_ops d) -> In n (ops s') /\ live_in c s' (true, n)) /\
  (forall n, In n (d_srs d) -> In n (srs s') /\ live_in c s' (false, n)).
Proof.
  intros c l o d s' Hd. pose proof (step_deps c _ o d (exec_inv c l) Hd) as K. rewrite (k_dep _ _ _ K).
  destruct (k_asm _ _ _ K true) as [Lo [No Mo]], (k_asm _ _ _ K false) as [Lr [Nr Mr]].
  exact (conj Lo (conj Lr (conj No (conj Nr (conj Mo Mr))))).
Qed.
Print Assumptions deploy_only_full_live.

(* WHICH registered live nodes NewAssembly picks when more than WorkerCount are registered is free: the choice is an input
   of the model (op OChoose: arbitrary lists; an admissible one - ascending, exactly WorkerCount, registered after the
   purge - is used, otherwise the lowest ids). Every theorem of this file quantifies over all histories, hence over every
   choice at every assembly. Conversely every admissible choice is realised: *)
Theorem any_admissible_choice_is_deployed : forall c l co cr o s1,
  let s0 := fst (step c (exec c l) (OChoose co cr)) in
  pre c s0 o = Some s1 -> stat s1 = Init \/ stat s1 = Paused ->
  admissible (wc c) (ops (purge c s1)) co = true -> admissible (wc c) (srs (purge c s1)) cr = true ->
  o_deps (snd (step c s0 o)) = [MkDep co cr (map (fun _ => completed (sto s1)) co) true] /\
  a_ops (fst (step c s0 o)) = co /\ a_srs (fst (step c s0 o)) = cr.
Proof. exact (fun c l co cr => admissible_choice_deployed c (fst (step c (exec c l) (OChoose co cr))) co cr eq_refl). Qed.
Print Assumptions any_admissible_choice_is_deployed.

(* ---- unhealthy_leaves_running: whenever the job has looked at its cluster (any registration, deregistration or
   deployment ending) and is Running, every member of its assembly is registered and within the deadline ... *)
Theorem unhealthy_leaves_running : forall c l o s1,
  pre c (exec c l) o = Some s1 ->
  let s' := fst (step c (exec c l) o) in
  stat s' = Running ->
  (forall n, In n (a_ops s') -> In n (ops s') /\ live_in c s' (true, n)) /\
  (forall n, In n (a_srs s') -> In n (srs s') /\ live_in c s' (false, n)).
Proof.
  intros c l o s1 P s' R. unfold s' in *. rewrite (proj1 (step_eval c _ o s1 P)) in *.
  pose proof (evaluate_running c s1 (pre_inv _ _ _ _ (exec_inv c l) P) R) as H. exact (conj (H true) (H false)).
Qed.
Print Assumptions unhealthy_leaves_running.

(* ... so a deregistration of a member stops the use of the assembly at once: the job is Paused, or - when enough live
   nodes are registered and the next assembly is taken in the same evaluation - already Starting the next one ... *)
Theorem deregistered_operator_pauses : forall c l n,
  stat (exec c l) = Running -> In n (a_ops (exec c l)) -> stat (fst (step c (exec c l) (ODeregOp n))) = Paused \/ stat (fst (step c (exec c l) (ODeregOp n))) = Starting.
Proof. exact (fun c l => deregistered_pauses true c (exec c l)). Qed.
Print Assumptions deregistered_operator_pauses.

Theorem deregistered_runner_pauses : forall c l n,
  stat (exec c l) = Running -> In n (a_srs (exec c l)) -> stat (fst (step c (exec c l) (ODeregSr n))) = Paused \/ stat (fst (step c (exec c l) (ODeregSr n))) = Starting.
Proof. exact (fun c l => deregistered_pauses false c (exec c l)). Qed.
Print Assumptions deregistered_runner_pauses.

(* ... and a member whose last heartbeat is older than the deadline stops it at the next event of any other node. *)
Theorem expired_operator_pauses : forall c l n t o s1,
  stat (exec c l) = Running -> In n (a_ops (exec c l)) ->
  hb_get (true, n) (hb (exec c l)) = Some t -> t + deadline c < now (exec c l) ->
  pre c (exec c l) o = Some s1 -> o <> ORegOp n ->
  stat (fst (step c (exec c l) o)) = Paused \/ stat (fst (step c (exec c l) o)) = Starting.
Proof. exact (fun c l => expired_pauses true c (exec c l)). Qed.
Print Assumptions expired_operator_pauses.

Theorem expired_runner_pauses : forall c l n t o s1,
  stat (exec c l) = Running -> In n (a_srs (exec c l)) ->
  hb_get (false, n) (hb (exec c l)) = Some t -> t + deadline c < now (exec c l) ->
  pre c (exec c l) o = Some s1 -> o <> ORegSr n ->
  stat (fst (step c (exec c l) o)) = Paused \/ stat (fst (step c (exec c l) o)) = Starting.
Proof. exact (fun c l => expired_pauses false c (exec c l)). Qed.
Print Assumptions expired_runner_pauses.

(* the checkpoint ticker (created by the "running" task of every successful start, stopped by every pause) is alive
   exactly while the job is Running: in particular it IS armed in every Running state, after any number of recoveries *)
Theorem ticker_armed_iff_running : forall c l,
  q_ticker_once (qk c) = false -> (ticker (exec c l) = 1 <-> stat (exec c l) = Running).
Proof. exact (fun c l => i_tk c _ (exec_inv c l)). Qed.
Print Assumptions ticker_armed_iff_running.

(* a tick (the harness ticks at any time; only a ticker that is alive fires) sends StartCheckpoint nowhere unless the job
   is Running, and then to the runners of its assembly *)
Theorem tick_only_running : forall c l,
  q_ticker_once (qk c) = false ->
  o_started (snd (step c (exec c l) OTick)) <> [] ->
  stat (exec c l) = Running /\ o_started (snd (step c (exec c l) OTick)) = a_srs (exec c l).
Proof. exact (fun c l => tick_started c _ (exec_inv c l)). Qed.
Print Assumptions tick_only_running.

(* ---- redeploy_from_latest: a deployment addresses every member of the new assembly, tells every operator the
   store's CurrentCheckpoint, and the splitter resumes from that same checkpoint when the deployment succeeds;
   it happens as soon as the job is waiting and enough nodes are registered; the current checkpoint is the latest
   published one (publications strictly increase it). *)
Theorem redeploy_from_latest : forall c l o d,
  let s' := fst (step c (exec c l) o) in
  In d (o_deps (snd (step c (exec c l) o))) ->
  stat s' = Starting /\ d_ops d = a_ops s' /\ d_srs d = a_srs s' /\
  d_ck d = map (fun _ => completed (sto s')) (d_ops d) /\ dep_ck s' = completed (sto s').
Proof.
  intros c l o d s' Hd. pose proof (step_deps c _ o d (exec_inv c l) Hd) as K. rewrite (k_dep _ _ _ K).
  pose proof (k_stat _ _ _ K). pose proof (k_depck _ _ _ K). auto.
Qed.
Print Assumptions redeploy_from_latest.

Theorem splitter_resumes_from_deployed_checkpoint : forall c s,
  stat s = Starting -> o_split (snd (step c s (OFin true))) = dep_ck s + 1.
Proof. intros c s E. cbn [step]. rewrite E. destruct (evaluate c (go_running c s)). reflexivity. Qed.
Print Assumptions splitter_resumes_from_deployed_checkpoint.

Theorem redeploy_when_enough : forall c l o s1,
  pre c (exec c l) o = Some s1 -> stat s1 = Init \/ stat s1 = Paused ->
  let s' := fst (step c (exec c l) o) in
  (stat s' = Starting /\ exists d, o_deps (snd (step c (exec c l) o)) = [d]) \/
  (stat s' = stat s1 /\ ((length (ops s') < wc c)%nat \/ (length (srs s') < wc c)%nat)).
Proof. exact (fun c l => waiting_starts_or_short c (exec c l)). Qed.
Print Assumptions redeploy_when_enough.

Theorem published_is_newer : forall c l o,
  q_install_superseded (qk c) = false ->
  completed (sto (exec c l)) <= completed (sto (fst (step c (exec c l) o))) /\
  (o_published (snd (step c (exec c l) o)) <> 0 ->
   completed (sto (fst (step c (exec c l) o))) = o_published (snd (step c (exec c l) o)) /\
   completed (sto (exec c l)) < o_published (snd (step c (exec c l) o))).
Proof. exact (fun c l o Q => pub_cases_newer _ _ _ (step_pub_cases c _ o (exec_inv c l) Q)). Qed.
Print Assumptions published_is_newer.

(* the checkpoint every deployment is told to restore (redeploy_from_latest: the store's current checkpoint) is the
   GREATEST id published so far in the history, 0 if none - also when the file write of an older, fully acknowledged
   checkpoint is slow (OHoldW / OReleaseW) and returns after a newer checkpoint was created, acknowledged and published *)
Theorem current_is_max_published : forall c l,
  q_install_superseded (qk c) = false ->
  completed (sto (exec c l)) = max_pub (snd (run c init l)) 0.
Proof. exact (fun c l => run_max_pub c l init (inv_init c)). Qed.
Print Assumptions current_is_max_published.

(* ---- checkpoints_resume (repaired code): after ANY history that leaves the job Running - whatever failed before,
   during a deployment or with a checkpoint OR SAVEPOINT in flight (the histories contain OSavepoint: a requested
   savepoint and a periodic checkpoint upgraded to one are pending snapshots like any other) - a tick, and equally a
   savepoint request, starts a fresh checkpoint on the runners of the running assembly (the tick acts only through a
   ticker that is alive: the model's OTick is a no-op otherwise, so the statement includes that the ticker is armed), and the acks of its members, in
   any order, are all accepted and publish it ([holdw = false]: the storage does not hold the snapshot file write). *)
Theorem checkpoints_resume : forall c l acks starter,
  q_keep_pending (qk c) = false -> q_splitters_accumulate (qk c) = false -> q_ticker_once (qk c) = false -> (0 < wc c)%nat ->
  starter = OTick \/ starter = OSavepoint ->
  let s := exec c l in
  stat s = Running -> pend (sto s) = None -> holdw s = false ->
  let id := ctr (sto s) + 1 in
  NoDup acks -> (forall a, In a acks <-> member_ack s id a) ->
  let s1 := fst (step c s starter) in
  let r := run c s1 acks in
  o_started (snd (step c s starter)) = a_srs s /\ o_cid (snd (step c s starter)) = id /\
  o_res (snd (step c s starter)) = 0 /\
  (forall p, pend (sto s1) = Some p -> p_sp p = starter_sp starter) /\
  completed (sto s) < id /\
  pend (sto (fst r)) = None /\ completed (sto (fst r)) = id /\
  Forall (fun b => o_res b = 0) (snd r) /\ (exists b, In b (snd r) /\ o_published b = id) /\
  stat (fst r) = Running.
Proof. exact (fun c l acks starter _ => fresh_checkpoint_completes c _ (exec_inv c l) acks starter). Qed.
Print Assumptions checkpoints_resume.

(* every deployment begins with NOTHING pending, whatever kind of snapshot was in flight when the assembly was lost;
   so the hypothesis [pend = None] of checkpoints_resume holds when the new assembly becomes Running *)
Theorem start_clears_pending : forall c l o d,
  q_keep_pending (qk c) = false -> q_keep_savepoint (qk c) = false ->
  In d (o_deps (snd (step c (exec c l) o))) -> pend (sto (fst (step c (exec c l) o))) = None.
Proof. exact (fun c l o d Q1 Q2 Hd => k_pend _ _ _ (step_deps c _ o d (exec_inv c l) Hd) Q1 Q2). Qed.
Print Assumptions start_clears_pending.

(* a savepoint request on a Running job with a periodic checkpoint in flight folds into it: same id, nothing started,
   members and ack flags kept (so checkpoints_resume_inflight applies to it unchanged) *)
Theorem savepoint_folds : forall c s p,
  stat s = Running -> pend (sto s) = Some p -> p_sp p = false ->
  step c s OSavepoint =
  (set_sto s (MkStore (Some (MkPending (p_id p) (p_ops p) (p_srs p) true)) (completed (sto s)) (ctr (sto s)) (splitters (sto s))),
   MkObs (status_code Running) [] [] (p_id p) 0 0 0).
Proof.
  intros c s p E P F. cbn [step]. rewrite E. unfold create_savepoint. rewrite P, F. cbn [set_sto stat]. rewrite E. reflexivity.
Qed.
Print Assumptions savepoint_folds.

(* a checkpoint still in flight in a Running state belongs to the running assembly (never to a lost one), and the
   acks still missing complete it *)
Theorem checkpoints_resume_inflight : forall c l p acks,
  q_keep_pending (qk c) = false -> q_keep_savepoint (qk c) = false -> q_splitters_accumulate (qk c) = false ->
  let s := exec c l in
  stat s = Running -> pend (sto s) = Some p -> holdw s = false ->
  NoDup acks -> (forall a, In a acks <-> ack_of (p_id p) p a) -> acks <> [] ->
  (forall a, ack_of (p_id p) p a -> member_ack s (p_id p) a) /\
  pend (sto (fst (run c s acks))) = None /\ completed (sto (fst (run c s acks))) = p_id p /\
  Forall (fun b => o_res b = 0) (snd (run c s acks)) /\ stat (fst (run c s acks)) = Running.
Proof. exact (fun c l => inflight_completes c _ (exec_inv c l)). Qed.
Print Assumptions checkpoints_resume_inflight.

(* the surviving operator: after a (re)deploy the barriers of the next checkpoint, from all its runners in any
   order, are accepted and the last one completes the checkpoint - whatever slot the failed assembly left: empty, half
   aligned, or complete but unreported because the job refused the ack ([o] is arbitrary) *)
Theorem operator_slot_resumes : forall q o runners order id,
  q_keep_slot q = false -> q_keep_complete_slot q = false -> sorted runners -> runners <> [] ->
  NoDup order -> (forall x, In x order <-> In x runners) ->
  let o1 := oper_deploy q o runners in
  exists pre_rs, snd (oper_barriers o1 order id true) = pre_rs ++ [2] /\ Forall (fun r => r = 0) pre_rs /\
                 o_slot (fst (oper_barriers o1 order id true)) = None.
Proof. exact (fun q o runners order id Q Qc _ => deployed_slot_resumes q o runners order id Q Qc). Qed.
Print Assumptions operator_slot_resumes.

(* ---- the code before the repairs violates checkpoints_resume (D18a, D30, D18b): computed witnesses, each
   replayed on the implementation by corpus/job/*.json *)
Theorem checkpoints_resume_refuted_keep_pending :
  let c := cfg_of (MkQuirks true false false false false false false) in
  let s := exec c hist_d18 in
  stat s = Running /\ a_ops s = [1] /\ a_srs s = [0] /\
  forall k, let s' := fst (run c s (repeat OTick k ++ [OAckOp 1 1; OAckSr 0 1; OAckOp 1 2; OAckSr 0 2; OTick])) in
            completed (sto s') = 0 /\ o_started (snd (step c s' OTick)) = [].
Proof.
  intros c s. do 3 (split; [vm_compute; reflexivity|]). intros k. cbv zeta.
  rewrite (run_idle_prefix c s OTick (mk_obs s []) k) by (vm_compute; reflexivity). vm_compute. split; reflexivity.
Qed.
Print Assumptions checkpoints_resume_refuted_keep_pending.

Theorem checkpoints_resume_refuted_splitters :
  let c := cfg_of (MkQuirks false true false false false false false) in
  let s := exec c hist_d30 in
  stat s = Running /\ a_ops s = [1] /\ a_srs s = [0] /\ pend (sto s) = None /\
  map o_res (snd (run c s [OTick; OAckOp 1 2; OAckSr 0 2])) = [0; 0; 2] /\
  completed (sto (fst (run c s [OTick; OAckOp 1 2; OAckSr 0 2]))) = 1.
Proof. vm_compute. repeat split; reflexivity. Qed.
Print Assumptions checkpoints_resume_refuted_splitters.

(* seeded C15-3 (an abort that spares savepoints): with a requested savepoint, or a checkpoint upgraded to one, in flight
   when the operator leaves, the new assembly runs but ticks start nothing, savepoint requests fail, and no ack completes anything *)
Theorem checkpoints_resume_refuted_keep_savepoint :
  let c := cfg_of (MkQuirks false false false true false false false) in
  forall h, h = hist_sp_a \/ h = hist_sp_b ->
  let s := exec c h in
  stat s = Running /\ a_ops s = [1] /\ a_srs s = [0] /\
  step c s OTick = (s, mk_obs s []) /\ o_res (snd (step c s OSavepoint)) = 1 /\ fst (step c s OSavepoint) = s /\
  completed (sto (fst (run c s [OAckOp 1 1; OAckSr 0 1; OAckOp 1 2; OAckSr 0 2]))) = 0.
Proof. intros c h [-> | ->]; vm_compute; repeat split; reflexivity. Qed.
Print Assumptions checkpoints_resume_refuted_keep_savepoint.

(* seeded C15r2-1 (ticker created once only): after the first recovery the job is Running with a stopped ticker *)
Theorem checkpoints_resume_refuted_ticker_once :
  let c := cfg_of (MkQuirks false false false false true false false) in
  let s := exec c hist_tk in
  stat s = Running /\ a_ops s = [1] /\ a_srs s = [0] /\ pend (sto s) = None /\ completed (sto s) = 1 /\
  ticker s = 2 /\ step c s OTick = (s, mk_obs s []).
Proof. vm_compute. repeat split; reflexivity. Qed.
Print Assumptions checkpoints_resume_refuted_ticker_once.

(* seeded C15r6-3 (the written snapshot is installed over a newer published one) and the repaired code on the same history *)
Theorem redeploy_from_latest_refuted_install_superseded :
  let deps q := o_deps (last (snd (run (cfg_of q) init hist_slow_write)) (mk_obs init [])) in
  map o_published (snd (run (cfg_of (MkQuirks false false false false false false true)) init hist_slow_write))
    = [0; 0; 0; 0; 0; 0; 0; 0; 0; 2; 1; 0; 0] /\
  deps (MkQuirks false false false false false false true) = [MkDep [1] [0] [1] true] /\
  map o_published (snd (run (cfg_of current) init hist_slow_write)) = [0; 0; 0; 0; 0; 0; 0; 0; 0; 2; 0; 0; 0] /\
  deps current = [MkDep [1] [0] [2] true].
Proof. vm_compute. repeat split; reflexivity. Qed.
Print Assumptions redeploy_from_latest_refuted_install_superseded.

Theorem operator_slot_refuted :
  let o1 := fst (oper_barriers (oper_deploy original (MkOper [] None) [0; 1]) [0] 4 true) in
  snd (oper_barriers (oper_deploy original o1 [0; 1]) [1; 0] 6 true) = [1; 3].
Proof. vm_compute. reflexivity. Qed.
Print Assumptions operator_slot_refuted.

(* seeded C15r5-3 (deploy clears only a half-aligned slot) and the repaired code on the same history *)
Theorem operator_slot_refuted_keep_complete :
  let q := MkQuirks false false false false false true false in
  let o1 := fst (oper_barriers (oper_deploy q (MkOper [] None) [0; 1]) [0; 1] 4 false) in
  snd (oper_barriers (oper_deploy q (MkOper [] None) [0; 1]) [0; 1] 4 false) = [0; 5] /\
  o_slot o1 = Some (MkSlot 4 []) /\
  snd (oper_barriers (oper_deploy q o1 [0; 1]) [1; 0] 5 true) = [1; 1] /\
  snd (oper_barriers (oper_deploy current o1 [0; 1]) [1; 0] 5 true) = [0; 2].
Proof. vm_compute. repeat split; reflexivity. Qed.
Print Assumptions operator_slot_refuted_keep_complete.

(* observed and modelled, not required by the property: a refused ack WITHOUT a redeployment leaves a slot that rejects
   every later checkpoint's barriers *)
Theorem refused_slot_without_redeploy : forall runners id id' sender accept,
  id' <> id ->
  let o := MkOper runners (Some (MkSlot id [])) in
  oper_barrier o sender id' accept = (o, 1) /\
  oper_barrier o sender id accept = oper_finish o id accept.
Proof.
  intros runners id id' sender accept H o. unfold oper_barrier, o. cbn [o_slot sl_wait sl_id andb rem filter].
  rewrite N.eqb_refl. apply N.eqb_neq in H. rewrite N.eqb_sym, H. split; reflexivity.
Qed.
Print Assumptions refused_slot_without_redeploy.

(* ---- non-vacuity: the hypotheses are satisfiable, the conclusions are reached on a history with faults *)
Definition c2 : cfg := MkCfg 2 5000 current.
(* two operators + standby, two runners; deploy; checkpoint 1 half acknowledged; operator 0 is killed (heartbeats stop,
   the others keep beating); expiry; redeploy on [1,2]; checkpoint 2 completes *)
Definition hist_kill : list op :=
  [ORegOp 0; ORegOp 1; ORegOp 2; ORegSr 0; ORegSr 1; OFin true; OTick; OAckOp 1 1; OAckSr 0 1;
   OAdv 3000; ORegOp 1; ORegOp 2; ORegSr 0; ORegSr 1; OAdv 3000; ORegOp 1; ORegOp 2; OFin true].
Example kill_history_recovers :
  let s := exec c2 hist_kill in
  stat s = Running /\ a_ops s = [1; 2] /\ a_srs s = [0; 1] /\ pend (sto s) = None /\ ctr (sto s) = 1 /\
  completed (sto (fst (run c2 s [OTick; OAckSr 1 2; OAckOp 2 2; OAckOp 1 2; OAckSr 0 2]))) = 2.
Proof. vm_compute. repeat split; reflexivity. Qed.
Example kill_history_deploys :
  map o_deps (snd (run c2 init hist_kill)) =
  [[]; []; []; []; [MkDep [0; 1] [0; 1] [0; 0] true]; []; []; []; []; []; []; []; []; []; []; []; [MkDep [1; 2] [0; 1] [0; 0] true]; []].
Proof. vm_compute. reflexivity. Qed.
Example kill_history_statuses :
  map o_status (snd (run c2 init hist_kill)) = [0; 0; 0; 0; 2; 3; 3; 3; 3; 3; 3; 3; 3; 3; 3; 1; 2; 3].
Proof. vm_compute. reflexivity. Qed.

(* the two savepoint histories on the repaired code: the new assembly starts with nothing pending and checkpoint 2 completes *)
Example savepoint_histories_recover :
  forall h, h = hist_sp_a \/ h = hist_sp_b ->
  let c := cfg_of current in let s := exec c h in
  stat s = Running /\ pend (sto s) = None /\
  completed (sto (fst (run c s [OTick; OAckOp 1 2; OAckSr 0 2]))) = 2 /\
  completed (sto (fst (run c s [OSavepoint; OAckSr 0 2; OAckOp 1 2]))) = 2.
Proof. intros h [-> | ->]; vm_compute; repeat split; reflexivity. Qed.

(* ---- the keyed state of an operator that is redeployed in place (model ost / sstep): for EVERY history of keyed
   events, complete checkpoints and redeployments: a redeployment whose request carries no checkpoint leaves the empty
   state - every key's count is 0, whatever was applied for the failed assembly -; a redeployment from checkpoint id
   leaves exactly the state recorded when that checkpoint was taken; a checkpoint records the state it is taken in; the
   handler is given the number of applications of the key in the current state. *)
Theorem redeploy_restores_checkpoint_state : forall l,
  let s := fst (srun ost0 l) in
  (forall k, applied (fst (sstep s (SRedeploy 0))) = [] /\ snd (sstep (fst (sstep s (SRedeploy 0))) (SEv k)) = 0) /\
  (forall id x, snap_get id (snaps s) = Some x -> applied (fst (sstep s (SRedeploy id))) = x) /\
  (snap_get (next_id s) (snaps (fst (sstep s SCkpt))) = Some (applied s)) /\
  (forall k, snd (sstep s (SEv k)) = count k (applied s)).
Proof. exact (fun l => sstep_spec _ (srun_no_snap0 l)). Qed.
Print Assumptions redeploy_restores_checkpoint_state.

Example state_history :
  snd (srun ost0 [SEv 1; SEv 1; SCkpt; SEv 1; SEv 2; SRedeploy 1; SEv 1; SEv 2; SRedeploy 0; SEv 1]) = [0; 1; 1; 2; 0; 0; 2; 0; 0; 0].
Proof. vm_compute. reflexivity. Qed.

(* a standby is registered and the HIGHEST ids are chosen: the deployment goes to [1;2] / [0;1]... the same history with the
   default choice goes to the lowest ids *)
Example choice_example :
  map o_deps (snd (run (MkCfg 2 5000 current) init [ORegOp 0; ORegOp 1; ORegOp 2; ORegSr 0; OChoose [1; 2] [0; 1]; ORegSr 1]))
    = [[]; []; []; []; []; [MkDep [1; 2] [0; 1] [0; 0] true]] /\
  map o_deps (snd (run (MkCfg 2 5000 current) init [ORegOp 0; ORegOp 1; ORegOp 2; ORegSr 0; OChoose [2; 1] [0; 1]; ORegSr 1]))
    = [[]; []; []; []; []; [MkDep [0; 1] [0; 1] [0; 0] true]].
Proof. vm_compute. split; reflexivity. Qed.

(* WHEN the next assembly is started after the running one turned unhealthy is free as well: with a choice supplied
   (OChoose) the evaluation that pauses the job starts the next assembly at once from the standby; without, the job waits
   for the next membership event (today's code). Both are histories the theorems above cover. *)
Example eager_reassembly_example :
  let c := MkCfg 1 5000 current in
  map (fun b => (o_status b, o_deps b))
      (snd (run c init [ORegOp 0; ORegOp 1; ORegSr 0; OFin true; OChoose [1] [0]; ODeregOp 0]))
    = [(0, []); (0, []); (2, [MkDep [0] [0] [0] true]); (3, []); (3, []); (2, [MkDep [1] [0] [0] true])] /\
  map (fun b => (o_status b, o_deps b))
      (snd (run c init [ORegOp 0; ORegOp 1; ORegSr 0; OFin true; ODeregOp 0; ORegOp 1]))
    = [(0, []); (0, []); (2, [MkDep [0] [0] [0] true]); (3, []); (1, []); (2, [MkDep [1] [0] [0] true])].
Proof. vm_compute. split; reflexivity. Qed.
