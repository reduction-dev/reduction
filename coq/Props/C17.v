(* C17 - on-disk tables and write-ahead logs round-trip exactly. Statements, each proved in a few lines from the lemmas of Proofs/C17_*.v.
   Conventions: [entry_ok e] = key and value lengths < 2^32 and sequence number < 2^64 (the widths of the length and
   sequence fields; NO condition on the bytes themselves); [norm e] = e with the value of a tombstone dropped (the
   format stores no value for a tombstone); [keys_sorted] = strictly ascending keys (bytes.Compare). *)
From RV Require Import Model.SstTable Model.WriteRun Model.WalCodec.
From RV Require Import Proofs.C17_Codec Proofs.C17_Table Proofs.C17_Bloom Proofs.C17_WriteRun2 Proofs.C17_Wal
        Proofs.C17_Get Proofs.C17_Main.
Open Scope N_scope.

(* ---------- entry codec ---------- *)
Theorem parse_serialize : forall es, Forall entry_ok es -> parse_body (ser_entries es) = Some (map norm es).
Proof. exact C17_Codec.parse_serialize. Qed.
Print Assumptions parse_serialize.

Theorem parse_serialize_exact : forall es,
  Forall entry_ok es -> Forall (fun e => e_del e = true -> e_val e = []) es -> parse_body (ser_entries es) = Some es.
Proof. intros es H Hc. rewrite (C17_Codec.parse_serialize es H), (map_norm_id es Hc). reflexivity. Qed.
Print Assumptions parse_serialize_exact.

(* All table theorems hold for EVERY choice of the writer-side constants [tp : tparams] = index spacing, bloom filter
   bits and hash count, with [params_ok tp] = spacing > 0, 0 < bits, bits + 63 < 2^32, hashes < 2^32 (what the Go code
   needs not to divide by zero / overflow uint32). The property does not fix these constants; readers never use them. *)
Example default_params_ok : params_ok default_params.
Proof. repeat split; vm_compute; try reflexivity; repeat constructor. Qed.

(* ---------- point lookup ---------- *)
(* run_ok es = Forall entry_ok es /\ keys_sorted es = true /\ blen (ser_entries es) < 2^32 (uint32 index offsets) *)
Theorem table_get_is_find : forall tp es key, params_ok tp -> run_ok es -> table_get (write_table tp es) key = get_spec es key.
Proof. exact C17_Main.table_get_is_find. Qed.
Print Assumptions table_get_is_find.

Theorem table_get_reopen_is_find : forall tp es key,
  params_ok tp -> run_ok es -> table_get (reopen (write_table tp es)) key = get_spec es key.
Proof. intros tp es key Hp H. apply (C17_Main.table_reads_back tp es Hp H). Qed.
Print Assumptions table_get_reopen_is_find.

Theorem table_get_never_panics : forall tp es key, params_ok tp -> run_ok es ->
  table_get (write_table tp es) key <> GPanic /\ table_get (write_table tp es) key <> GErr.
Proof. intros tp es key Hp H. rewrite (C17_Main.table_get_is_find tp es key Hp H). apply get_spec_total. Qed.
Print Assumptions table_get_never_panics.

(* every table of a split run answers lookups and scans, fresh and re-opened, with exactly its chunk of the run *)
Theorem write_run_tables_read_back : forall tp es target, params_ok tp -> 1 <= target -> run_ok es ->
  Forall (fun c => run_ok c /\
                   (forall key, table_get (write_table tp c) key = get_spec c key) /\
                   (forall key, table_get (reopen (write_table tp c)) key = get_spec c key) /\
                   (forall p, table_scan_prefix (write_table tp c) p = Some (scan_spec c p)) /\
                   (forall p, table_scan_prefix (reopen (write_table tp c)) p = Some (scan_spec c p)))
         (write_run es target).
Proof.
  intros tp es target Hp Ht H. rewrite <- (write_run_concat es target Ht) in H. apply run_ok_chunks in H.
  eapply Forall_impl; [|exact H]. intros c Hc. split; [exact Hc|exact (table_reads_back tp c Hp Hc)].
Qed.
Print Assumptions write_run_tables_read_back.

(* the split run read back as ONE sorted level (LevelList over {}, run): prefix scans and point lookups over the level,
   built from the fresh tables or from the re-opened ones, return exactly filter / find over the WHOLE run.
   [level_scan]/[level_get] compose the per-table reads in level order; the table selection inside a level (binary
   search with RangePrefixCompare / RangeKeyCompare) is proved complete in Props/C06.v level_search_complete and is
   exercised by the correspondence check (codes 112, 113). *)
Theorem level_reads_run_back : forall tp es target, params_ok tp -> 1 <= target -> run_ok es ->
  (forall p, level_scan (map (write_table tp) (write_run es target)) p = Some (scan_spec es p)) /\
  (forall key, level_get (map (write_table tp) (write_run es target)) key = get_spec es key) /\
  (forall p, level_scan (map (fun c => reopen (write_table tp c)) (write_run es target)) p = Some (scan_spec es p)) /\
  (forall key, level_get (map (fun c => reopen (write_table tp c)) (write_run es target)) key = get_spec es key).
Proof.
  intros tp es target Hp Ht H. pose proof (write_run_concat es target Ht) as Hc. rewrite <- Hc in H.
  apply run_ok_chunks, (level_reads_back tp _ Hp) in H. rewrite Hc in H. exact H.
Qed.
Print Assumptions level_reads_run_back.

(* One transient storage read failure while Table.Get reads an index key ([faulty rk bad] = the readKey callback that
   fails at offset [bad]): the index search reports the error, or it never read that offset and returns exactly what
   the healthy search returns. The failure is never turned into a comparison result. *)
Theorem search_fault_surfaces : forall rk bad key clamp offs,
  search_index_with (faulty rk bad) clamp offs key = SErr \/
  search_index_with (faulty rk bad) clamp offs key = search_index_with rk clamp offs key.
Proof.
  intros rk bad key clamp offs. apply search_faults_surface. intros off. unfold faulty. destruct (off =? bad); auto.
Qed.
Print Assumptions search_fault_surfaces.

(* WHERE a run is cut into tables (WriteRun's target / look-ahead policy) is not part of the property: the round trip
   holds for EVERY way of cutting a valid run into consecutive chunks - every table reads back exactly its chunk by
   point lookup and prefix scan, fresh and re-opened, the tables read as one sorted level give back the whole run -
   and for non-empty chunks the key ranges are disjoint and ascending. *)
Theorem any_cut_reads_back : forall tp chunks, params_ok tp -> run_ok (concat chunks) ->
  Forall (fun c => (forall key, table_get (write_table tp c) key = get_spec c key) /\
                   (forall key, table_get (reopen (write_table tp c)) key = get_spec c key) /\
                   (forall p, table_scan_prefix (write_table tp c) p = Some (scan_spec c p)) /\
                   (forall p, table_scan_prefix (reopen (write_table tp c)) p = Some (scan_spec c p))) chunks /\
  (forall p, level_scan (map (write_table tp) chunks) p = Some (scan_spec (concat chunks) p)) /\
  (forall key, level_get (map (write_table tp) chunks) key = get_spec (concat chunks) key) /\
  (forall p, level_scan (map (fun c => reopen (write_table tp c)) chunks) p = Some (scan_spec (concat chunks) p)) /\
  (forall key, level_get (map (fun c => reopen (write_table tp c)) chunks) key = get_spec (concat chunks) key).
Proof.
  intros tp chunks Hp H. apply run_ok_chunks in H.
  split; [exact (Forall_impl _ (fun c => table_reads_back tp c Hp) H)|exact (level_reads_back tp chunks Hp H)].
Qed.
Print Assumptions any_cut_reads_back.

Theorem any_cut_ranges : forall chunks,
  Forall (fun c => c <> []) chunks -> keys_sorted (concat chunks) = true ->
  ranges_ascending chunks /\ Forall (fun c => keys_sorted c = true) chunks.
Proof. exact C17_WriteRun2.chunks_ranges. Qed.
Print Assumptions any_cut_ranges.

(* ---------- prefix scan ---------- *)
Theorem table_scan_is_filter : forall tp es p,
  Forall entry_ok es -> table_scan_prefix (write_table tp es) p = Some (scan_spec es p).
Proof. exact C17_Table.table_scan_is_filter. Qed.
Print Assumptions table_scan_is_filter.

Theorem table_scan_reopen_is_filter : forall tp es p,
  params_ok tp -> Forall entry_ok es -> blen (ser_entries es) < 4294967296 ->
  table_scan_prefix (reopen (write_table tp es)) p = Some (scan_spec es p).
Proof.
  intros tp es p Hp Hok H. rewrite (C17_Table.table_scan_reopen_same tp es p Hp H).
  exact (C17_Table.table_scan_is_filter tp es p Hok).
Qed.
Print Assumptions table_scan_reopen_is_filter.

(* ---------- re-opening from the Document ---------- *)
Theorem reopen_same : forall tp es, params_ok tp ->
  blen (ser_entries es) < 4294967296 -> table_meta (reopen (write_table tp es)) = table_meta (write_table tp es).
Proof. exact C17_Table.reopen_loads_writer_metadata. Qed.
Print Assumptions reopen_same.

(* The descriptor round trip Document() -> JSON checkpoint encoding -> NewTableFromDocument keeps the file, the sizes
   and the key range. [json_doc] (Model/SstTable.v) models encoding/json on a TableDocument as the IDENTITY on
   descriptors: []byte keys are written as base64 and read back byte for byte. That identity is trusted, not proved;
   the correspondence check sends every descriptor through json.Marshal/json.Unmarshal (code 111). *)
Theorem reopen_keeps_descriptor : forall t,
  document (reopen t) = document t /\ t_file (reopen t) = t_file t /\
  t_start (reopen t) = t_start t /\ t_end (reopen t) = t_end t.
Proof. repeat split. Qed.
Print Assumptions reopen_keeps_descriptor.

Theorem reopen_range_is_first_last : forall tp es,
  t_start (reopen (write_table tp es)) = first_key es /\ t_end (reopen (write_table tp es)) = last_key es.
Proof. split; reflexivity. Qed.
Print Assumptions reopen_range_is_first_last.

(* ---------- bloom filter ---------- *)
Theorem bloom_no_false_negative : forall size hashes keys k,
  0 < size -> size + 63 < 4294967296 -> In k keys -> bf_might_have (bf_add_all (bf_new size hashes) keys) k = true.
Proof. exact C17_Bloom.bloom_no_false_negative. Qed.
Print Assumptions bloom_no_false_negative.

Theorem bloom_of_table_no_false_negative : forall tp es e, params_ok tp ->
  In e es -> bf_might_have (bloom_of tp es) (e_key e) = true.
Proof. intros tp es e (_ & Hb & Hb2 & _). exact (C17_Bloom.bloom_of_no_false_negative tp es e Hb Hb2). Qed.
Print Assumptions bloom_of_table_no_false_negative.

Theorem bloom_decode_encode : forall bf r, bloom_wf bf -> bf_decode (bf_encode bf ++ r) = Some (bf, r).
Proof. exact C17_Bloom.bf_decode_encode. Qed.
Print Assumptions bloom_decode_encode.

(* ---------- WriteRun ---------- *)
Theorem write_run_partition : forall es target, 1 <= target ->
  concat (write_run es target) = es /\ write_run es target <> [] /\
  (es <> [] -> Forall (fun c => c <> []) (write_run es target)) /\
  size_rule target (write_run es target).
Proof. exact C17_Main.write_run_partition. Qed.
Print Assumptions write_run_partition.

Theorem write_run_ranges : forall es target, 1 <= target -> keys_sorted es = true -> es <> [] ->
  ranges_ascending (write_run es target) /\ Forall (fun c => keys_sorted c = true) (write_run es target).
Proof.
  intros es target Ht Hs Hne. apply chunks_ranges; [apply write_run_nonempty; assumption|].
  rewrite write_run_concat by exact Ht. exact Hs.
Qed.
Print Assumptions write_run_ranges.

Theorem write_run_globally_ordered : forall es target, 1 <= target -> keys_sorted es = true ->
  forall pre c mid c' post, write_run es target = pre ++ c :: mid ++ c' :: post ->
  forall x y, In x c -> In y c' -> bltb (e_key x) (e_key y) = true.
Proof.
  intros es target Ht Hs pre c mid c' post Heq. apply (chunks_globally_ordered pre c mid c' post).
  rewrite <- Heq, write_run_concat by exact Ht. exact Hs.
Qed.
Print Assumptions write_run_globally_ordered.

(* ---------- WAL ---------- *)
Theorem wal_replays_suffix : forall s0 pre after,
  Forall wop_ok pre ->
  s0 + N.of_nat (length (appended pre)) < 18446744073709551616 ->
  after + 1 < 18446744073709551616 ->
  (forall s, In (WTrunc s) pre -> s <= after) ->
  s0 <= after -> after <= s0 + N.of_nat (length (appended pre)) ->
  exists es, wal_read_all (w_file (ws_w (wrun s0 pre))) after = WOk es /\
             map strip_seq es = skipn (N.to_nat (after - s0)) (appended pre).
Proof. exact C17_Wal.wal_replays_suffix. Qed.
Print Assumptions wal_replays_suffix.

Theorem wal_saved_file : forall s0 pre,
  ws_saved (wrun s0 (pre ++ [WRotate])) = w_file (ws_w (wrun s0 pre)) :: ws_saved (wrun s0 pre).
Proof. intros s0 pre. unfold wrun, wrun_gen. rewrite fold_left_app. reflexivity. Qed.
Print Assumptions wal_saved_file.

(* The reader on ANY file that is the serialisation of consecutively numbered records f, f+1, ... (however the
   writer segmented, carried or truncated its buffers to produce it): the records numbered after+1 and later, in
   order. The writer's segmentation policy is not part of the property; wal_replays_suffix above is this fact
   composed with the invariant of the current writer. *)
Theorem wal_reader_any_segmentation : forall f L after,
  Forall rec_ok L -> f + N.of_nat (length L) <= 18446744073709551616 -> after + 1 < 18446744073709551616 ->
  f <= after + 1 -> after + 1 <= f + N.of_nat (length L) ->
  wal_read_all (ser_wal f L) after = WOk (decs (after + 1) (skipn (N.to_nat (after + 1 - f)) L)).
Proof. exact C17_Wal.wal_read_all_ser. Qed.
Print Assumptions wal_reader_any_segmentation.

(* ---------- the code before the repairs violated the property (witnesses on the old models) ---------- *)
Theorem old_get_panics_before_first_key_refuted :
  exists es key, Forall entry_ok es /\ keys_sorted es = true /\ blen (ser_entries es) < 4294967296 /\
                 find_key key es = None /\ table_get_old (write_table default_params es) key = GPanic.
Proof.
  assert (H : run_ok d26_es) by (split; [repeat constructor|split; reflexivity]).
  exists d26_es, d26_key. refine (conj (proj1 H) (conj (proj1 (proj2 H)) (conj (proj2 (proj2 H)) (conj eq_refl _)))).
  apply C17_Get.table_get_old_panics; [exact H|intros e; apply C17_Bloom.bloom_of_no_false_negative; apply default_params_ok| |reflexivity].
  vm_compute. reflexivity.
Qed.
Print Assumptions old_get_panics_before_first_key_refuted.

Theorem old_rotate_loses_entries_refuted : exists s0 pre after,
  (forall s, In (WTrunc s) pre -> s <= after) /\ s0 <= after /\ after <= s0 + N.of_nat (length (appended pre)) /\
  wal_read_all (w_file (ws_w (wrun_gen false s0 pre))) after = WPanic.
Proof.
  exists 0, [WPut [97] [1]; WPut [98] [2]; WCut; WPut [99] [3]; WRotate; WTrunc 2; WPut [100] [4]], 2.
  split.
  - intros s Hin. cbn [In] in Hin.
    repeat (destruct Hin as [Hin|Hin]; [try discriminate Hin|]); [|contradiction].
    injection Hin as <-. apply N.le_refl.
  - split; [discriminate|]. split; [vm_compute; discriminate|]. vm_compute. reflexivity.
Qed.
Print Assumptions old_rotate_loses_entries_refuted.

Theorem old_write_run_emits_empty_table_refuted :
  exists es target, 1 <= target /\ es <> [] /\ In [] (write_run_old es target).
Proof.
  exists [mkE [97] (repeat 0 10%nat) 1 false; mkE [98] (repeat 0 200%nat) 2 false], 100.
  split; [discriminate|]. split; [discriminate|]. vm_compute. right; left; reflexivity.
Qed.
Print Assumptions old_write_run_emits_empty_table_refuted.

(* ---------- non-vacuity ---------- *)
Example run_ok_satisfiable : run_ok [mkE [] [1;2] 7 false; mkE [0] [] 3 true; mkE [0;255] [] 9 false].
Proof. split; [repeat constructor; vm_compute; reflexivity|]. split; vm_compute; reflexivity. Qed.

Example run_ok_example :
  let es := [mkE [] [1;2] 7 false; mkE [0] [] 3 true; mkE [0;255] [] 9 false] in
  Forall entry_ok es /\ keys_sorted es = true /\ parse_body (ser_entries es) = Some es.
Proof. cbn zeta. split; [repeat constructor; vm_compute; reflexivity|]. split; vm_compute; reflexivity. Qed.
