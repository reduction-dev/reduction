(* C03 - keyed state behaves as a per-key map the handler fully controls. Statements only. *)
From RV Require Import Model.StateStore Proofs.C03_Codec.
Open Scope N_scope.

(* decodeKey inverts encodeDBKey for every subject key, namespace and entry key
   (guards: one length byte for the namespace, four for the subject key) *)
Theorem decode_encode : forall count k ns e,
  blen ns < 256 -> blen k < 2 ^ 32 -> decode_key (encode_db_key count k ns e) = Some (ns, e).
Proof. intros count. exact (decode_encode_g (key_group count)). Qed.
Print Assumptions decode_encode.

(* outside the guard the property is false: a 256-byte namespace comes back as the empty namespace *)
Theorem ns_len_wrap_refuted : forall count,
  exists k ns e, blen ns = 256 /\ decode_key (encode_db_key count k ns e) <> Some (ns, e).
Proof. intros count. exact (ns_len_wrap_refuted_g (key_group count)). Qed.
Print Assumptions ns_len_wrap_refuted.

(* the scan prefix of subject key k covers a stored state key iff it belongs to k - also when one key is a prefix of the other *)
Theorem subject_prefix_free : forall count k k' ns e,
  blen k < 2 ^ 32 -> blen k' < 2 ^ 32 ->
  (is_prefix (encode_subject_key count k) (encode_db_key count k' ns e) = true <-> k = k').
Proof. intros count. exact (subject_prefix_free_g (key_group count)). Qed.
Print Assumptions subject_prefix_free.

(* schema byte: no timer key under any subject prefix, no state key under any timer scan prefix *)
Theorem timer_keys_disjoint : forall count k k' t g ns e,
  is_prefix (encode_subject_key count k) (encode_timer_key count k' t) = false /\
  is_prefix (timer_scan_prefix g) (encode_db_key count k ns e) = false.
Proof.
  intros count k k' t g ns e. split.
  - exact (timer_not_under_subject (key_group count) k k' t).
  - exact (state_not_under_timer_scan (key_group count) g k ns e).
Qed.
Print Assumptions timer_keys_disjoint.

(* ---------------------------------------------------------------- keyed_state_is_map
   The specification machine [o_run] (Proofs/C03_Store.v) keeps nothing but the list of responses the handler has
   returned since the start - a checkpoint saves that list, a redeploy from it puts it back - and hands over, for
   every distinct key k of a batch, [view (fm_of_responses k log)]: the fold, in result order, of every put and
   delete of every earlier response whose key result is for k, on an empty map, grouped by namespace. No other key,
   no timer, nothing deleted or overwritten can be in it by construction.

   Theorem: for EVERY DKV implementation K that refines the sorted-map specification (hypotheses = the statements of
   C07/C18 for put/delete/scan - a scan returns the prefix scan of the contents and a state with the same contents, so
   that background work may proceed while it runs - and of C08 for checkpoint/restore), every key-group function, every handler (an
   arbitrary function from request to response), every watermark guard and every history of batches (any batching),
   timer removals, checkpoints and redeploys: the model of the operator never panics and the sequence of
   (request, response) pairs - in particular the KeyStates of every request - is exactly that of the specification
   machine. Guards: namespaces < 256 bytes, subject keys < 2^32 bytes. *)
From RV Require Import Proofs.C03_Store.

Theorem keyed_state_is_map :
  forall (K : KV) (contents : kv_st K -> kvlist),
    (forall k v s, contents (kv_put K k v s) = sm_put k v (contents s)) ->
    (forall k s, contents (kv_del K k s) = sm_del k (contents s)) ->
    (forall p s, fst (kv_scan K p s) = Some (sm_scan p (contents s)) /\ contents (snd (kv_scan K p s)) = contents s) ->
    (forall cur s, contents (kv_restore K cur s) = contents s) ->
  forall (count : N) (accept : bytes -> Z -> bool) (h : handler) (steps : list step) (s0 : kv_st K),
    contents s0 = [] -> handler_ok h -> Forall step_ok steps ->
    exists y, run K (key_group count) accept h (init_sys K s0) steps = Some y /\
              sy_trace y = o_trace (o_run h o_init steps).
Proof.
  intros K contents Hp Hd Hs Hr count. exact (refines_trace K contents (Build_refines_sm K contents Hp Hd Hs Hr) (key_group count)).
Qed.
Print Assumptions keyed_state_is_map.

(* ---------------------------------------------------------------- storage read faults: never a truncated state
   A scan may end with an error ([kv_scan] returns None; entries it yielded before are dropped by GetState, which
   looks at the error after consuming the scan). Hypotheses: a scan never changes the contents, and IF it ends without
   an error it yielded the prefix scan. Then for every history: the model never panics, and the handler-visible trace
   is that of the specification machine on the history WITHOUT some of its batches ([pruned]) - the batches whose read
   failed: they end with BFailed (the error processEventBatch returns), the handler is not called and nothing is
   applied ([failed_read_applies_nothing]). So every handler call receives the COMPLETE fold of everything applied
   before it, or does not happen. *)
Theorem keyed_state_is_map_with_read_faults :
  forall (K : KV) (contents : kv_st K -> kvlist),
    (forall k v s, contents (kv_put K k v s) = sm_put k v (contents s)) ->
    (forall k s, contents (kv_del K k s) = sm_del k (contents s)) ->
    (forall p s, (forall l, fst (kv_scan K p s) = Some l -> l = sm_scan p (contents s)) /\
                 contents (snd (kv_scan K p s)) = contents s) ->
    (forall cur s, contents (kv_restore K cur s) = contents s) ->
  forall (count : N) (accept : bytes -> Z -> bool) (h : handler) (steps : list step) (s0 : kv_st K),
    contents s0 = [] -> handler_ok h -> Forall step_ok steps ->
    exists y steps', run K (key_group count) accept h (init_sys K s0) steps = Some y /\
                     pruned steps steps' /\ sy_trace y = o_trace (o_run h o_init steps').
Proof.
  intros K contents Hp Hd Hs Hr count accept h steps s0.
  exact (refines_per_key_map_faulty K contents Hp Hd Hs Hr (key_group count) accept h steps s0).
Qed.
Print Assumptions keyed_state_is_map_with_read_faults.

Theorem failed_read_applies_nothing :
  forall (K : KV) (contents : kv_st K -> kvlist),
    (forall p s, (forall l, fst (kv_scan K p s) = Some l -> l = sm_scan p (contents s)) /\
                 contents (snd (kv_scan K p s)) = contents s) ->
  forall (count : N) (accept : bytes -> Z -> bool) (h : handler) (evs : list event) (s s1 : kv_st K) A,
    Forall (fun ev => key_ok (fst ev)) evs -> Inv K contents (key_group count) s A ->
    fetch_states K (key_group count) (distinct_keys [] (map fst evs)) s = FErr s1 ->
    process_batch K (key_group count) accept h evs s = Some (BFailed, s1) /\ contents s1 = contents s.
Proof.
  intros K contents Hs count accept h evs s s1 A.
  exact (failed_scan_applies_nothing K contents Hs (key_group count) accept h evs s s1 A).
Qed.
Print Assumptions failed_read_applies_nothing.

(* the composition is not vacuous: the list-based DKV specification satisfies the four hypotheses *)
Theorem keyed_state_is_map_over_spec :
  forall (count : N) (accept : bytes -> Z -> bool) (h : handler) (steps : list step),
    handler_ok h -> Forall step_ok steps ->
    exists y, run list_kv (key_group count) accept h (init_sys list_kv []) steps = Some y /\
              sy_trace y = o_trace (o_run h o_init steps).
Proof. intros count. exact (refines_per_key_map_list (key_group count)). Qed.
Print Assumptions keyed_state_is_map_over_spec.

(* ---------------------------------------------------------------- keyed_state_is_map_over_lsm
   "regardless of how the state has been batched, flushed or compacted underneath", as a theorem: the DKV is now
   c07c18's LSM state machine (Model/Lsm.v: memtables with rotation, WAL limit, flush task F1/F2, compaction task
   C1/C2 with the serial-queue discipline, reads in two halves), driven through Model/StateStoreLsm.v: every DB.Put,
   DB.Delete and each half of every DB.ScanPrefix the operator performs is preceded by the background half-steps the
   schedule [sc] prescribes there (any list of F1 F2 C1 C2; the ones not enabled are skipped) - every interleaving of
   the sequential operator thread with the flush and compaction tasks is such a schedule.
   For EVERY option setting (cfg_ok: >= 2 levels, table target >= 1, L0 trigger >= 1), EVERY schedule, handler,
   watermark guard and history: the operator model over the LSM never panics and the handler-visible trace is that
   of the specification machine. Proof: Proofs/C03_OverLsm.v instantiates the hypotheses of keyed_state_is_map with
   contents := C07_Refine.absm, discharged by C07_Refine.step_ok (the invariant of dkv_reachable_invariant).
   Restore: [reopen] is what dkv.Open makes of the database captured by Checkpoint - ANY function that returns a
   database with the invariant, no read in flight and the same contents (the contract of C08). C08's own theorem
   (checkpoint_exact_partial) is about a different database model (Model/Ckpt.v, pointwise db_get of owned keys, no
   prefix scan), so it cannot discharge this hypothesis for Model/Lsm.v; it stays a hypothesis here, satisfiable
   (keyed_state_is_map_over_lsm_reopen_id: the captured database itself). Histories without SRestore never use it. *)
From RV Require Import Model.StateStoreLsm Proofs.C03_OverLsm.
From RV Require Model.Lsm Model.LsmCompaction Proofs.C07_Refine.

Theorem keyed_state_is_map_over_lsm :
  forall (cfg : Lsm.dbcfg) (Hcfg : C07_Refine.cfg_ok cfg)
         (reopen : Lsm.db -> Lsm.db)
         (Hreopen : forall st, good st -> good (reopen st) /\ C07_Refine.absm (reopen st) = C07_Refine.absm st)
         (count : N) (accept : bytes -> Z -> bool) (h : handler) (steps : list step) (sc : schedule),
    handler_ok h -> Forall step_ok steps ->
    exists y, run (lsm_kv cfg Hcfg reopen Hreopen) (key_group count) accept h
                  (init_sys (lsm_kv cfg Hcfg reopen Hreopen) (lsm_init cfg Hcfg sc)) steps = Some y /\
              sy_trace y = o_trace (o_run h o_init steps).
Proof.
  intros cfg Hcfg reopen Hreopen count accept h steps sc.
  exact (refines_per_key_map_lsm cfg Hcfg reopen Hreopen (key_group count) accept h steps sc).
Qed.
Print Assumptions keyed_state_is_map_over_lsm.

(* the restore contract is satisfiable *)
Theorem keyed_state_is_map_over_lsm_reopen_id :
  forall (cfg : Lsm.dbcfg) (Hcfg : C07_Refine.cfg_ok cfg)
         (count : N) (accept : bytes -> Z -> bool) (h : handler) (steps : list step) (sc : schedule),
    handler_ok h -> Forall step_ok steps ->
    exists y, run (lsm_kv cfg Hcfg (fun d => d) reopen_id_ok) (key_group count) accept h
                  (init_sys (lsm_kv cfg Hcfg (fun d => d) reopen_id_ok) (lsm_init cfg Hcfg sc)) steps = Some y /\
              sy_trace y = o_trace (o_run h o_init steps).
Proof. intros cfg Hcfg. exact (keyed_state_is_map_over_lsm cfg Hcfg (fun d => d) reopen_id_ok). Qed.
Print Assumptions keyed_state_is_map_over_lsm_reopen_id.

(* ---------------------------------------------------------------- keyed_state_restore_over_lsm_partial
   Restore over the LSM model WITHOUT a hypothesis, by composing C07 with C08 through the specification map.
   No single database model of this development has both reads under flush / compaction schedules (Model/Lsm.v has
   no WAL) and checkpoint / WAL replay (Model/Ckpt.v has no prefix scan). So the DKV here is the PAIR of both
   (Proofs/C03_RestoreBg.v), driven in lockstep, each side under its own arbitrary background schedule:
     - every DB.Put / DB.Delete of the operator goes to both sides;
     - scans are answered by the LSM side under the schedule [sc] (any F1 F2 C1 C2 before every foreground action and
       between the halves of every scan);
     - the durable side runs, before every foreground action and every redeploy, the next list of its schedule [dsc]:
       flush swaps (of any snapshotted prefix of the sealed memtables), merging compactions of any set of tables cut
       into any runs (the real compactor's shape), and the locked part of Checkpoint (WAL rotation) - the
       contents-preserving actions of Proofs/C08_Contents.v ([act_okc], [background_keeps_contents]);
     - a redeploy from the checkpoint taken at a barrier reopens the durable side as C08 models it: Checkpoint capture
       (level set, WAL content, LatestSeqNum) of the durable database of the barrier - whatever flushes were in flight
       or done, whatever was compacted -, then DB.Start: captured tables + replay of the WAL after LatestSeqNum
       ([ckpt_reopen], checkpoint_exact_dbc), and gives the LSM side a new database loaded with the map it served at
       the barrier ([lsm_load]: every entry through DB.Put, with its rotations; both schedules go on).
   Theorem, for EVERY cfg_ok option setting, both schedules, sizes of the durable side, handler, watermark guard and
   history (any number of checkpoints and redeploys): the operator never panics; the handler-visible trace is the
   specification machine's - after a redeploy the state handed over for a key is the fold of the mutations up to the
   barrier of the restored checkpoint and of those since; the durable database is one that can exist with
   contents-preserving actions (C08 [reachc]); and the map the LSM side serves equals, for every key, db_get of the
   durable database - in particular right after a redeploy the reloaded map IS the content of the database C08's
   reopening yields.
   REMAINING GAP (why _partial): the layout of the LSM side after a redeploy is a reload of the barrier map, not "the
   tables of the checkpoint + memtables rebuilt from the WAL". C07 covers every reachable layout and the state store
   observes only the contents, but that the real post-restore layout is a reachable (DBInv) Lsm.db is not proved:
   Model/Lsm.v has no WAL from which to rebuild it. The two models are tied by the map they hold, not by their layouts
   (their rotation / flush moments are independent). keyed_state_is_map_over_lsm (restore as a contract on the LSM
   model alone) is kept above. *)
From RV Require Import Model.StateStoreCkpt Proofs.C03_Restore Proofs.C03_RestoreBg.
From RV Require Model.Ckpt Proofs.C08_Ckpt Proofs.C08_Contents.

Theorem keyed_state_restore_over_lsm_partial :
  forall (cfg : Lsm.dbcfg) (Hcfg : C07_Refine.cfg_ok cfg)
         (count : N) (accept : bytes -> Z -> bool) (h : handler) (steps : list step)
         (sc : schedule) (dsc : dschedule) (mem wm : N),
    handler_ok h -> Forall step_ok steps ->
    exists y, run (bpair_kv cfg Hcfg) (key_group count) accept h
                  (init_sys (bpair_kv cfg Hcfg) (bpair_init cfg Hcfg sc dsc mem wm)) steps = Some y /\
              sy_trace y = o_trace (o_run h o_init steps) /\
              C08_Contents.reachc (bdurable (sy_db y)) /\
              forall k, Lsm.sm_get k (bpair_contents (sy_db y)) = Ckpt.db_get (bdurable (sy_db y)) k.
Proof.
  intros cfg Hcfg count accept h steps sc dsc mem wm.
  exact (restore_over_lsm_bg cfg Hcfg (key_group count) accept h steps sc dsc mem wm).
Qed.
Print Assumptions keyed_state_restore_over_lsm_partial.

(* ---------------------------------------------------------------- namespaces_contiguous
   Whatever responses the handler returned (guards as above), the state handed over for k - the grouping of the
   ascending flat map - contains every live entry exactly once in stored-key order, lists every namespace exactly
   once and never an empty namespace. *)
From RV Require Import Proofs.C03_View.

Theorem namespaces_contiguous : forall k log,
  Forall resp_ok log ->
  let m := fm_of_responses k log in
  ungroup (view m) = map unflat m /\ NoDup (map fst (view m)) /\ Forall (fun nse : ns_state => snd nse <> []) (view m).
Proof. intros k log _. exact (namespaces_contiguous_fold k log). Qed.
Print Assumptions namespaces_contiguous.

(* the fold of mutations is a finite map: the latest put wins, a deleted entry stays absent, and a mutation of one
   (namespace, entry key) changes no other - so overwritten or deleted entries cannot reappear in [view] *)
Theorem fold_is_a_map : forall (x y : ekey) v m,
  fm_find x (fm_put x v m) = Some v /\
  (x <> y -> fm_find y (fm_put x v m) = fm_find y m) /\
  (fm_good m -> ns_ok (fst x) -> fm_find x (fm_del x m) = None) /\
  (x <> y -> fm_find y (fm_del x m) = fm_find y m).
Proof.
  intros x y v m. split; [apply fm_find_put_same|]. split; [apply fm_find_put_other|].
  split; [intros [_ Hs] _; now apply fm_find_del_same|apply fm_find_del_other].
Qed.
Print Assumptions fold_is_a_map.

(* ---------------------------------------------------------------- non-vacuity: hypotheses are satisfiable, the model computes *)
Example ex_handler_ok : handler_ok (fun rq => [{| kr_key := [1]; kr_timers := [5%Z]; kr_muts := [([], [MPut [] [7]; MDel [9]])] |}]).
Proof. intros rq. repeat constructor. Qed.

Definition ex_handler : handler := fun rq =>
  match rq_states rq with
  | (k, []) :: _ => [{| kr_key := k; kr_timers := [1%Z]; kr_muts := [([1], [MPut [2] [3]]); ([], [MPut [] []])] |}]
  | (k, _) :: _ => [{| kr_key := k; kr_timers := []; kr_muts := [([1], [MDel [2]])] |}]
  | [] => []
  end.

Example ex_run :
  option_map (fun y => map (fun rr => rq_states (fst rr)) (sy_trace y))
    (run list_kv (key_group 7) (fun _ _ => true) ex_handler (init_sys list_kv [])
       [SBatch [([97], []); ([97; 98], []); ([97], [])]; SCkpt 1; SBatch [([97], [])]; SBatch [([97], [])]; SRestore 1; SBatch [([97], [])]])
  = Some [ [([97], []); ([97; 98], [])];
           [([97], [([], [([], [])]); ([1], [([2], [3])])])];
           [([97], [([], [([], [])])])];
           [([97], [([], [([], [])]); ([1], [([2], [3])])])] ].
Proof. vm_compute. reflexivity. Qed.

(* the LSM instance computes, and the schedule really flushes and compacts underneath: 19-byte memtables, every
   foreground action preceded by F1 F2 C1 C2 C1 C2. Same KeyStates as over the list specification (ex_run), while the
   database ends with its data in sstable levels. *)
Definition ex_lsm_cfg : Lsm.dbcfg := Lsm.mkDbCfg 19 1000000 6 (LsmCompaction.mkCfg 1 200 1 30).
Example ex_lsm_cfg_ok : C07_Refine.cfg_ok ex_lsm_cfg.
Proof. unfold C07_Refine.cfg_ok, ex_lsm_cfg. cbn. repeat split; lia. Qed.
Definition ex_sched : schedule := repeat [Lsm.AF1; Lsm.AF2; Lsm.AC1; Lsm.AC2; Lsm.AC1; Lsm.AC2] 60.
Definition ex_lsm_kv : KV := lsm_kv ex_lsm_cfg ex_lsm_cfg_ok (fun d => d) reopen_id_ok.

Example ex_run_over_lsm :
  option_map (fun y : sys ex_lsm_kv => (map (fun rr => rq_states (fst rr)) (sy_trace y),
                        existsb (fun l => negb (match l with [] => true | _ => false end)) (Lsm.lv (fst (proj1_sig (sy_db y : lsm_st))))))
    (run ex_lsm_kv (key_group 7) (fun _ _ => true) ex_handler (init_sys ex_lsm_kv (lsm_init ex_lsm_cfg ex_lsm_cfg_ok ex_sched))
       [SBatch [([97], []); ([97; 98], []); ([97], [])]; SCkpt 1; SBatch [([97], [])]; SBatch [([97], [])]; SRestore 1; SBatch [([97], [])]])
  = Some ([ [([97], []); ([97; 98], [])];
            [([97], [([], [([], [])]); ([1], [([2], [3])])])];
            [([97], [([], [([], [])])])];
            [([97], [([], [([], [])]); ([1], [([2], [3])])])] ], true).
Proof. vm_compute. reflexivity. Qed.

(* read faults: the second batch's read fails (plan: scans 1,2 succeed, 3 fails): no call, nothing applied, and the
   third batch sees exactly what the first left *)
Example ex_run_faulty :
  option_map (fun y : sys flist_kv => map (fun rr => rq_states (fst rr)) (sy_trace y))
    (run flist_kv (key_group 7) (fun _ _ => true) ex_handler (init_sys flist_kv ([], [false; false; true]))
       [SBatch [([97], []); ([97; 98], [])]; SBatch [([97], [])]; SBatch [([97], [])]])
  = Some [ [([97], []); ([97; 98], [])];
           [([97], [([], [([], [])]); ([1], [([2], [3])])])] ].
Proof. vm_compute. reflexivity. Qed.

(* the pair computes: same history as ex_run_over_lsm (checkpoint, two batches, redeploy, one batch) with background
   steps everywhere on both sides; the durable side (20-byte memtables: it rotates) flushes, rotates its WAL, compacts
   tables 0 and 1 of directory 0 into runs cut after 1 entry, and is reopened by table load + WAL replay; the LSM side is
   reloaded; the KeyStates after the redeploy are those of the barrier, and the durable side ends with tables *)
Definition ex_bpair_kv : KV := bpair_kv ex_lsm_cfg ex_lsm_cfg_ok.
Definition ex_dsched : dschedule :=
  repeat [DFlush 1 0 0; DCkpt; DFlush 1 0 1; DCompact [(0, 0, 0); (0, 0, 1)] 0 7 [1%nat]; DFlush 5 0 9] 40.
Example ex_run_over_pair :
  option_map (fun y : sys ex_bpair_kv => (map (fun rr => rq_states (fst rr)) (sy_trace y),
                                          Ckpt.db_get (bdurable (sy_db y)) (enc_db (key_group 7) [97] [1] [2]),
                                          Ckpt.db_get (bdurable (sy_db y)) (enc_db (key_group 7) [97] [] []),
                                          negb (match Ckpt.d_tables (bdurable (sy_db y)) with [] => true | _ => false end)))
    (run ex_bpair_kv (key_group 7) (fun _ _ => true) ex_handler
       (init_sys ex_bpair_kv (bpair_init ex_lsm_cfg ex_lsm_cfg_ok ex_sched ex_dsched 20 1000))
       [SBatch [([97], []); ([97; 98], []); ([97], [])]; SCkpt 1; SBatch [([97], [])]; SBatch [([97], [])]; SRestore 1; SBatch [([97], [])]])
  = Some ([ [([97], []); ([97; 98], [])];
            [([97], [([], [([], [])]); ([1], [([2], [3])])])];
            [([97], [([], [([], [])])])];
            [([97], [([], [([], [])]); ([1], [([2], [3])])])] ], None, Some [], true).
Proof. vm_compute. reflexivity. Qed.
