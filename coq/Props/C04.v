(* C04 - failure-free delivery: every record exactly once, per-split key order kept; barriers and watermarks
   never overtake records read before them; for any batch sizes, time-outs and handler latencies.
   Statements, each proved in a few lines from the lemmas of Proofs/C04_*.v; model in Model/RunnerPipe.v. *)
From Coq Require Import List NArith Bool Arith.
Import ListNotations.
From RV Require Import Model.RunnerPipe Proofs.C04_RunnerPipe Proofs.C04_Spec Proofs.C04_Timeout Proofs.C04_ReorderAdapter.

(* For every key-by function, every reorder stage that emits one result per input in input order (C20), every
   router, operator count, MaxSize, time-out setting, input (records of any splits, markers anywhere) and EVERY
   schedule of the read loop, the stage's internal actions, the joiner, the time-out tokens and the sender
   goroutines (handler latencies and operator back-pressure are the gaps the schedule leaves between actions):
   - at every moment each operator has been given a prefix of the sub-sequence of the ideal stream (key-by results
     in record order, markers at their positions) routed to it;
   - once the pipeline has drained it has been given exactly that sub-sequence, which means: every keyed event of
     every record exactly as often as produced and only at the operator owning its key, every marker once, events
     of the same split and key in the split's order, every marker exactly between the records read before and
     after it;
   - every keyed event is expected at exactly one operator. *)
Theorem delivery_exact_ordered :
  forall (kb : N -> list kev) (R : rstage) (route : list N -> nat) (nops mx : nat) (delay : bool) (split_of : N -> N),
    rs_inorder kb R ->
    forall (input : list item) (sched : list (action R)) (s : st R),
      run R route nops mx delay (init R input) sched = Some s ->
      (forall i, i < nops -> exists rest, expected kb route input i = delivered R s i ++ rest) /\
      (drained R nops s = true -> forall i, i < nops ->
         delivered R s i = expected kb route input i /\
         exact_ordered_at kb route input split_of i (delivered R s i)) /\
      ((forall k, route k < nops) -> forall x kv, exists i, i < nops /\
         count_occ ev_eq_dec (expected kb route input i) (EK x kv) = count_occ ev_eq_dec (ideal kb input) (EK x kv) /\
         forall j, j <> i -> count_occ ev_eq_dec (expected kb route input j) (EK x kv) = 0).
Proof.
  intros kb R route nops mx delay split_of Hin input sched s Hr. split; [|split].
  - intros i Hi. destruct (delivered_prefix kb R route nops mx delay Hin input sched s i Hr Hi) as (later & E). eexists. exact E.
  - intros Hd i Hi. pose proof (delivered_exact kb R route nops mx delay Hin input sched s i Hr Hi Hd) as E.
    split; [exact E|]. rewrite E. apply expected_exact_ordered.
  - intros Hlt x kv. apply one_operator. exact Hlt.
Qed.
Print Assumptions delivery_exact_ordered.

(* At most one batch is being delivered to an operator (the sender goroutine's) and at most one more waits behind
   it (the joiner's hand-off); while a hand-off waits the batcher is empty, so a time-out flush cannot overtake it;
   everything outside the batcher precedes the batcher's content in the operator's stream. *)
Theorem sender_serialises :
  forall (kb : N -> list kev) (R : rstage) (route : list N -> nat) (nops mx : nat) (delay : bool),
    rs_inorder kb R ->
    forall (input : list item) (sched : list (action R)) (s : st R),
      run R route nops mx delay (init R input) sched = Some s ->
      (forall j b, s_pc R s = JHand j b -> o_batch (s_ops R s j) = []) /\
      (forall i, i < nops -> exists later,
          expected kb route input i =
          delivered R s i ++ sndb (s_ops R s i) ++ jhand R s i ++ o_batch (s_ops R s i) ++ later).
Proof.
  intros kb R route nops mx delay Hin input sched s Hr.
  split; [exact (PInv_hand kb R route nops input s (reachable_PInv kb R route nops mx delay Hin input sched s Hr))|].
  intros i Hi. exact (delivered_prefix kb R route nops mx delay Hin input sched s i Hr Hi).
Qed.
Print Assumptions sender_serialises.

(* With MaxDelay > 0, in every reachable state (any schedule, in particular any late delivery of a stale time-out
   callback after its batch was handed out on size and the next batch has started): a non-empty operator batch has
   its time-out on the way - its timer is still armed with the batch's token, or has expired and its callback has not
   run yet, or the sender goroutine holds the token and is about to flush. So a record in a partial batch is never
   left without a time-out (what Flush(stale token) must not destroy). *)
Theorem timeout_pending :
  forall (R : rstage) (route : list N -> nat) (nops mx : nat) (input : list item) (sched : list (action R)) (s : st R),
    run R route nops mx true (init R input) sched = Some s ->
    forall i, o_batch (s_ops R s i) <> [] ->
      o_slot (s_ops R s i) = Some (o_tok (s_ops R s i)) \/
      In (o_tok (s_ops R s i)) (o_late (s_ops R s i)) \/
      o_snd (s_ops R s i) = STok (o_tok (s_ops R s i)).
Proof. intros R route nops mx input sched s Hr i. exact (reachable_TInv R route nops mx input sched s Hr i). Qed.
Print Assumptions timeout_pending.

(* The assumption on the reorder stage is satisfiable: a key-by batcher (any MaxSize, with or without time-out)
   in front of an in-order queue of fetch results. *)
Theorem batched_stage_in_order :
  forall kb mx delay, rs_inorder kb (batched_stage kb mx delay).
Proof. intros kb mx delay tr r H. eexists. apply (batched_inv kb mx delay tr r H). Qed.
Print Assumptions batched_stage_in_order.

(* ... hence, unconditionally, for the pipeline with that stage *)
Theorem delivery_exact_ordered_batched :
  forall kb route nops mx delay input sched s,
    let R := batched_stage kb (max 1 mx) delay in
    run R route nops mx delay (init R input) sched = Some s ->
    drained R nops s = true -> forall i, i < nops -> delivered R s i = expected kb route input i.
Proof.
  intros kb route nops mx delay input sched s R Hr Hd i Hi.
  eapply delivered_exact; eauto. apply batched_stage_in_order.
Qed.
Print Assumptions delivery_exact_ordered_batched.

(* The assumption is discharged for C20's thread-level model of the repaired batching.ReorderFetcher (adder thread,
   time-out goroutine, timer expiries, one fetch goroutine per batch completing in any order, drains; any MaxSize,
   delay and buffer size): Model/Reorder.v with rp_fixed = true, through C20's invariant. *)
Theorem reorder_stage_in_order :
  forall (kb : N -> list kev) (p : Model.Reorder.rparams),
    Model.Reorder.rp_fixed p = true -> rs_inorder kb (reorder_stage kb p).
Proof. exact adapter_inorder. Qed.
Print Assumptions reorder_stage_in_order.

(* ... hence, unconditionally, for the whole pipeline with the thread-level reorder fetcher in it *)
Theorem delivery_exact_ordered_reorder :
  forall (kb : N -> list kev) (p : Model.Reorder.rparams) route nops mx delay input sched s,
    Model.Reorder.rp_fixed p = true ->
    let R := reorder_stage kb p in
    run R route nops mx delay (init R input) sched = Some s ->
    (forall i, i < nops -> exists rest, expected kb route input i = delivered R s i ++ rest) /\
    (drained R nops s = true -> forall i, i < nops -> delivered R s i = expected kb route input i).
Proof.
  intros kb p route nops mx delay input sched s Hp R Hr.
  pose proof (adapter_inorder kb p Hp) as Hin. split.
  - intros i Hi. destruct (delivered_prefix kb R route nops mx delay Hin input sched s i Hr Hi) as (later & E). eexists. exact E.
  - intros Hd i Hi. eapply delivered_exact; eauto.
Qed.
Print Assumptions delivery_exact_ordered_reorder.

(* With MaxDelay = 0 and a source channel that is never closed, a partial last batch is never delivered: a reachable
   state in which no action is enabled and a record read has not reached its operator (finding, code 100). *)
Theorem delay0_tail_never_delivered :
  let kb := fun x : N => [([x], 0%N)] in
  let R := batched_stage kb 2 false in
  let route := fun _ : list N => 0 in
  exists s, run R route 1 2 false (init R [IRec 7%N]) [ARead R] = Some s /\
            (forall a, step R route 1 2 false s a = None) /\
            delivered R s 0 = [] /\ expected kb route [IRec 7%N] 0 = [EK 7%N ([7%N], 0%N)].
Proof.
  eexists. split; [reflexivity|]. split; [|split; reflexivity].
  intro a. destruct a as [|a| |i|i t|i|i|i]; reflexivity.
Qed.
Print Assumptions delay0_tail_never_delivered.

(* Non-vacuity: a drained state is reachable (one record, one barrier, one operator, MaxSize 1). *)
Example drained_reachable :
  let kb := fun x : N => [([x], 0%N)] in
  let R := batched_stage kb 1 false in
  let route := fun _ : list N => 0 in
  exists s, run R route 1 1 false (init R [IRec 1%N; IMark (Bar 1%N)])
              [ARead R; ARead R; AJoin R; AJoin R; AJoin R; AJoin R; ASndRecv R 0; ASndDone R 0;
               AJoin R; AJoin R; AJoin R; AJoin R; ASndRecv R 0; ASndDone R 0] = Some s /\
            drained R 1 s = true /\ delivered R s 0 = [EK 1%N ([1%N], 0%N); EM (Bar 1%N)].
Proof. eexists. split; [vm_compute; reflexivity|]. split; vm_compute; reflexivity. Qed.
