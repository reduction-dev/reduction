(* C20 - batching never loses, duplicates or reorders items. Statements, each proved in a few lines from the lemmas of Proofs/C20_*.v. *)
From Coq Require Import List NArith ZArith Bool Permutation.
From RV Require Import Model.Batcher Model.Reorder Proofs.C20_Batcher Proofs.C20_Reorder.
Import ListNotations.

(* ---- the event batcher: every history of Add / IsFull / Flush(token) / timer expiry ---- *)

(* Everything handed out by Flush, concatenated in the order handed out, followed by the batch still held, is exactly the
   sequence of items added - for every action list (size-, time-out- and explicitly triggered flushes are all BFlush actions). *)
Theorem batcher_concat : forall (T : Type) (p : bparams) (acts : list (baction T)),
  concat (flushed_of (fst (b_run p acts b_init))) ++ batch (snd (b_run p acts b_init)) = added_of acts.
Proof. intros T p acts. apply (b_run_spec p acts b_init). Qed.
Print Assumptions batcher_concat.

(* A token that is neither CurrentBatch nor the current generation flushes nothing and changes nothing. *)
Theorem stale_token_noop : forall (T : Type) (t : Z) (s : bstate T),
  t <> current_batch -> t <> token s -> b_flush t s = ([], s).
Proof. intros T t s Hc Ht. now destruct (b_flush_cases t s) as [H|([H|H] & _)]. Qed.
Print Assumptions stale_token_noop.

(* A token the timer delivers in a reachable state s1 can only ever flush the batch it was set for: whatever happens next
   (acts2), if Flush t then hands out l <> [], nothing was handed out in between and l is s1's non-empty batch plus the
   items added since. In particular: once that batch has been handed out, the token flushes nothing. *)
Theorem token_generation : forall (T : Type) (p : bparams) (acts1 acts2 : list (baction T)) (t : Z) (l : list T) (s3 : bstate T),
  let s1 := snd (b_run p acts1 b_init) in
  let r2 := b_run p acts2 s1 in
  b_fire s1 = Some t ->
  b_flush t (snd r2) = (l, s3) -> l <> [] ->
  concat (flushed_of (fst r2)) = [] /\ batch s1 <> [] /\ l = batch s1 ++ added_of acts2.
Proof.
  intros T p acts1 acts2 t l s3 s1 r2 Hfire Hflush Hl.
  destruct (binv_run p acts1 _ binv_init) as [Htok Harm]. destruct (Harm t Hfire) as [-> Hne].
  destruct (flush_after_run p acts2 s1 (token s1) l s3) as (_ & H1 & H2); [split; [exact Htok|apply Z.le_refl]|auto..].
Qed.
Print Assumptions token_generation.

(* ---- late time-out callbacks: an expiry is committed (XExpire) and its callback sends the token it captured at any later
   time (XDeliver), also after its batch was flushed and the next batch armed the timer again ---- *)

Theorem batcher_concat_late : forall (T : Type) (p : bparams) (acts : list (bxaction T)),
  let r := bx_run p acts bx_init in
  concat (flushed_of (xb_events (fst r))) ++ batch (bx_b (snd r)) = added_of (xb_actions acts).
Proof. intros T p acts. apply (bx_run_concat p acts bx_init). Qed.
Print Assumptions batcher_concat_late.

(* The token of a committed callback flushes something only if its own batch is still the current one (t = token at s1) and
   nothing has been handed out since. *)
Theorem late_timeout_generation : forall (T : Type) (p : bparams) (acts1 acts2 : list (bxaction T)) (t : Z) (l : list T) (s3 : bstate T),
  let s1 := snd (bx_run p acts1 bx_init) in
  let r2 := bx_run p acts2 s1 in
  In t (bx_committed s1) ->
  b_flush t (bx_b (snd r2)) = (l, s3) -> l <> [] ->
  t = token (bx_b s1) /\ concat (flushed_of (xb_events (fst r2))) = [].
Proof.
  intros T p acts1 acts2 t l s3 s1 r2 Hin. apply bx_flush_after_run. exact (proj2 (bxinv_run p acts1 _ bxinv_init) t Hin).
Qed.
Print Assumptions late_timeout_generation.

(* The time-out of an already flushed batch flushes nothing, however late its callback runs. *)
Theorem late_timeout_of_flushed_batch_noop : forall (T : Type) (p : bparams) (acts : list (bxaction T)) (t : Z),
  let s := snd (bx_run p acts bx_init) in
  In t (bx_committed s) -> t <> token (bx_b s) -> b_flush t (bx_b s) = ([], bx_b s).
Proof. intros T p acts t s. apply committed_stale_noop, bxinv_run, bxinv_init. Qed.
Print Assumptions late_timeout_of_flushed_batch_noop.

(* ---- the reorder fetcher (repaired code, rp_fixed = true): every script of the adder, every schedule ---- *)

(* For every list of actions (each one a step of the adder, of the time-out goroutine, a timer expiry, the completion of any
   running fetch, a drain - a disabled action does nothing), from the initial state with any adder script:
   the batches handed to fetches, in flush order, tile the items added so far (with the batch still held);
   Output is a prefix of the fetch results of those batches in that order; and once all work is carried through it is all of them. *)
Theorem reorder_in_order : forall (T R : Type) (fetch : list T -> list R) (p : rparams),
  rp_fixed p = true ->
  forall (sc : list (aop T)) (acts : list action),
  let s := run fetch p acts (r_init sc) in
  concat (flushed s) ++ batch (bt s) = added s /\
  prefix (out s) (concat (map fetch (flushed s))) /\
  (quiescent s = true -> out s = concat (map fetch (flushed s))).
Proof.
  intros T R fetch p Hp sc acts s. assert (HI : Inv fetch s) by apply (run_inv fetch p Hp), Inv_init.
  split; [apply (inv_cat _ _ _ _ HI)|]. split; [now apply inv_prefix|now apply inv_quiescent].
Qed.
Print Assumptions reorder_in_order.

(* With a fetch that answers item by item: one result per input, in input order. *)
Theorem reorder_one_result_per_input : forall (T R : Type) (f : T -> R) (p : rparams),
  rp_fixed p = true ->
  forall (sc : list (aop T)) (acts : list action),
  let s := run (map f) p acts (r_init sc) in
  prefix (out s) (map f (added s)) /\
  (quiescent s = true -> batch (bt s) = [] -> out s = map f (added s)).
Proof. intros T R f p Hp sc acts. apply inv_itemwise, (run_inv (map f) p Hp), Inv_init. Qed.
Print Assumptions reorder_one_result_per_input.

(* Fetch errors. FetchBatch returns (results, err); the outcome of fetching a batch is FOk results | FErr returned_results, and
   fetch_of = the results that came back either way: the code reports the error on ErrChan and still fills the batch's slot with
   them, so "the result" of a failed batch is what FetchBatch returned and later batches are never held up.
   For every outcome function, adder script and schedule: the output statement of reorder_in_order holds with fetch_of;
   every error reported belongs to a failed batch that was handed out; at quiescence every failed batch has reported exactly once. *)
Theorem reorder_fetch_errors : forall (T R : Type) (fetchx : list T -> outcome R) (p : rparams),
  rp_fixed p = true ->
  forall (sc : list (aop T)) (acts : list action),
  let xs := x_run fetchx p acts (x_init sc) in
  let s := rx xs in
  concat (flushed s) ++ batch (bt s) = added s /\
  prefix (out s) (concat (map (fetch_of fetchx) (flushed s))) /\
  (forall ev, In ev (x_errs fetchx xs) -> failed fetchx ev = true /\ In ev (flushed s)) /\
  (quiescent s = true ->
     out s = concat (map (fetch_of fetchx) (flushed s)) /\
     Permutation (x_errs fetchx xs) (filter (failed fetchx) (flushed s))).
Proof.
  intros T R fetchx p Hp sc acts xs s.
  assert (HI : Inv (fetch_of fetchx) s) by (unfold s, xs; rewrite x_run_rx; apply (run_inv _ p Hp), Inv_init).
  destruct (errors_spec fetchx s _ (x_run_perm fetchx p acts _ (XInv_init sc))) as [H3 H4].
  split; [apply (inv_cat _ _ _ _ HI)|]. split; [now apply inv_prefix|]. split; [exact H3|].
  intros Hq. split; [now apply inv_quiescent|now apply H4].
Qed.
Print Assumptions reorder_fetch_errors.

(* Per-call contexts. Add(ctx, x) / Flush(ctx) take the caller's context; the code never consults it for the flush decision and only
   hands it to FetchBatch. In the model the calls of the adder script carry a flag (true = already cancelled); the context layer is
   a ghost over the SAME step functions (first conjunct), and every batch taken from the batcher gets exactly one context for its
   fetch (second conjunct: none is dropped because of the caller's context). With reorder_fetch_errors: every input accepted by
   Add is part of a batch that is fetched and whose outcome - results or reported error - fills its slot, in input order. *)
Theorem context_never_drops : forall (T R : Type) (fetch : list T -> list R) (p : rparams)
                                     (sc : list (aop T * bool)) (acts : list action),
  let cs := c_run fetch p acts (c_init sc) in
  rc cs = run fetch p acts (r_init (map fst sc)) /\ length (c_log cs) = length (flushed (rc cs)).
Proof. intros T R fetch p sc acts cs. split; [apply c_run_rc|now apply c_run_log]. Qed.
Print Assumptions context_never_drops.

(* Quiescence is always reachable: in every reachable state that is not quiescent some goroutine can take a step
   (no deadlock between the flush mutex, the slots of the buffer and the buffer mutex; the consumer keeps receiving). *)
Theorem reorder_no_deadlock : forall (T R : Type) (fetch : list T -> list R) (p : rparams),
  rp_fixed p = true ->
  forall (sc : list (aop T)) (acts : list action),
  let s := run fetch p acts (r_init sc) in
  quiescent s = false -> exists a, step_opt fetch p a s <> None.
Proof. intros T R fetch p Hp sc acts. apply (no_deadlock_run fetch p Hp); [apply Inv_init|discriminate]. Qed.
Print Assumptions reorder_no_deadlock.

(* No time-out is ever dropped. The time-out goroutine WAITS for the flush mutex (its flush step is disabled while another flusher
   holds it - reorder_no_deadlock says that flusher can always go on - and is never skipped). m_mark is the number of inputs accepted
   when the timer last expired. Whenever the fetcher is at rest with no expiry pending, all those inputs have been handed out in
   batches (so by reorder_in_order their results have been emitted): a pending batch whose timer expired is flushed once the lock
   is free, without any further Add or Flush. *)
Theorem expired_batch_flushed : forall (T R : Type) (fetch : list T -> list R) (p : rparams),
  rp_fixed p = true ->
  forall (sc : list (aop T)) (acts : list action),
  let ms := m_run fetch p acts (m_init sc) in
  let s := rm ms in
  s = run fetch p acts (r_init sc) /\
  (quiescent s = true -> inflight s = 0 ->
     m_mark ms <= length (concat (flushed s)) /\
     firstn (m_mark ms) (added s) = firstn (m_mark ms) (concat (flushed s))).
Proof.
  intros T R fetch p Hp sc acts ms s. split; [apply m_run_rm|].
  destruct (m_run_inv fetch p Hp acts (m_init sc) (Inv_init _ _) (MInv_init _)) as [HI HM]. exact (MInv_rest fetch s _ HI HM).
Qed.
Print Assumptions expired_batch_flushed.

(* ---- the code before the repair (rp_fixed = false) does not have the property: D19 ---- *)

(* (i) a time-out flusher overtaken between Flush and Reserve: Output is not a prefix of the results in input order.
   Replayed on the implementation by corpus/batching/c20-d19-timeout-flusher-held.json (before commit 71bc8cf: output 2,3,1). *)
Theorem reorder_in_order_old_refuted : exists (p : rparams) (sc : list (aop N)) (acts : list action),
  rp_fixed p = false /\
  let s := run (fun l : list N => l) p acts (r_init sc) in
  ~ prefix (out s) (concat (map (fun l => l) (flushed s))).
Proof.
  exists old_params, old_script, old_swap_schedule. split; [reflexivity|].
  cbv zeta. rewrite old_swap_run. exact old_swap_not_prefix.
Qed.
Print Assumptions reorder_in_order_old_refuted.

(* (ii) the unsynchronised counter: two batches get the same number, the fetcher comes to rest with items lost. *)
Theorem reorder_no_loss_old_refuted : exists (p : rparams) (sc : list (aop N)) (acts : list action),
  rp_fixed p = false /\
  let s := run (map (fun x : N => x)) p acts (r_init sc) in
  quiescent s = true /\ batch (bt s) = [] /\ out s <> map (fun x => x) (added s).
Proof.
  exists old_params, old_script, old_dup_schedule. split; [reflexivity|].
  cbv zeta. rewrite old_dup_run. exact old_code_loses.
Qed.
Print Assumptions reorder_no_loss_old_refuted.

(* ---- non-vacuity: the hypotheses are satisfiable and quiescent states with output are reachable ---- *)
Example fixed_params : rparams := mkRP (mkBP 2 true) 4 true.
Example reorder_reaches_quiescence :
  let s := run (map (fun x : N => (x + 1000)%N)) fixed_params
               [AAdder; AAdder; ATimerFire; ATimeout; ATimeout; ATimeout; AAdder; AAdder; ATimeout; ATimeout; ATimeout;
                AAdder; AAdder; AAdder; AAdder; AAdder; AAdder; AAdder; AAdder; AComplete 1; ADrain 1; AComplete 0; ADrain 0]
               (r_init [AddOp 1%N; AddOp 2%N; AddOp 3%N]) in
  quiescent s = true /\ flushed s = [[1%N]; [2%N; 3%N]] /\ out s = [1001%N; 1002%N; 1003%N].
Proof. vm_compute. repeat split. Qed.
Example token_generation_hypotheses_satisfiable :
  let s1 := snd (b_run (mkBP 3 true) [BAdd 7%N] b_init) in
  b_fire s1 = Some 0%Z /\ fst (b_flush 0%Z (snd (b_run (mkBP 3 true) [BAdd 8%N] s1))) = [7%N; 8%N].
Proof. vm_compute. split; reflexivity. Qed.
Example late_callback_regime_reachable :
  let r := bx_run (mkBP 2 true) [XB (BAdd 1%N); XExpire; XB (BAdd 2%N); XB (BFlush (-1)%Z); XB (BAdd 3%N); XDeliver 0; XB (BFlush 0%Z)] bx_init in
  fst r = [XE EAdded; XExpired (Some 0%Z); XE EAdded; XE (EFlushed (-1)%Z [1%N; 2%N]); XE EAdded; XDelivered (Some 0%Z);
           XE (EFlushed 0%Z [])] /\ batch (bx_b (snd r)) = [3%N].
Proof. vm_compute. split; reflexivity. Qed.
Example expired_batch_flushed_nonvacuous :
  let ms := m_run (map (fun x : N => x)) fixed_params
                  [AAdder; AAdder; ATimerFire; ATimeout; ATimeout; ATimeout; ATimeout; ATimeout; ATimeout; AComplete 0; ADrain 0]
                  (m_init [AddOp 7%N]) in
  quiescent (rm ms) = true /\ inflight (rm ms) = 0%nat /\ m_mark ms = 1%nat /\ out (rm ms) = [7%N].
Proof. vm_compute. repeat split. Qed.
