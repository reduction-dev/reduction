(* C07 - DKV reads return the latest write at every moment.  Statements only; proofs in Proofs/C07_*.v, C18_*.v.
   Model: Model/Lsm.v (dkv/db.go as a state machine over the entry-level structures of Model/LsmBase.v and the
   compactor of Model/LsmCompaction.v).  Specification: a sorted association list (sm_put / sm_del / sm_get / sm_scan). *)
From Coq Require Import List NArith.
From RV Require Import Base.Bytes Model.LsmBase Model.LsmCompaction Model.Lsm
  Model.LsmReplay Proofs.C07_Spec Proofs.C18_Layout Proofs.C18_Apply Proofs.C18_Main Proofs.C07_Refine Proofs.C07_Corollaries Proofs.C07_Replay.
Import ListNotations.
Open Scope N_scope.

(* For EVERY option setting with at least two levels, a table target size >= 1 and a level-0 trigger >= 1, and EVERY
   enabled list of actions from the initial state - Put, Delete, the two halves of Get and of ScanPrefix, and the
   half-steps F1 F2 C1 C2 of the background flush and compaction tasks interleaved anywhere, also between the two
   halves of a read - every Get answers the value of the most recent Put of its key, or deleted/absent when the
   key was never written or its last write is a Delete, and every ScanPrefix answers exactly the live keys with the
   prefix, once each, ascending, with their latest values ([obs_ok] compares each observation with the plain map). *)
Theorem dkv_refines_map :
  forall cfg acts st os, cfg_ok cfg -> run cfg (init cfg) acts = Some (st, os) -> obs_ok [] None acts os.
Proof. exact dkv_refines_map_proof. Qed.
Print Assumptions dkv_refines_map.

(* The same with the implementation's scheduling decisions as DATA (Model/LsmReplay.v): whether a write rotates the memtable
   is arbitrary, and Compact may return ANY change set that is legal for the reader layout ([good_csb]: removes existing
   tables, outputs = merge of inputs, closed towards the target level, level-0 tables oldest first).  No byte size, size
   accounting or compaction policy appears.  This is the statement the correspondence check replays the implementation
   against; [dkv_refines_map] is the instance where the decisions are those of the size accounting and of Compactor.Compact. *)
Theorem dkv_replay_refines_map :
  forall n acts st os, (2 <= n)%nat -> rrun (rinit n) acts = Some (st, os) -> robs_ok [] None acts os.
Proof. exact replay_refines_proof. Qed.
Print Assumptions dkv_replay_refines_map.

(* the executable legality test of the check implies the semantic condition of the proofs *)
Theorem legal_change_set_check_sound : forall ll cs, good_csb ll cs = true -> good_cs ll cs.
Proof. exact good_csb_sound. Qed.
Print Assumptions legal_change_set_check_sound.

(* At every reachable state the layout a reader searches (level list + memtables as newest level-0 components) satisfies
   the invariant "search order is consistent with sequence numbers", its live content IS the specification map, and the
   level list alone is a valid layout in the sense of C18. *)
Theorem dkv_reachable_invariant :
  forall cfg acts st os, cfg_ok cfg -> run cfg (init cfg) acts = Some (st, os) ->
  LLInv (vll st) /\ absm st = fold_left spec_step acts [] /\ valid (lv st).
Proof. exact reachable_proof. Qed.
Print Assumptions dkv_reachable_invariant.

(* Reads of a valid layout: LevelList.Get is the entry with the greatest sequence number of the key in the whole
   layout, ScanPrefix the live ones of those with the prefix (used by C08 / C03 / C10 as the read specification). *)
Theorem levellist_get_is_newest :
  forall ll k, valid ll ->
  match ll_get k ll with
  | Some m => ents ll m /\ ekey m = k /\ forall e, ents ll e -> ekey e = k -> eseq e <= eseq m
  | None => forall e, ents ll e -> ekey e <> k
  end.
Proof. intros ll k (Hv & _ & _). exact (ll_get_is_newest ll k Hv). Qed.
Print Assumptions levellist_get_is_newest.

(* Table files: TableWriter.Write reserves its file number atomically before writing, so along every history and
   every interleaving of the flush and compaction half-steps (which share the writer) the numbers handed out are pairwise
   different.  The model itself identifies a table with its content and derives the distinctness it needs from layout
   validity; this theorem states the implementation-side assumption, which the correspondence check observes (code 19). *)
Theorem table_file_names_unique :
  forall cfg acts st ctr, NoDup (run_names cfg st ctr acts) /\ forall x, In x (run_names cfg st ctr acts) -> ctr <= x.
Proof. intros cfg acts st ctr. exact (table_names_unique_proof cfg acts st ctr). Qed.
Print Assumptions table_file_names_unique.

(* ---------- non-vacuity: the hypotheses are satisfiable by a history that exercises every kind of action ---------- *)

Definition ex_cfg : dbcfg := mkDbCfg 19 1000000 6 (mkCfg 1 200 1 30).
Definition k1 : bytes := [97]. Definition k2 : bytes := [97; 98]. Definition k3 : bytes := [98].
Definition ex_acts : list act :=
  [ APut k1 [49; 49]; APut k2 [50; 50]; AF1; APut k1 [51; 51]; ADel k2; AGet1 k2; AF2; AC1; AGet2;
    AScan1 [97]; AF1; AC2; AF2; AScan2; APut k3 [52; 52]; AF1; AF2;
    AC1; AC2; AC1; AC2; AC1; AC2; AC1; AC2; AC1; AGet1 k1; AF1; AGet2; AScan1 []; AF2; AScan2 ].

Example ex_cfg_ok : cfg_ok ex_cfg.
Proof. unfold cfg_ok, ex_cfg. cbn. repeat split; lia. Qed.

(* the history is enabled: a Get parked across a flush swap (F2) and a compaction (C1), a scan parked across F1, C2, F2,
   a delete of a flushed key, compaction cascading through all levels *)
Example ex_run_enabled :
  option_map snd (run ex_cfg (init ex_cfg) ex_acts) =
  Some [ORot true; ORot true; ONone; ORot true; ORot false; ONone; ONone; OComp true; OGet GDeleted; ONone; ONone;
        ONone; ONone; OScan [(k1, [51; 51])]; ORot true; ONone; ONone; OComp true; ONone;
        OComp true; ONone; OComp true; ONone; OComp true; ONone; OComp true; ONone; ONone; OGet (GFound [51; 51]); ONone; ONone;
        OScan [(k1, [51; 51]); (k3, [52; 52])]].
Proof. vm_compute. reflexivity. Qed.
