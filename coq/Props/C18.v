(* C18 - compaction never changes what the database contains.  Statements only; proofs in Proofs/C18_*.v.
   Model: Model/LsmCompaction.v (Compactor.Compact transcribed) over the entry-level layouts of Model/LsmBase.v. *)
From Coq Require Import List NArith.
From RV Require Import Base.Bytes Model.LsmBase Model.LsmCompaction Model.Lsm
  Model.LsmReplay Proofs.C18_Layout Proofs.C18_Main Proofs.C07_Refine Proofs.C07_Corollaries Proofs.C18_Fixpoint Proofs.C07_Replay.
Import ListNotations.
Open Scope N_scope.

(* For EVERY table-size function, EVERY compactor setting (target table size >= 1, level-0 trigger >= 1, any
   amplification percentage and level-size constants), every value of the minor-compaction cursor, EVERY valid layout
   [ll] and EVERY list [extra] of level-0 tables that arrive between Compact and the application of its change set
   (such that the layout with them is still valid, as flushes guarantee): the layout after the step is valid again
   (tables key-sorted and non-empty, levels >= 1 range-sorted and disjoint, level 0 in sequence-number order, per key
   newer data never below older), Get of every key and ScanPrefix of every prefix are unchanged, the merged view (per
   key the newest version) is unchanged - so no overwritten or deleted value reappears - and no entry is invented. *)
Theorem compact_preserves :
  forall tsize cfg mcl ll extra cs mcl',
  good_cfg cfg -> valid (add_l0 extra ll) -> compact tsize cfg mcl ll = (Some cs, mcl') ->
  let ll1 := add_l0 extra ll in
  let ll2 := apply_cs cs ll1 in
  valid ll2 /\ (forall k, ll_get k ll2 = ll_get k ll1) /\ (forall p, ll_scan p ll2 = ll_scan p ll1) /\
  view ll2 = view ll1 /\ (forall e, ents ll2 e -> ents ll1 e).
Proof. exact compact_preserves_proof. Qed.
Print Assumptions compact_preserves.

(* Independent of the compaction policy: applying ANY change set that passes the executable legality test [good_csb] to a
   valid layout gives a valid layout with the same Get / ScanPrefix results and the same merged view, and invents no entry.
   The correspondence check applies this to the change sets the implementation actually returns (code 6 = not legal), so it
   does not depend on table byte sizes, the picking policy or WriteRun's chunk sizes; [compact_preserves] shows that the
   transcribed Compactor.Compact only produces such change sets. *)
Theorem legal_change_set_preserves :
  forall ll cs, valid ll -> good_csb ll cs = true ->
  valid (apply_cs cs ll) /\ (forall k, ll_get k (apply_cs cs ll) = ll_get k ll) /\
  (forall p, ll_scan p (apply_cs cs ll) = ll_scan p ll) /\ view (apply_cs cs ll) = view ll /\
  (forall e, ents (apply_cs cs ll) e -> ents ll e).
Proof. exact legal_cs_preserves_proof. Qed.
Print Assumptions legal_change_set_preserves.

(* The same for one step of the compaction task as a whole, whether Compact returns nil, a change set, or FAILS with a
   storage read error (then nothing is installed): validity and every read are preserved.  This is the statement the
   fault-injecting correspondence check ties to the code. *)
Theorem compact_step_preserves :
  forall tsize cfg mcl ll extra failed,
  good_cfg cfg -> valid (add_l0 extra ll) ->
  let ll1 := add_l0 extra ll in
  let ll2 := fst (compact_step tsize failed cfg mcl ll extra) in
  valid ll2 /\ (forall k, ll_get k ll2 = ll_get k ll1) /\ (forall p, ll_scan p ll2 = ll_scan p ll1) /\ view ll2 = view ll1.
Proof. exact compact_step_preserves_proof. Qed.
Print Assumptions compact_step_preserves.

Theorem failed_step_unchanged :
  forall tsize cfg mcl ll extra, fst (compact_step tsize true cfg mcl ll extra) = add_l0 extra ll.
Proof. exact failed_step_unchanged_proof. Qed.
Print Assumptions failed_step_unchanged.

(* what "visible value" means on a valid layout: Get returns the version with the greatest sequence number of the whole
   layout, ScanPrefix the live ones of those, ascending *)
Theorem get_is_newest :
  forall ll k, valid ll ->
  match ll_get k ll with
  | Some m => ents ll m /\ ekey m = k /\ forall e, ents ll e -> ekey e = k -> eseq e <= eseq m
  | None => forall e, ents ll e -> ekey e <> k
  end.
Proof. intros ll k (Hv & _ & _). exact (ll_get_is_newest ll k Hv). Qed.
Print Assumptions get_is_newest.

Theorem scan_is_newest : forall ll p, valid ll -> ll_scan p ll = without_deletes (tbl_scan p (view ll)).
Proof. exact ll_scan_newest. Qed.
Print Assumptions scan_is_newest.

(* Iterating Compact and applying its change sets until it returns nil - the loop of the compaction task, with no flush
   in between - terminates on every valid layout for every setting, cursor value and size function; the final layout is
   valid and has the same content. *)
Theorem compact_fixpoint :
  forall tsize cfg mcl ll, good_cfg cfg -> valid ll ->
  exists fuel ll' mcl', compact_loop tsize fuel cfg mcl ll = Some (ll', mcl') /\ valid ll' /\ view ll' = view ll.
Proof. exact compact_fixpoint_thm. Qed.
Print Assumptions compact_fixpoint.

(* the layouts the database reaches by flushes and compactions are valid, for every history and schedule *)
Theorem reachable_layouts_valid :
  forall cfg acts st os, cfg_ok cfg -> run cfg (init cfg) acts = Some (st, os) -> valid (lv st).
Proof. exact reachable_valid_proof. Qed.
Print Assumptions reachable_layouts_valid.

(* ---------- non-vacuity: a valid layout with two level-0 tables and populated deeper levels on which Compact returns
   a change set, and level-0 tables that may arrive meanwhile ---------- *)

Definition ex_cfg : dbcfg := mkDbCfg 19 1000000 6 (mkCfg 2 200 1 30).
Definition ex_acts : list act :=
  [ APut [97] [49; 49]; AF1; AF2; APut [98] [50; 50]; AF1; AF2; AC1; AC2; AC1; AC1; ADel [97]; APut [99] [51; 51]; AF1; AF2;
    APut [98] [53; 53]; AF1; AF2 ].
Definition ex_state : option db := option_map fst (run ex_cfg (init ex_cfg) ex_acts).

Example ex_cfg_ok : cfg_ok ex_cfg /\ good_cfg (d_comp ex_cfg).
Proof. unfold cfg_ok, good_cfg, ex_cfg. cbn. repeat split; lia. Qed.

Example ex_layout_valid_and_compacts :
  exists st cs m, ex_state = Some st /\ valid (lv st) /\ length (hd [] (lv st)) = 2%nat /\
                  compact table_size (d_comp ex_cfg) (mcl st) (lv st) = (Some cs, m) /\
                  valid (add_l0 [[mkE [100] 6 false [52; 52]]] (lv st)).
Proof.
  destruct (run ex_cfg (init ex_cfg) ex_acts) as [[st os]|] eqn:E; [|vm_compute in E; discriminate].
  pose proof (reachable_valid_proof _ _ _ _ (proj1 ex_cfg_ok) E) as Hv.
  (* one more write + flush gives the extended layout; it is reachable, hence valid *)
  pose (more := ex_acts ++ [APut [100] [52; 52]; AF1; AF2]).
  destruct (run ex_cfg (init ex_cfg) more) as [[st2 os2]|] eqn:E2; [|vm_compute in E2; discriminate].
  pose proof (reachable_valid_proof _ _ _ _ (proj1 ex_cfg_ok) E2) as Hv2.
  vm_compute in E. injection E as <- _. vm_compute in E2. injection E2 as <- _.
  eexists _, _, _. split; [vm_compute; reflexivity|]. split; [exact Hv|]. split; [reflexivity|]. split; [vm_compute; reflexivity|exact Hv2].
Qed.
