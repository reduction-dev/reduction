(* C08 - a DKV checkpoint restores to exactly the state at the checkpoint call.
   Statements only; proofs in Proofs/C08_Ckpt.v (database level) and Proofs/C09_Gc.v (world level witness).

   Reading guide. [reach d]: d is a database state that can exist - a new database, any further action of any schedule
   (write incl. rotation, locked part of Checkpoint, swap of a flush that snapshotted any number of sealed memtables, apply of
   any compaction change set whose tables carry correct end sequence numbers), or a restore (any ownership filter, any sizes)
   from a checkpoint of a database that can exist. [snd (db_checkpoint d)] is what Checkpoint captures under the lock: the level
   set, the sealed WAL writer's content, After = LatestSeqNum. It is immutable data, so nothing the original database does
   afterwards changes it; that the FILES holding it stay intact while the checkpoint is retained is C09. *)
From Coq Require Import List NArith Bool.
Import ListNotations.
From RV Require Import Base.Bytes Model.Ckpt Model.Gc Proofs.C08_Ckpt Proofs.C08_Contents Proofs.C09_Gc.
Open Scope N_scope.

(* checkpoint_exact at the level of database objects: for every reachable database (every history, every schedule of
   background steps, every chain), the log reader neither panics nor hits end-of-file, the restored database answers every
   owned key exactly as the original did at the call, it is again a reachable database (chains by induction), and it accepts
   new writes normally. *)
Theorem checkpoint_exact_partial : forall d o mem wm,
  reach d ->
  exists es, wal_read (cp_wal (snd (db_checkpoint d))) (cp_after (snd (db_checkpoint d))) = ROk es /\
    let r := fst (db_restore mem wm o (cp_tables (snd (db_checkpoint d))) (cp_walid (snd (db_checkpoint d))) es) in
    reach r /\ (forall k, owns o k = true -> db_get r k = db_get d k) /\
    (forall k del v k', db_get (fst (db_write r k del v)) k' = if beqb k' k then (if del then None else Some v) else db_get r k').
Proof. exact checkpoint_exact_db. Qed.
Print Assumptions checkpoint_exact_partial.

(* every reachable database satisfies the representation invariant (contiguous log, memtables = chunks of the log above
   LatestSeqNum, table entries at or below it, segment bookkeeping) *)
Theorem reachable_invariant : forall d, reach d -> Inv d.
Proof. exact reach_inv. Qed.
Print Assumptions reachable_invariant.

(* reads of a database with the invariant: the last write of the key in the log above LatestSeqNum, else the newest table entry *)
Theorem read_characterisation : forall d a pre cs ca k, Rep d a pre cs ca -> db_get d k = view (concat cs ++ ca) (d_tables d) k.
Proof. exact db_get_char. Qed.
Print Assumptions read_characterisation.

(* a Put/Delete is visible at once and changes no other key - on originals and on restored databases alike *)
Theorem write_visible : forall d k del v k', Inv d ->
  db_get (fst (db_write d k del v)) k' = if beqb k' k then (if del then None else Some v) else db_get d k'.
Proof. exact db_write_get. Qed.
Print Assumptions write_visible.

(* the rotation decision is DATA, not a prediction: [db_write_at d k del v rot] is the write after which the implementation did
   (rot = true) or did not rotate the memtable - whatever policy (sizes, what a WAL carries over a checkpoint) decided it. A write
   is visible at once and changes no other key for EVERY decision; so contents never depend on when a rotation happens. [reach],
   [reachc] and [sreach] contain the writes with every decision ([AWriteAt], [sr_write_at]); the world model replays the observed one. *)
Theorem write_visible_at_any_rotation_point : forall d k del v rot k', Inv d ->
  db_get (db_write_at d k del v rot) k' = if beqb k' k then (if del then None else Some v) else db_get d k'.
Proof. exact db_write_at_get. Qed.
Print Assumptions write_visible_at_any_rotation_point.

Theorem rotation_point_irrelevant : forall d k del v rot rot' k', Inv d ->
  db_get (db_write_at d k del v rot) k' = db_get (db_write_at d k del v rot') k'.
Proof. exact C08_Ckpt.rotation_point_irrelevant. Qed.
Print Assumptions rotation_point_irrelevant.

(* "nothing left to replay" is never turned into an error: the skip loop never runs past the end, the gap check never fires *)
Theorem replay_never_fails : forall d, reach d ->
  exists es, wal_read (cp_wal (snd (db_checkpoint d))) (cp_after (snd (db_checkpoint d))) = ROk es.
Proof. exact C08_Ckpt.replay_never_fails. Qed.
Print Assumptions replay_never_fails.

(* the flush swap keeps the invariant whatever prefix of the sealed memtables the task had snapshotted *)
Theorem flush_swap_keeps_invariant : forall d a pre cs ca n dir next,
  Rep d a pre cs ca -> (n <= length cs)%nat ->
  exists a' pre', Rep (db_flush_swap d n (mk_tables dir next (firstn n (d_sealed d)))) a' pre' (skipn n cs) ca.
Proof. exact (fun d a pre cs ca n dir next R _ => rep_flush_swap d a pre cs ca n dir next R). Qed.
Print Assumptions flush_swap_keeps_invariant.

(* ---------- contents under every background schedule (Proofs/C08_Contents.v) ----------
   [reachc]: as [reach], but a compaction change set must be a merge of the tables it removes ([merge_ok]: every output
   entry is an input entry, and for every key an output entry at least as new as each input entry of that key - what
   kv.MergeEntries + TableWriter.WriteRun produce, [real_compactor_output_is_a_merge]). [reachc d -> reach d]. *)

(* the flush swap changes no read, whatever prefix of the sealed memtables the task had snapshotted when it began *)
Theorem flush_swap_keeps_contents : forall d a pre cs ca n dir next k,
  Rep d a pre cs ca -> (n <= length cs)%nat ->
  db_get (db_flush_swap d n (mk_tables dir next (firstn n (d_sealed d)))) k = db_get d k.
Proof. exact db_get_flush_swap. Qed.
Print Assumptions flush_swap_keeps_contents.

(* the apply of a merging compaction changes no read *)
Theorem merging_compaction_keeps_contents : forall d a pre cs ca removed added k,
  Rep d a pre cs ca -> uniq (tables_entries (d_tables d)) -> compact_ok d removed added ->
  db_get (db_compact_apply d removed added) k = db_get d k.
Proof. exact db_get_compact. Qed.
Print Assumptions merging_compaction_keeps_contents.

(* the change set of the real compactor's shape - per key of the removed tables the entry with the greatest sequence number,
   keys ascending, delete markers kept, cut into any runs, each run's end sequence number its maximum - is such a merge *)
Theorem real_compactor_output_is_a_merge : forall d removed runs,
  reachc d -> concat (map snd runs) = merge_newest (tables_entries (rem_tables d removed)) ->
  act_okc d (ACompact removed (mk_added runs)).
Proof. exact merge_act_okc. Qed.
Print Assumptions real_compactor_output_is_a_merge.

(* every background action of a database that can exist - locked part of Checkpoint, flush swap, merging compaction -
   leaves every read unchanged *)
Theorem background_actions_keep_contents : forall d a k,
  reachc d -> act_okc d a -> background a -> db_get (do_action d a) k = db_get d k.
Proof. exact background_keeps_contents. Qed.
Print Assumptions background_actions_keep_contents.

(* checkpoint_exact over CONTENTS: for every history of writes, background actions under any schedule, checkpoints and
   restores (of any checkpoint taken so far, any ownership filter, any sizes; the restored database becomes the running
   one, so chains are included): the running database answers every key it is responsible for as the abstract map does,
   and every checkpoint taken so far can be read back (no panic, no end-of-file) and its restore answers every owned key
   as the abstract map did AT THE CHECKPOINT CALL - whatever was written, flushed or compacted afterwards. *)
Theorem checkpoint_exact_contents : forall s, sreach s ->
  (forall k, s_scope s k = true -> db_get (s_db s) k = s_map s k) /\
  (forall d0 m0 sc0, In (d0, m0, sc0) (s_caps s) ->
     exists es, capture_read d0 = ROk es /\
       forall o mem wm k, sc0 k = true -> owns o k = true -> db_get (restore_of d0 o mem wm es) k = m0 k).
Proof. exact C08_Contents.checkpoint_exact_contents. Qed.
Print Assumptions checkpoint_exact_contents.

(* the object-level statement for the contents-preserving reachability (for composition: C03) *)
Theorem checkpoint_exact_reachc : forall d o mem wm,
  reachc d ->
  exists es, wal_read (cp_wal (snd (db_checkpoint d))) (cp_after (snd (db_checkpoint d))) = ROk es /\
    let r := fst (db_restore mem wm o (cp_tables (snd (db_checkpoint d))) (cp_walid (snd (db_checkpoint d))) es) in
    reachc r /\ (forall k, owns o k = true -> db_get r k = db_get d k).
Proof. exact checkpoint_exact_dbc. Qed.
Print Assumptions checkpoint_exact_reachc.

(* one failing storage read (any position, any error that is not end-of-file) during the replay of a checkpoint's WAL: the
   reader of Model/Ckpt.v ([wal_read_fault], every failed read handed to the caller as wal/reader.go does) returns an error or
   exactly what the healthy reader returns - never a shorter log *)
Theorem wal_read_fault_surfaces : forall content after skip_reads k,
  wal_read_fault content after skip_reads k = REof \/ wal_read_fault content after skip_reads k = wal_read content after.
Proof. exact C08_Contents.wal_read_fault_surfaces. Qed.
Print Assumptions wal_read_fault_surfaces.

(* hence a restore under such a fault does not return a database, or returns one that answers every owned key as the original
   did at the checkpoint call - it never succeeds with writes missing *)
Theorem restore_under_read_fault_exact : forall d o mem wm skip_reads k, reachc d ->
  restore_under_fault d o mem wm skip_reads k = None \/
  exists r, restore_under_fault d o mem wm skip_reads k = Some r /\ reachc r /\
            forall key, owns o key = true -> db_get r key = db_get d key.
Proof. exact restore_fault_exact. Qed.
Print Assumptions restore_under_read_fault_exact.

(* non-vacuity: two rotations, a flush of both memtables into two tables, a merging compaction into one, a checkpoint, a
   delete on the original afterwards, a restore: the restored database still holds the value of the checkpoint call *)
Example contents_history :
  sreach Ex.s8 /\ length (d_tables (s_db Ex.s5)) = 1%nat /\ length (d_tables (s_db Ex.s4)) = 2%nat /\
  db_get (s_db Ex.s7) Ex.ka = None /\ db_get (s_db Ex.s8) Ex.ka = Some [50] /\ s_map Ex.s8 Ex.ka = Some [50] /\
  db_get (s_db Ex.s8) Ex.kb = None.
Proof. exact Ex.history. Qed.

(* checkpoint_exact at full strength - over the world model with files, retention, crashes, same-process drops and garbage
   collection: "every completed handle that no retention update dropped can be opened and all its files exist". It is FALSE
   of the faithful model because of finding D11 (same-process drop of the creating object + collection): witness below. The
   part outside that class is what the correspondence check tests on every run (codes 10-13, 100-103). *)
Definition checkpoint_exact_full_statement : Prop := retained_files_exist_full 60 1000.

Theorem checkpoint_exact_refuted : ~ checkpoint_exact_full_statement.
Proof. exact full_statement_refuted. Qed.
Print Assumptions checkpoint_exact_refuted.

(* non-vacuity: the invariant holds of a new database and a history with rotation, flush and checkpoint is reachable *)
Example reach_example :
  reach (do_action (do_action (do_action (db_new 60 1000) (AWrite [0;0;97] false [49])) ACheckpoint) (AWrite [0;0;98] true [])).
Proof. repeat (apply reach_act; [|exact I]). apply reach_new. Qed.
