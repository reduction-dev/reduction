(* C14 - savepoints are self-contained and restore the checkpointed job state. Statements, each proved in a few lines from the lemmas of Proofs/C14_Savepoint.v. *)
From Coq Require Import List NArith.
From RV Require Import Model.Savepoint Proofs.C14_Savepoint.
Import ListNotations.
Open Scope N_scope.

(* For every file system (every DKV state: any tables / WALs / contents), every operator count and every job
   checkpoint id whose operator checkpoints are restorable when the artifact is written: the artifact holds the job
   file, every operator's checkpoints file and every file that restoring its checkpoint reads, unchanged. *)
Theorem savepoint_closed : forall fs id ops,
  NoDup (map fst ops) ->
  fs_read fs (UJobCk id) = Some (FJob id ops) ->
  (forall oc, In oc ops -> reads_ok fs oc) ->
  exists fs1, sp_create true fs id ops = Some fs1 /\
    fs_read fs1 (UJobSp id) = Some (FJob id ops) /\
    forall oc, In oc ops ->
      fs_read fs1 (USave id (fst oc) ck_name) = fs_read fs (UWork (fst oc) ck_name) /\
      forall files, dkv_reads fs (fst oc) (snd oc) = Some files ->
        forall f c, In (f, c) files -> fs_read fs1 (USave id (fst oc) f) = Some c.
Proof.
  intros fs id ops Hnd Hjob Hok. destruct (savepoint_sound fs id id ops Hjob Hok) as (fs1 & E & A & B & _).
  exists fs1. auto.
Qed.
Print Assumptions savepoint_closed.

(* ... and after ANY later change of the storage outside the savepoint directories, including deleting all of it,
   starting from the savepoint URI succeeds with the same operator checkpoints, and restoring each of them reads
   exactly the files, with the contents, of the moment the savepoint was taken.  (The DKV state, the timers - they are
   DKV entries - and the source positions - they are in the job file - are functions of these files: C08, C06.) *)
Theorem savepoint_restores : forall fs id ops,
  NoDup (map fst ops) ->
  fs_read fs (UJobCk id) = Some (FJob id ops) ->
  (forall oc, In oc ops -> reads_ok fs oc) ->
  exists fs1, sp_create true fs id ops = Some fs1 /\
    forall fs2, (forall u, is_save u = true -> fs_read fs2 u = fs_read fs1 u) ->
      exists fs3, sp_restore true (wipe fs2) id = Some (fs3, ops) /\
        forall oc, In oc ops -> dkv_reads fs3 (fst oc) (snd oc) = dkv_reads fs (fst oc) (snd oc) /\ reads_ok fs3 oc.
Proof.
  intros fs id ops Hnd Hjob Hok. destruct (savepoint_sound fs id id ops Hjob Hok) as (fs1 & E & _ & _ & R).
  exists fs1. split; [exact E|]. intros fs2 H. apply R; [|intros op f]; apply H; reflexivity.
Qed.
Print Assumptions savepoint_restores.

(* A request during a pending checkpoint returns its id, starts nothing, and leaves every other behaviour of the store
   unchanged (same results and same state, up to the savepoint mark, for every later sequence of acknowledgements). *)
Theorem savepoint_folds : forall s ops p,
  st_pending s = Some p -> p_sp p = false ->
  let '(s', r) := create_savepoint s ops in
  r = RId (p_id p) false /\ st_counter s' = st_counter s /\
  st_pending s' = Some (mkP (p_id p) true (p_missing p) (p_acks p)) /\
  erase s' = erase s /\
  forall acks, erase (fst (run_acks s' acks)) = erase (fst (run_acks s acks)) /\ snd (run_acks s' acks) = snd (run_acks s acks).
Proof.
  intros [c pend d] ops p Hp Hsp. cbn [st_pending] in Hp. subst pend. unfold create_savepoint. cbn [st_pending]. rewrite Hsp.
  do 4 (split; [reflexivity|]).
  (* both stores are the same once the marks are erased *)
  intros acks. destruct (run_acks_erase acks (mkSt c (Some p) d)) as [-> ->].
  apply (run_acks_erase acks (mkSt c (Some (mkP (p_id p) true (p_missing p) (p_acks p))) d)).
Qed.
Print Assumptions savepoint_folds.

(* If, when the artifact is written, a file that the savepoint's checkpoint of some operator references is gone (its
   copy fails with "not found"), NO savepoint is produced - the job file never appears under its savepoint name - for
   every file system, operator list and position of the failing copy: an incomplete savepoint is never published. *)
Theorem savepoint_not_published_when_incomplete : forall ops fs id op cid l e f,
  In (op, cid) ops ->
  fs_read fs (UWork op ck_name) = Some (FCkList l) -> find (fun e => fst e =? cid) l = Some e -> In f (snd e) ->
  fs_read fs (UWork op f) = None ->
  sp_create true fs id ops = None.
Proof.
  intros ops fs id op cid l e f Hin Hck Hfind Hf Hmiss. unfold sp_create.
  rewrite create_is_xfer, (xfer_missing UWork (USave id) (USave_inj id) (work_not_save id) ops fs op cid (snd e ++ [ck_name]) f Hin);
    [reflexivity| |apply in_or_app; left; exact Hf|exact Hmiss].
  unfold refs, list_files. rewrite Hck, Hfind. reflexivity.
Qed.
Print Assumptions savepoint_not_published_when_incomplete.

(* At the job (jobs/job.go HandleCreateSavepoint): a request that folds broadcasts NO StartCheckpoint to the source
   runners and moves no counter; a request with nothing pending broadcasts exactly one, for the new id - so every
   checkpoint id gets exactly one StartCheckpoint round (the tick's, or the savepoint's). *)
Theorem savepoint_starts_nothing_when_folding : forall s ops,
  match st_pending s with
  | Some p => p_sp p = false ->
      exists s', job_create_savepoint s ops = (s', RId (p_id p) false, []) /\ st_counter s' = st_counter s
  | None =>
      exists s', job_create_savepoint s ops = (s', RId (st_counter s + 1) true, [st_counter s + 1])
  end.
Proof.
  intros [c [p|] d] ops; unfold job_create_savepoint, create_savepoint; cbn [st_pending st_counter st_done].
  - intros Hsp. rewrite Hsp. eexists. split; reflexivity.
  - eexists. reflexivity.
Qed.
Print Assumptions savepoint_starts_nothing_when_folding.

(* non-vacuity: the hypotheses hold of a two-checkpoint operator file, and the conclusion is computed *)
Example savepoint_instance : reads_ok d25_fs (0, 5) /\
  exists fs1, sp_create true d25_fs 5 [(0, 5)] = Some fs1 /\
    match sp_restore true (wipe fs1) 5 with Some (fs3, _) => dkv_reads fs3 0 5 = dkv_reads d25_fs 0 5 | None => False end.
Proof. split; [vm_compute; discriminate|]. eexists. split; vm_compute; reflexivity. Qed.

(* history: with ListFiles = "the last entry" (before 406214a, D25) the statement failed *)
Lemma savepoint_closed_failed_before_fix :
  reads_ok d25_fs (0, 5) /\
  exists fs1, sp_create false d25_fs 5 [(0, 5)] = Some fs1 /\
    fs_read fs1 (USave 5 0 [1]) = None /\
    match sp_restore false (wipe fs1) 5 with Some (fs3, _) => dkv_reads fs3 0 5 = None | None => True end.
Proof. split; [vm_compute; discriminate|]. eexists. split; [vm_compute; reflexivity|]. split; vm_compute; reflexivity. Qed.
