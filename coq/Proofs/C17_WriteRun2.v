(* WriteRun: what one pass of the outer loop does, as an induction principle over the entries pulled by the two inner
   loops; from it, the chunks partition the input, (repaired code) none of them is empty, and their sizes obey the
   target / 1.5 x target rule. Every cutting of a strictly key-sorted run into non-empty chunks has sorted chunks with
   ascending, disjoint key ranges. *)
From RV Require Import Base.Lists Model.WriteRun Proofs.C17_Codec.
From Coq Require Import ZifyN ZifyNat ZifyBool.
Open Scope N_scope.

Lemma run_size_app a b : run_size (a ++ b) = run_size a + run_size b.
Proof. apply (fold_sum_app flush_size). Qed.

Lemma run_size_cons e a : run_size (e :: a) = flush_size e + run_size a.
Proof. reflexivity. Qed.

Lemma run_size_nonempty b : 0 < run_size b -> b <> [].
Proof. intros H ->. discriminate H. Qed.

Lemma fill_spec limit : forall rest buf b' sz' rest' ended,
  fill limit buf (run_size buf) rest = (b', sz', rest', ended) ->
  exists added, b' = buf ++ added /\ rest = added ++ rest' /\ sz' = run_size b' /\
                (if ended then rest' = [] /\ run_size b' < limit else limit <= run_size b') /\
                (added <> [] -> run_size (buf ++ removelast added) < limit).
Proof.
  induction rest as [|e r IH]; intros buf b' sz' rest' ended H; cbn [fill] in H;
    [|destruct (run_size buf <? limit) eqn:E].
  - injection H as <- <- <- <-. exists []. rewrite app_nil_r. repeat split; [|congruence].
    destruct (run_size buf <? limit) eqn:E; [split; [reflexivity|]|]; lia.
  - replace (run_size buf + flush_size e) with (run_size (buf ++ [e])) in H by (rewrite run_size_app; cbn; lia).
    apply IH in H as (added & -> & -> & -> & He & Hl). exists (e :: added). rewrite <- !app_assoc in *. cbn [app] in *.
    repeat split; [exact He|]. intros _.
    destruct added as [|a added']; [cbn [removelast]; rewrite app_nil_r; lia|apply Hl; discriminate].
  - injection H as <- <- <- <-. exists []. rewrite app_nil_r. repeat split; [lia|congruence].
Qed.

(* The outer loop, told by the entries [a1] the first inner loop pulls (up to the target) and the entries [a2] the
   look-ahead loop pulls (up to mx): a property of (written, buffer, stream, tables) holds of every run of the loop
   if it holds in the four ways a pass can go. *)
Section Loop.
  Variables (fx : bool) (target mx : N).
  Hypothesis Ht : 1 <= target.
  Variable P : bool -> list entry -> list entry -> list (list entry) -> Prop.
  (* nothing buffered, the stream at its end, and a table was written before: no further table *)
  Hypothesis P_none : forall w, fx && w = true -> P w [] [] [].
  (* the stream ends in the first inner loop *)
  Hypothesis P_last : forall w buf a1,
    run_size (buf ++ a1) < target -> buf ++ a1 <> [] \/ fx && w = false -> P w buf a1 [buf ++ a1].
  (* the stream ends in the look-ahead loop *)
  Hypothesis P_ahead : forall w buf a1 a2,
    target <= run_size (buf ++ a1) -> run_size ((buf ++ a1) ++ a2) < mx -> P w buf (a1 ++ a2) [(buf ++ a1) ++ a2].
  (* a table is cut and the look-ahead entries are carried over *)
  Hypothesis P_cut : forall w buf a1 a2 rest res,
    target <= run_size (buf ++ a1) -> (a1 <> [] -> run_size (buf ++ removelast a1) < target) ->
    (a2 <> [] -> run_size ((buf ++ a1) ++ removelast a2) < mx) ->
    P true a2 rest res -> P w buf (a1 ++ a2 ++ rest) ((buf ++ a1) :: res).

  Lemma write_run_loop_ind : forall fuel w buf rest,
    (length buf + length rest < fuel)%nat -> P w buf rest (write_run_loop fx fuel target mx w buf (run_size buf) rest).
  Proof.
    induction fuel as [|f IH]; intros w buf rest Hfuel; [lia|]. cbn [write_run_loop].
    destruct (fill target buf (run_size buf) rest) as [[[b1 sz1] rest1] ended1] eqn:F1.
    apply fill_spec in F1. destruct F1 as (a1 & -> & -> & -> & He1 & Hl1). destruct ended1.
    - destruct He1 as [-> Hlt]. rewrite app_nil_r.
      destruct (buf ++ a1) as [|e0 l0] eqn:Eb.
      + apply app_eq_nil in Eb as [-> ->]. destruct (fx && w) eqn:Ew; [apply P_none, Ew|]. apply (P_last w [] []); auto.
      + rewrite <- Eb in *. apply P_last; [exact Hlt|]. left. rewrite Eb. discriminate.
    - destruct (fill mx (buf ++ a1) (run_size (buf ++ a1)) rest1) as [[[b2 sz2] rest2] ended2] eqn:F2.
      apply fill_spec in F2. destruct F2 as (a2 & -> & -> & -> & He2 & Hl2). destruct ended2.
      + destruct He2 as [-> Hlt]. rewrite app_nil_r. apply P_ahead; assumption.
      + rewrite firstn_app, firstn_all, Nat.sub_diag, skipn_app, skipn_all, Nat.sub_diag. cbn [firstn skipn app].
        rewrite app_nil_r, run_size_app.
        replace (run_size (buf ++ a1) + run_size a2 - run_size (buf ++ a1)) with (run_size a2) by lia.
        apply P_cut; [exact He1|exact Hl1|exact Hl2|]. apply IH.
        (* the cut table is not empty, so the carried buffer and the stream together got shorter *)
        assert (0 < length (buf ++ a1))%nat by (destruct (buf ++ a1); [cbn in He1; lia|cbn [length]; lia]).
        rewrite !app_length in *. lia.
  Qed.
  Lemma write_run_ind es : mx = max_buffer target -> P false [] es (write_run_gen fx es target).
  Proof. intros E. unfold write_run_gen. rewrite <- E. apply write_run_loop_ind. cbn [length]. lia. Qed.
End Loop.

Theorem write_run_concat es target : 1 <= target -> concat (write_run es target) = es.
Proof.
  intros Ht.
  apply (write_run_ind true target (max_buffer target) Ht (fun _ buf rest res => concat res = buf ++ rest));
    [| | | |reflexivity]; cbn [concat].
  - (* no table *) reflexivity.
  - (* last table, first loop *) intros w buf a1 _ _. apply app_nil_r.
  - (* last table, look-ahead *) intros w buf a1 a2 _ _. rewrite app_nil_r. apply eq_sym, app_assoc.
  - (* cut *) intros w buf a1 a2 rest res _ _ _ IH. rewrite IH. apply eq_sym, app_assoc.
Qed.

Theorem write_run_nonempty : forall es target, 1 <= target -> es <> [] ->
  Forall (fun c => c <> []) (write_run es target).
Proof.
  intros es target Ht Hne.
  (* the loop is entered with an empty buffer, nothing written, and a stream that is not empty *)
  apply (write_run_ind true target (max_buffer target) Ht
           (fun w buf rest res => buf <> [] \/ rest <> [] \/ w = true -> Forall (fun c => c <> []) res));
    [| | | |reflexivity|right; left; exact Hne].
  - (* no table *) constructor.
  - (* last table, first loop *) intros w buf a1 _ [Hb|Hw] Hinv; repeat constructor; [exact Hb|]. cbn [andb] in Hw. intros E.
    apply app_eq_nil in E as [-> ->]. destruct Hinv as [H|[H|H]]; congruence.
  - (* last table, look-ahead *) intros w buf a1 a2 Hge _ _. repeat constructor. apply run_size_nonempty. rewrite run_size_app. lia.
  - (* cut *) intros w buf a1 a2 rest res Hge _ _ IH _. constructor; [apply run_size_nonempty; lia|]. apply IH. auto.
Qed.

Lemma write_run_not_nil : forall es target, 1 <= target -> write_run es target <> [].
Proof.
  intros es target Ht.
  (* only a pass that follows a written table may add none *)
  apply (write_run_ind true target (max_buffer target) Ht (fun w _ _ res => w = false -> res <> []));
    [| | | |reflexivity|reflexivity].
  - (* no table: only when one was written before *) intros w Hw ->. discriminate Hw.
  - (* last table, first loop *) discriminate.
  - (* last table, look-ahead *) discriminate.
  - (* cut *) discriminate.
Qed.

Lemma last_key_snoc a e : last_key (a ++ [e]) = e_key e.
Proof. unfold last_key. rewrite rev_app_distr. reflexivity. Qed.

(* the last key of each chunk is below the first key of the next *)
Fixpoint ranges_ascending (chunks : list (list entry)) : Prop :=
  match chunks with
  | [] => True
  | c :: r => match r with
              | [] => True
              | c' :: _ => bltb (last_key c) (first_key c') = true /\ ranges_ascending r
              end
  end.

Lemma chunks_ranges : forall chunks,
  Forall (fun c => c <> []) chunks -> keys_sorted (concat chunks) = true ->
  ranges_ascending chunks /\ Forall (fun c => keys_sorted c = true) chunks.
Proof.
  induction 1 as [|c r Hc Hr IH]; intros Hs; [split; constructor|].
  cbn [concat] in Hs. apply keys_sorted_app in Hs as (Hsc & Hsr & Hcr). destruct (IH Hsr) as [IHa IHs].
  split; [|constructor; assumption]. destruct Hr as [|[|y c'] r' Hc' _]; [exact I|congruence|].
  split; [|exact IHa]. destruct (exists_last Hc) as (c0 & x & ->). rewrite last_key_snoc.
  apply Hcr; [apply in_or_app; right|]; left; reflexivity.
Qed.

Lemma chunks_globally_ordered pre c mid c' post :
  keys_sorted (concat (pre ++ c :: mid ++ c' :: post)) = true ->
  forall x y, In x c -> In y c' -> bltb (e_key x) (e_key y) = true.
Proof.
  rewrite concat_app. cbn [concat]. rewrite concat_app. cbn [concat]. intros Hs x y Hx Hy.
  apply keys_sorted_app in Hs as (_ & Hs & _). apply keys_sorted_app in Hs as (_ & _ & Hlt).
  apply (Hlt x y Hx). apply in_or_app. right. apply in_or_app. left. exact Hy.
Qed.

(* [regular_chunk]: the table reaches the target with its last entry.  [size_rule]: every table but the last is
   regular; the last is below 1.5 x target or regular. *)
Definition regular_chunk (target : N) (c : list entry) : Prop :=
  target <= run_size c /\ run_size (removelast c) < target.

Fixpoint size_rule (target : N) (chunks : list (list entry)) : Prop :=
  match chunks with
  | [] => True
  | [c] => run_size c < max_buffer target \/ regular_chunk target c
  | c :: r => regular_chunk target c /\ size_rule target r
  end.

Lemma size_rule_cons target c r : regular_chunk target c -> size_rule target r -> size_rule target (c :: r).
Proof. intros Hc Hr. destruct r; [right; exact Hc|split; assumption]. Qed.

(* invariant of the loop: the carried buffer minus its last entry is below the target, because the look-ahead stops
   at 1.5 x target <= 2 x target and the table cut before it holds at least the target *)
Theorem write_run_size_rule : forall es target, 1 <= target -> size_rule target (write_run es target).
Proof.
  intros es target Ht. assert (Hmx : target <= max_buffer target <= target + target).
  { unfold max_buffer. zify. Z.div_mod_to_equations. lia. }
  refine (write_run_ind true target _ Ht
            (fun _ buf _ res => buf = [] \/ run_size (removelast buf) < target -> size_rule target res)
            _ _ _ _ es eq_refl (or_introl eq_refl)).
  - (* no table *) intros. exact I.
  - (* last table, first loop *) intros w buf a1 Hlt _ _. left. lia.
  - (* last table, look-ahead *) intros w buf a1 a2 _ Hlt _. left. exact Hlt.
  - (* cut *) intros w buf a1 a2 rest res Hge Hl1 Hl2 IH Hinv. apply size_rule_cons.
    + split; [exact Hge|]. destruct a1 as [|e1 a1']; [|rewrite removelast_app by discriminate; apply Hl1; discriminate].
      rewrite app_nil_r in *. destruct Hinv as [->|Hi]; [cbn in Hge; lia|exact Hi].
    + apply IH. destruct a2 as [|e2 a2']; [left; reflexivity|right].
      specialize (Hl2 ltac:(discriminate)). rewrite run_size_app in Hl2. lia.
Qed.
