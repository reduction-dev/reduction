(* SortedCache: byteSize equals the sum of the lengths of the contents after every operation sequence (repaired Push);
   the contents stay a strictly sorted set; Pop / PopLast return the minimum / maximum.  The Push before the repair
   double-counts (cstep_old; the witness is with the statement in Props/C19.v). *)
From Coq Require Import Sorted.
From RV Require Import Base.Lists Base.KeySorted Model.SortedCache.
Open Scope N_scope.

(* the contents as the specification of google/btree gives them: ascending in bytes.Compare, no two equal *)
Definition blt (a b : bytes) : Prop := bcmp a b = Lt.
Definition sorted_set (l : list bytes) : Prop := StronglySorted blt l.

Lemma sum_len_cons x l : sum_len (x :: l) = blen x + sum_len l.
Proof. reflexivity. Qed.
Lemma sum_len_nil : sum_len [] = 0.
Proof. reflexivity. Qed.
(* the sum is used through the three equations only; folded, it stays an atom for lia *)
Local Opaque sum_len.
Lemma roi_sum v l :
  sum_len (fst (roi v l)) + match snd (roi v l) with Some old => blen old | None => 0 end = sum_len l + blen v.
Proof.
  induction l as [|x l IH]; cbn [roi fst snd]; [rewrite !sum_len_cons, !sum_len_nil; lia|].
  destruct (bcmp v x); [| |destruct (roi v l) as [r o]]; cbn [fst snd] in *; rewrite !sum_len_cons; lia.
Qed.

Lemma sdel_sum k l :
  sum_len (fst (sdel k l)) + match snd (sdel k l) with Some d => blen d | None => 0 end = sum_len l.
Proof.
  induction l as [|x l IH]; cbn [sdel fst snd]; [rewrite !sum_len_nil; reflexivity|].
  destruct (bcmp k x); [| |destruct (sdel k l) as [r o]]; cbn [fst snd] in *; rewrite !sum_len_cons; lia.
Qed.

Lemma sum_len_app a b : sum_len (a ++ b) = sum_len a + sum_len b.
Proof. exact (fold_sum_app blen a b). Qed.

Lemma roi_kput v l : fst (roi v l) = kput (fun x => x) v l.
Proof.
  induction l as [|y l IH]; cbn [roi kput]; [reflexivity|].
  destruct (bcmp v y); [| |destruct (roi v l)]; cbn [fst] in *; rewrite <- ?IH; reflexivity.
Qed.

Lemma roi_in v l x : In x (fst (roi v l)) <-> x = v \/ In x l.
Proof.
  induction l as [|y l IH]; cbn [roi]; [cbn; intuition congruence|].
  destruct (bcmp_spec v y) as [->|E|E]; [| |destruct (roi v l)]; cbn [fst In] in *; intuition congruence.
Qed.

Lemma sdel_kdel k l : fst (sdel k l) = kdel (fun x => x) k l.
Proof.
  induction l as [|y l IH]; cbn [sdel kdel]; [reflexivity|].
  destruct (bcmp k y); [| |destruct (sdel k l)]; cbn [fst] in *; rewrite <- ?IH; reflexivity.
Qed.

Lemma sdel_none k l : snd (sdel k l) = None -> fst (sdel k l) = l.
Proof.
  induction l as [|y l IH]; cbn [sdel]; [reflexivity|].
  destruct (bcmp k y); [discriminate|reflexivity|]. destruct (sdel k l). cbn [fst snd] in *. intros H. rewrite (IH H). reflexivity.
Qed.

Lemma rev_eq_cons {A} (r : list A) x l : rev r = x :: l -> r = rev l ++ [x].
Proof. intros H. rewrite <- (rev_involutive r), H. reflexivity. Qed.

Lemma sorted_set_snoc l x : sorted_set (l ++ [x]) -> sorted_set l /\ Forall (fun y => blt y x) l.
Proof.
  intros (H1 & _ & H2)%StronglySorted_app. split; [exact H1|].
  eapply Forall_impl; [|exact H2]. intros a Ha. exact (Forall_inv Ha).
Qed.

Lemma push_items v c : items (cache_push v c) = fst (roi v (items c)).
Proof. unfold cache_push. destruct (roi v (items c)). reflexivity. Qed.

Lemma delete_items k c : items (cache_delete k c) = fst (sdel k (items c)).
Proof.
  unfold cache_delete. pose proof (sdel_none k (items c)) as H.
  destruct (sdel k (items c)) as [l [d|]]; [reflexivity | symmetry; apply H; reflexivity].
Qed.

(* a history of the cache: one operation per exported method that changes it *)
Inductive cop := OPush (v : bytes) | OPop | OPopLast | ODelete (k : bytes).
Definition cstep (c : cache) (o : cop) : cache :=
  match o with
  | OPush v => cache_push v c
  | OPop => snd (cache_pop c)
  | OPopLast => snd (cache_pop_last c)
  | ODelete k => cache_delete k c
  end.

Lemma cstep_size c o : byte_size c = sum_len (items c) -> byte_size (cstep c o) = sum_len (items (cstep c o)).
Proof.
  intros H. destruct o as [v| | |k]; cbn [cstep].
  - unfold cache_push. pose proof (roi_sum v (items c)) as Hs.
    destruct (roi v (items c)) as [l [old|]]; cbn [fst snd items byte_size] in *; lia.
  - unfold cache_pop. destruct (items c) as [|x l] eqn:E; cbn [snd items byte_size]; [congruence|].
    rewrite H, sum_len_cons. lia.
  - unfold cache_pop_last. destruct (rev (items c)) as [|x l] eqn:E; cbn [snd items byte_size]; [exact H|].
    rewrite H, (rev_eq_cons _ _ _ E), sum_len_app, sum_len_cons, sum_len_nil. lia.
  - unfold cache_delete. pose proof (sdel_sum k (items c)) as Hs.
    destruct (sdel k (items c)) as [l [d|]]; cbn [fst snd items byte_size] in *; [lia|exact H].
Qed.

Lemma cstep_sorted c o : sorted_set (items c) -> sorted_set (items (cstep c o)).
Proof.
  intros Hso. destruct o as [v| | |k]; cbn [cstep].
  - rewrite push_items, roi_kput. apply (kput_ssorted (fun x => x)), Hso.
  - unfold cache_pop. destruct (items c) as [|x l] eqn:E; cbn [snd items]; [rewrite E; constructor|]. inversion Hso; assumption.
  - unfold cache_pop_last. destruct (rev (items c)) as [|x l] eqn:E; cbn [snd items]; [exact Hso|].
    rewrite (rev_eq_cons _ _ _ E) in Hso. apply (sorted_set_snoc _ _ Hso).
  - rewrite delete_items, sdel_kdel. apply (kdel_ssorted (fun x => x)), Hso.
Qed.

Lemma cstep_max_size c o : max_size (cstep c o) = max_size c.
Proof.
  destruct o as [v| | |k]; cbn [cstep].
  - unfold cache_push. destruct (roi v (items c)). reflexivity.
  - unfold cache_pop. destruct (items c); reflexivity.
  - unfold cache_pop_last. destruct (rev (items c)); reflexivity.
  - unfold cache_delete. destruct (sdel k (items c)) as [l [d|]]; reflexivity.
Qed.

Theorem cache_history : forall mx ops,
  let c := fold_left cstep ops (cache_new mx) in
  byte_size c = sum_len (items c) /\ sorted_set (items c) /\ max_size c = mx.
Proof.
  intros mx ops.
  apply (fold_left_inv cstep (fun c => byte_size c = sum_len (items c) /\ sorted_set (items c) /\ max_size c = mx));
    [|repeat split; constructor].
  intros c o (Hsz & Hso & <-). auto using cstep_size, cstep_sorted, cstep_max_size.
Qed.

Theorem cache_pop_min c x c' : sorted_set (items c) -> cache_pop c = (Some x, c') ->
  items c = x :: items c' /\ forall y, In y (items c') -> blt x y.
Proof.
  unfold cache_pop. intros Hs H. destruct (items c) as [|z l] eqn:E; [discriminate|]. injection H as <- <-. cbn [items].
  split; [reflexivity|]. apply Forall_forall. inversion Hs; assumption.
Qed.

Theorem cache_pop_last_max c x c' : sorted_set (items c) -> cache_pop_last c = (Some x, c') ->
  items c = items c' ++ [x] /\ forall y, In y (items c') -> blt y x.
Proof.
  unfold cache_pop_last. intros Hs H. destruct (rev (items c)) as [|z l] eqn:E; [discriminate|]. injection H as <- <-. cbn [items].
  apply rev_eq_cons in E. split; [exact E|]. rewrite E in Hs. apply Forall_forall, (sorted_set_snoc _ _ Hs).
Qed.

Theorem cache_pop_none c c' : cache_pop c = (None, c') -> items c = [] /\ c' = c.
Proof. unfold cache_pop. destruct (items c); intros H; [injection H as <-; auto|discriminate]. Qed.

Theorem cache_push_contents v c x : In x (items (cache_push v c)) <-> x = v \/ In x (items c).
Proof. rewrite push_items. apply roi_in. Qed.

Theorem cache_delete_removes k c : sorted_set (items c) -> ~ In k (items (cache_delete k c)).
Proof.
  intros Hs%(ssorted_asc (fun x => x)). rewrite delete_items, sdel_kdel. intros [_ H]%(In_kdel (fun x => x) _ _ _ Hs). now apply H.
Qed.

(* the Push before the repair *)
Definition cstep_old (c : cache) (o : cop) : cache :=
  match o with OPush v => cache_push_old v c | _ => cstep c o end.
