(* C09, world level (Model/Gc.v): what a garbage collection may delete, what a saved retention update removes, and the
   witness history of finding D11. *)
From Coq Require Import List NArith Bool Lia Permutation.
Import ListNotations.
From RV Require Import Base.Lists Base.Bytes Model.Ckpt Model.Gc.
Open Scope N_scope.

Lemma fname_eqb_refl n : fname_eqb n n = true.
Proof. destruct n as [[a b] c]. unfold fname_eqb. rewrite !N.eqb_refl. reflexivity. Qed.
Lemma fname_eqb_eq a b : fname_eqb a b = true <-> a = b.
Proof.
  destruct a as [[a1 a2] a3], b as [[b1 b2] b3]. unfold fname_eqb. rewrite !andb_true_iff, !N.eqb_eq.
  split; [intros [[-> ->] ->]; reflexivity|intro H; inversion H; auto].
Qed.
Lemma mem_name_in x l : mem_name x l = true <-> In x l.
Proof. apply (existsb_eqb_In fname_eqb fname_eqb_eq). Qed.

Lemma fs_get_del f n m : fs_get (fs_del f n) m = if fname_eqb m n then None else fs_get f m.
Proof.
  unfold fs_del. induction f as [|[x c] f IH]; cbn [filter fst]; [destruct (fname_eqb m n); reflexivity|].
  destruct (fname_eqb n x) eqn:E; cbn [negb fs_get]; rewrite IH.
  - apply fname_eqb_eq in E. subst x. destruct (fname_eqb m n); reflexivity.
  - destruct (fname_eqb m x) eqn:Ex, (fname_eqb m n) eqn:En; try reflexivity.
    apply fname_eqb_eq in Ex, En. subst. rewrite fname_eqb_refl in E. discriminate.
Qed.
Lemma fs_get_put f n c m : fs_get (fs_put f n c) m = if fname_eqb m n then Some c else fs_get f m.
Proof. unfold fs_put. cbn [fs_get]. rewrite fs_get_del. destruct (fname_eqb m n); reflexivity. Qed.
Lemma fs_get_dels names : forall f m, fs_get (fold_left fs_del names f) m = if mem_name m names then None else fs_get f m.
Proof.
  induction names as [|n names IH]; intros f m; [reflexivity|]. cbn [fold_left]. rewrite IH, fs_get_del.
  change (mem_name m (n :: names)) with (fname_eqb m n || mem_name m names). destruct (fname_eqb m n), (mem_name m names); reflexivity.
Qed.
Lemma fs_has_put f n c m : fs_has (fs_put f n c) m = fname_eqb m n || fs_has f m.
Proof. unfold fs_has. rewrite fs_get_put. destruct (fname_eqb m n); reflexivity. Qed.
Lemma fs_has_dels names f m : fs_has (fold_left fs_del names f) m = negb (mem_name m names) && fs_has f m.
Proof. unfold fs_has. rewrite fs_get_dels. destruct (mem_name m names); reflexivity. Qed.

(* Every neighbour mode of Model/Gc.v is a list of answers: the single-neighbour modes are the one-answer lists. The cleanup of
   a table opened from a document by an object with a key-group range deletes exactly when every answer is a clean "not needed":
   an error and a truthful "needed" keep the file (repairs D10, D31). *)
Definition nb_answers (m : nbmode) : list nbans :=
  match m with
  | NbNone => [] | NbNeeds => [AClaim] | NbErr => [AErr] | NbLive => [ALive] | NbOp => [AOp] | NbSeq l => l
  end.

Lemma cleanup_deletes_answers w x o :
  cleanup_deletes w x o =
  negb (o_fromdoc o) || match x_own x with OwnAll => true | OwnRange _ _ => forallb (ans_clean w (o_name o)) (nb_answers (x_nb x)) end.
Proof.
  unfold cleanup_deletes. destruct (o_fromdoc o); [|reflexivity]. destruct (x_own x); [reflexivity|].
  destruct (x_nb x); cbn; rewrite ?andb_true_r; reflexivity.
Qed.

Theorem unclean_answer_keeps w x o lo hi a :
  o_fromdoc o = true -> x_own x = OwnRange lo hi -> In a (nb_answers (x_nb x)) -> ans_clean w (o_name o) a = false ->
  cleanup_deletes w x o = false.
Proof.
  intros F O Ha U. rewrite cleanup_deletes_answers, F, O. cbn [negb orb].
  destruct (forallb _ _) eqn:E; [|reflexivity]. rewrite forallb_forall in E. rewrite (E a Ha) in U. discriminate.
Qed.

(* the files a collection deletes on behalf of object [x]: of its table objects that it cannot reach, those whose cleanup
   says delete *)
Definition gc_one (w : world) (x : wdb) : list fname :=
  map o_name (filter (cleanup_deletes w x) (filter (fun o => negb (mem_name (o_name o) (reachable_names x))) (x_objs x))).

(* [gc_db] of Model/Gc.v in two parts, the files that go and the object that stays (a crashed process runs no cleanup);
   [gc_fold] says that a collection is the two mapped over the objects *)
Definition gc_names (w : world) (x : wdb) : list fname := match x_state x with Crashed => [] | _ => gc_one w x end.
Definition gc_obj (x : wdb) : wdb :=
  match x_state x with
  | Crashed => x
  | _ => with_objs x (x_next x) (filter (fun o => mem_name (o_name o) (reachable_names x)) (x_objs x))
  end.

Lemma gc_fold w l : forall f done dels,
  fst (fold_left (gc_db w) l (f, done, dels)) = (fold_left fs_del (flat_map (gc_names w) l) f, done ++ map gc_obj l).
Proof.
  induction l as [|x l IH]; intros f done dels; cbn [fold_left flat_map map]; [rewrite app_nil_r; reflexivity|].
  assert (exists dels', gc_db w (f, done, dels) x = (fold_left fs_del (gc_names w x) f, done ++ [gc_obj x], dels')) as [dels' ->]
    by (unfold gc_db, gc_names, gc_obj, gc_one; destruct (x_state x); eexists; reflexivity).
  rewrite IH, fold_left_app, <- app_assoc. reflexivity.
Qed.

Theorem gc_spares_own_reachable w x n : In n (gc_one w x) -> ~ In n (reachable_names x).
Proof.
  unfold gc_one. intros H R. apply in_map_iff in H. destruct H as [o [<- Ho]].
  apply filter_In in Ho. destruct Ho as [Ho _]. apply filter_In in Ho. destruct Ho as [_ Ho].
  apply negb_true_iff in Ho. apply mem_name_in in R. congruence.
Qed.

Lemma fold_del_map (l : list ckrec) f : fold_left (fun f c => fs_del f (c_wal c)) l f = fold_left fs_del (map c_wal l) f.
Proof. revert f. induction l as [|y l IH]; intro f; [reflexivity|]. cbn [fold_left map]. apply IH. Qed.

Theorem save_ok_removes_pending_wals w x f c n :
  snd (save_list_f w x f) = true -> In c (x_pending x) -> In n (c_allw c) ->
  fs_has (g_fs (fst (fst (save_list_f w x f)))) n = false.
Proof.
  unfold save_list_f. destruct (f =? 1); [discriminate|].
  destruct ((f =? 2) && negb (match x_pending x with [] => true | _ => false end)); [discriminate|].
  intros _ Hc Hn. unfold save_destroy. cbn [fst snd set_fs g_fs]. rewrite fs_has_dels.
  rewrite (proj2 (mem_name_in n _)); [reflexivity|]. apply in_flat_map. exists c. auto.
Qed.

(* a Save that returns an error has deleted nothing: at most the checkpoints file itself was rewritten *)
Theorem failed_save_deletes_nothing w x f n :
  snd (save_list_f w x f) = false -> fname_eqb n (x_dir x, 2, 0) = false ->
  fs_has (g_fs (fst (fst (save_list_f w x f)))) n = fs_has (g_fs w) n.
Proof.
  unfold save_list_f. destruct (f =? 1); [reflexivity|].
  destruct ((f =? 2) && negb (match x_pending x with [] => true | _ => false end)); [|discriminate].
  intros _ NE. unfold save_write. cbn [fst add_dropped set_fs g_fs]. rewrite fs_has_put, NE. reflexivity.
Qed.

Lemma step_retain_fs w d ids f x : get_db w d = Some x ->
  g_fs (step_retain w d ids f) =
  if retain_empty w d ids then g_fs w
  else g_fs (fst (fst (save_list_f w (with_ck x (filter (retain_keeps ids) (x_ckpts x))
                                        (x_pending x ++ filter (fun c => negb (retain_keeps ids c)) (x_ckpts x)) (x_cktasks x)) f))).
Proof.
  intro G. unfold step_retain, retain_empty. rewrite G.
  destruct (filter (retain_keeps ids) (x_ckpts x)) as [|k0 ks] eqn:FK; [reflexivity|]. rewrite <- FK.
  destruct (save_list_f _ _ f) as [[w1 x2] ok]. reflexivity.
Qed.

(* the document of the completed handle [id] is in the checkpoints file of the handle's directory, and its WAL and all its
   tables exist. Finding D11: required of every handle that no retention update dropped, this is false of the model. *)
Definition handle_files_exist (w : world) (id : N) : bool :=
  match handle_dir w id with
  | Some hd => match fs_get (g_fs w) (hd, 2, 0) with
               | Some (FCk docs) => match find_doc docs id with
                                    | Some d => fs_has (g_fs w) (dc_wal d) && negb (doc_tables_missing (g_fs w) d)
                                    | None => false end
               | _ => false end
  | None => false
  end.

Definition big : bytes := repeat 120 40.
Definition d11_history : list op :=
  [OPut 0 [0;0;97] [49] false; OPut 0 [0;0;98] big true;
   OStepFlush 0; OStepFlush 0; OStepFlush 0; OStepCompact 0 CRnone; OStepCompact 0 CRnil; OStepCompact 0 CRnone;
   OCkpt 0 1; OStepCkpt 0 1; OStepCkpt 0 1;
   ODrop 0; OGc].

(* checkpoint 1 completed, no retention update ever dropped it, yet its table file is gone after the drop + collection *)
Theorem retained_files_exist_refuted :
  let w := run (init_world 60 1000) d11_history in
  handle_dir w 1 = Some 0 /\ handle_files_exist w 1 = false /\
  handle_files_exist (run (init_world 60 1000) (firstn 12 d11_history)) 1 = true.
Proof. vm_compute. repeat split; reflexivity. Qed.

Definition retained_files_exist_full (mem wm : N) : Prop :=
  forall ops id, (forall d ids, In (ORetain d ids) ops -> In id ids) ->
    handle_dir (run (init_world mem wm) ops) id <> None -> handle_files_exist (run (init_world mem wm) ops) id = true.

Theorem full_statement_refuted : ~ retained_files_exist_full 60 1000.
Proof.
  intro H. destruct retained_files_exist_refuted as (HD & HF & _). rewrite H in HF; [discriminate| |rewrite HD; discriminate].
  intros d ids HI. unfold d11_history in HI. cbn [In] in HI. repeat (destruct HI as [HI|HI]; [discriminate HI|]). destruct HI.
Qed.

Lemma forallb_permutation {A} (f : A -> bool) (l l' : list A) : Permutation l l' -> forallb f l = forallb f l'.
Proof.
  intro P. induction P; cbn; try reflexivity.
  - rewrite IHP. reflexivity.
  - destruct (f x), (f y); reflexivity.
  - congruence.
Qed.

Theorem deletes_only_when_all_clean w x o lo hi l :
  o_fromdoc o = true -> x_own x = OwnRange lo hi -> x_nb x = NbSeq l ->
  cleanup_deletes w x o = true -> forall a, In a l -> ans_clean w (o_name o) a = true.
Proof.
  intros F O N D. rewrite cleanup_deletes_answers, F, O, N in D. apply forallb_forall. exact D.
Qed.
