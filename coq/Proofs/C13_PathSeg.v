(* C13, byte level: idFromPathSegment inverts pathSegment for every 64-bit id, hence the repaired
   LoadCheckpoint (greatest decoded id) picks the maximum of ANY finite set of ids in ANY listing order. *)
From RV Require Import Base.Lists Base.Mach Base.Bytes Model.PathSeg.
From Coq Require Import ZifyN ZifyNat ZifyBool.
Open Scope N_scope.

Lemma unalpha_alpha_nat (n : nat) : (n < 64)%nat -> unalpha (alpha (N.of_nat n)) = Some (N.of_nat n).
Proof.
  intros Hn.
  do 64 (destruct n as [|n]; [reflexivity|]).
  exfalso. lia.
Qed.

Lemma unalpha_alpha s : s < 64 -> unalpha (alpha s) = Some s.
Proof.
  intros Hs. rewrite <- (N2Nat.id s). apply unalpha_alpha_nat. lia.
Qed.

Lemma list_ind3 {A} (P : list A -> Prop) :
  P [] -> (forall a, P [a]) -> (forall a b, P [a; b]) -> (forall a b c l, P l -> P (a :: b :: c :: l)) ->
  forall l, P l.
Proof.
  intros H0 H1 H2 H3. fix IH 1. intros [|a [|b [|c l]]]; [apply H0|apply H1|apply H2|apply H3, IH].
Qed.

Lemma digits k x : k <> 0 -> exists h l, l < k /\ x = h * k + l.
Proof. intros Hk. exists (x / k), (x mod k). split; [apply N.mod_lt, Hk|]. rewrite N.mul_comm. apply N.div_mod, Hk. Qed.

Lemma digits_div h l k : l < k -> (h * k + l) / k = h.
Proof. intros H. symmetry. apply N.div_unique with l; [exact H|lia]. Qed.

Lemma digits_mod h l k : l < k -> (h * k + l) mod k = l.
Proof. intros H. symmetry. apply N.mod_unique with h; [exact H|lia]. Qed.

Theorem b64_decode_encode bs : wf_bytes bs -> b64_decode (b64_encode bs) = Some bs.
Proof.
  (* With a = ha * 4 + la, b = hb * 16 + lb, c = hc * 64 + lc the sextets are ha, la * 16 + hb, lb * 4 + hc, lc: no
     division is left and the bounds are linear.  The first line leaves the bounds a, b, c < 256 of the leading bytes
     in the context; [assumption] and [lia] below take them from there. *)
  unfold b64_decode, wf_bytes. induction bs as [|a|a b|a b c l IH] using list_ind3; intros H;
    repeat (apply Forall_cons_iff in H as [? H]); cbn [b64_encode map_opt].
  - reflexivity.
  - destruct (digits 4 a) as (ha & la & ? & ->); [discriminate|].
    rewrite digits_div, digits_mod by assumption. rewrite !unalpha_alpha by lia.
    cbn [sextets_bytes]. rewrite N.div_mul by lia. reflexivity.
  - destruct (digits 4 a) as (ha & la & ? & ->); [discriminate|].
    destruct (digits 16 b) as (hb & lb & ? & ->); [discriminate|].
    rewrite !digits_div, !digits_mod by assumption. rewrite !unalpha_alpha by lia.
    cbn [sextets_bytes]. rewrite digits_div, digits_mod, N.div_mul by lia. reflexivity.
  - destruct (digits 4 a) as (ha & la & ? & ->); [discriminate|].
    destruct (digits 16 b) as (hb & lb & ? & ->); [discriminate|].
    destruct (digits 64 c) as (hc & lc & ? & ->); [discriminate|].
    rewrite !digits_div, !digits_mod by assumption. rewrite !unalpha_alpha by lia.
    specialize (IH H). destruct (map_opt unalpha (b64_encode l)) as [ss|]; [|discriminate].
    cbn [sextets_bytes]. rewrite IH, !digits_div, !digits_mod by lia. reflexivity.
Qed.

Theorem seg_id_path_segment id : id <= max64 -> seg_id (path_segment id) = Some id.
Proof.
  intros Hid. unfold seg_id, path_segment.
  rewrite b64_decode_encode by (repeat constructor; apply N.mod_lt; discriminate).
  rewrite be64_decode by (unfold max64; change (2 ^ 64) with 18446744073709551616; lia).
  unfold max64 in *. cbn [be64 length N.of_nat Pos.of_succ_nat Pos.succ N.eqb Pos.eqb]. f_equal. lia.
Qed.

Lemma decoded_id id : id <= max64 -> decoded id = id.
Proof. intros H. unfold decoded. rewrite seg_id_path_segment by exact H. reflexivity. Qed.

Lemma list_max_cons x l : list_max (x :: l) = N.max x (list_max l).
Proof. reflexivity. Qed.

Lemma list_max_snoc l x : list_max (l ++ [x]) = N.max (list_max l) x.
Proof. induction l as [|y l IH]; cbn [app]; rewrite ?list_max_cons, ?IH; cbn; lia. Qed.

Lemma list_max_ge x l : In x l -> x <= list_max l.
Proof. apply (fold_max_bound (fun x => x)). Qed.

Lemma list_max_le n l : (forall x, In x l -> x <= n) -> list_max l <= n.
Proof. apply (fold_max_le (fun x => x)). Qed.

Lemma list_max_In l : l <> [] -> In (list_max l) l.
Proof.
  induction l as [|y l IH]; intros H; [congruence|]. rewrite list_max_cons.
  destruct (N.max_spec y (list_max l)) as [[Hlt ->]|[_ ->]]; [right|left; reflexivity].
  apply IH. intros ->. cbn in Hlt. lia.
Qed.

Definition ok64 (l : list N) : Prop := Forall (fun i => i <= max64) l.

Lemma load_scan_max l : forall bf, ok64 l ->
  load_scan (Some (bf, bf)) l = Some (N.max bf (list_max l), N.max bf (list_max l)).
Proof.
  induction l as [|f l IH]; intros bf Hl; cbn [load_scan]; rewrite ?list_max_cons.
  - rewrite N.max_l by (cbn; lia). reflexivity.
  - inversion Hl as [|? ? Hf Hl']; subst. rewrite (decoded_id f Hf).
    destruct (bf <? f) eqn:E; rewrite IH by assumption; f_equal; f_equal; lia.
Qed.

(* the repaired choice, for every finite set of ids and EVERY order in which the files are listed *)
Theorem load_max_any_order listed :
  listed <> [] -> ok64 listed -> load_max listed = Some (list_max listed).
Proof.
  intros Hne Hok. destruct listed as [|f l]; [congruence|].
  inversion Hok as [|? ? Hf Hl]; subst.
  unfold load_max. cbn [load_scan]. rewrite (decoded_id f Hf), load_scan_max by assumption. reflexivity.
Qed.

Lemma In_insert y x l : In y (insert_by_name x l) <-> y = x \/ In y l.
Proof.
  induction l as [|z l IH]; cbn [insert_by_name]; [cbn; intuition|].
  destruct (bltb (snap_name z) (snap_name x)); cbn [In]; [rewrite IH|]; intuition.
Qed.

Lemma In_listing y ids : In y (listing ids) <-> In y ids.
Proof.
  induction ids as [|x l IH]; [reflexivity|]. change (listing (x :: l)) with (insert_by_name x (listing l)).
  rewrite In_insert, IH. cbn [In]. intuition.
Qed.

(* the listing has the elements of the id set, hence its bound, its maximum, and an element when the set has one *)
Theorem load_picks_max_lemma ids : ids <> [] -> ok64 ids -> load false ids = Some (list_max ids).
Proof.
  intros Hne Hok. unfold load, ok64 in *. rewrite Forall_forall in Hok. rewrite load_max_any_order.
  - f_equal. apply N.le_antisymm; apply list_max_le; intros x Hx; apply list_max_ge; [apply In_listing|apply In_listing in Hx]; exact Hx.
  - destruct ids as [|x l]; [congruence|]. intros E. apply (in_nil (a := x)). rewrite <- E. apply In_listing. left. reflexivity.
  - apply Forall_forall. intros x Hx. exact (Hok x (proj1 (In_listing x ids) Hx)).
Qed.

Lemma load_none_iff q : load q [] = None.
Proof. destruct q; reflexivity. Qed.

(* Base.Bytes.bcmp_app_same under the name it has for file names with a common prefix *)
Lemma bcmp_app_prefix p a b : bcmp (p ++ a) (p ++ b) = bcmp a b.
Proof. apply bcmp_app_same. Qed.
