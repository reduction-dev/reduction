(* AssignRanges hands every old checkpoint to exactly the new operators whose range it overlaps,
   whatever the order in which the old checkpoints were recorded. *)
From Coq Require Import List NArith Lia Bool FinFun Sorting.Permutation Sorting.Sorted.
From Coq Require Import ZifyN ZifyNat ZifyBool.
From RV Require Import Model.AssignRanges Proofs.C05_KeySpace.
Import ListNotations.
Open Scope N_scope.

(* the model evaluated on small inputs: assign_ranges on ascending lists and on a permuted one (the input of D20);
   assign_ranges_old = the two-pointer scan (needs `from` ascending; D20) on an ascending list, where it agrees *)
Example assign_t2 : assign_ranges [(0,2);(2,4);(4,6)] [(0,1);(1,3);(3,6)] = [[0;1];[1;2];[2]].
Proof. reflexivity. Qed.
Example assign_t3 : assign_ranges [(0,4);(4,5)] [(0,1);(1,3);(3,6)] = [[0;1;2];[2]].
Proof. reflexivity. Qed.
Example assign_d20_now : assign_ranges [(0,2);(2,4)] [(2,4);(0,2)] = [[1];[0]].
Proof. reflexivity. Qed.
Example assign_old_sorted : assign_ranges_old [(0,2);(2,4);(4,6)] [(0,1);(1,3);(3,6)] = [[0;1];[1;2];[2]].
Proof. reflexivity. Qed.

Definition dflt : kgrange := (0, 0).

Lemma assign_scan_in : forall toR from base j,
  In j (assign_scan toR base from) <->
  exists k, (k < length from)%nat /\ j = base + N.of_nat k /\ overlaps toR (nth k from dflt) = true.
Proof.
  intros toR from. induction from as [|f from IH]; intros base j; cbn [assign_scan length].
  - split; [intros []|intros (k & Hk & _); lia].
  - (* position k of f :: from is either the head or position k - 1 of the tail, scanned from base + 1 *)
    transitivity ((j = base /\ overlaps toR f = true) \/ In j (assign_scan toR (base + 1) from)).
    { destruct (overlaps toR f); cbn [In]; intuition congruence. }
    rewrite IH. split.
    + intros [[-> Ho]|(k & Hk & -> & Ho)]; [exists 0%nat|exists (S k)]; (split; [lia|]; split; [lia|exact Ho]).
    + intros ([|k] & Hk & -> & Ho); [left; split; [lia|exact Ho]|right; exists k; split; [lia|]; split; [lia|exact Ho]].
Qed.

Lemma assign_scan_owned : forall toR from j,
  In j (assign_scan toR 0 from) <-> j < N.of_nat (length from) /\ overlaps toR (nth (N.to_nat j) from dflt) = true.
Proof.
  intros toR from j. rewrite assign_scan_in. split.
  - intros (k & Hk & -> & Hov). rewrite N.add_0_l, Nat2N.id. split; [lia|exact Hov].
  - intros (Hj & Hov). exists (N.to_nat j). split; [lia|]. split; [lia|exact Hov].
Qed.

Lemma assign_scan_sorted : forall toR from base, StronglySorted N.lt (assign_scan toR base from).
Proof.
  intros toR from. induction from as [|f from IH]; intros base; cbn [assign_scan].
  - constructor.
  - destruct (overlaps toR f); [|apply IH].
    constructor; [apply IH|]. apply Forall_forall. intros x Hx. apply assign_scan_in in Hx as (k & _ & -> & _). lia.
Qed.

(* the list is literally "the indices of `from`, ascending, filtered by Overlaps" *)
Fixpoint indexed (base : N) (l : list kgrange) : list (N * kgrange) :=
  match l with [] => [] | x :: l' => (base, x) :: indexed (base + 1) l' end.

Lemma assign_scan_filter : forall toR from base,
  assign_scan toR base from = map fst (filter (fun p => overlaps toR (snd p)) (indexed base from)).
Proof.
  intros toR from. induction from as [|f from IH]; intros base; cbn [assign_scan indexed filter map snd]; [reflexivity|].
  destruct (overlaps toR f); cbn [map fst]; rewrite IH; reflexivity.
Qed.

Lemma assign_ranges_length : forall to from, length (assign_ranges to from) = length to.
Proof. intros. unfold assign_ranges. apply map_length. Qed.

Lemma assign_ranges_nth : forall to from i, (i < length to)%nat ->
  nth i (assign_ranges to from) [] = assign_scan (nth i to dflt) 0 from.
Proof.
  intros to from i Hi. unfold assign_ranges.
  rewrite nth_indep with (d' := (fun t => assign_scan t 0 from) dflt) by (rewrite map_length; exact Hi).
  exact (map_nth (fun t => assign_scan t 0 from) to dflt i).
Qed.

(* Pick of the scanned positions: the recorded list filtered by Overlaps, in recorded order; so Pick never fails in Deploy.
   [pre] stands for the part of the list already passed, whose length is the scan's base index. *)
Lemma pick_assign_scan {A} toR (l pre : list (kgrange * A)) :
  pick (pre ++ l) (assign_scan toR (N.of_nat (length pre)) (map fst l)) = Some (filter (fun rd => overlaps toR (fst rd)) l).
Proof.
  revert pre. induction l as [|a l IH]; intros pre; cbn [map assign_scan filter]; [reflexivity|].
  specialize (IH (pre ++ [a])). rewrite <- app_assoc, app_length, Nat.add_1_r, Nat2N.inj_succ, <- N.add_1_r in IH. cbn [app] in IH.
  destruct (overlaps toR (fst a)); [|exact IH].
  cbn [pick]. rewrite Nat2N.id, nth_error_app2, Nat.sub_diag, IH by lia. reflexivity.
Qed.

(* keyGroupRanges is a partition of [0, count): consecutive ranges from 0 to count (kg_ranges_chain; no proof uses
   this block) *)
Fixpoint chain (s : N) (rs : list kgrange) (e : N) : Prop :=
  match rs with
  | [] => s = e
  | (a, b) :: rs' => a = s /\ a <= b /\ chain b rs' e
  end.

Lemma chain_le : forall rs s e, chain s rs e -> s <= e.
Proof.
  induction rs as [|[a b] rs IH]; intros s e Hc; cbn [chain] in Hc; [lia|].
  destruct Hc as (-> & Hab & Hc). specialize (IH _ _ Hc). lia.
Qed.

Lemma chain_map_seq (f : N -> N) : (forall i j, i <= j -> f i <= f j) -> forall len a,
  chain (f (N.of_nat a)) (map (fun j => (f (N.of_nat j), f (N.of_nat (S j)))) (seq a len)) (f (N.of_nat (a + len))).
Proof.
  intros Hf. induction len as [|len IH]; intros a; cbn [seq map chain].
  - rewrite Nat.add_0_r. reflexivity.
  - split; [reflexivity|]. split; [apply Hf; lia|]. rewrite <- Nat.add_succ_comm. apply IH.
Qed.

Lemma kg_ranges_chain : forall count n, 1 <= n -> chain 0 (kg_ranges count n) count.
Proof.
  intros count n Hn. pose proof (chain_map_seq (rs_start count n) (rs_start_mono count n) (N.to_nat n) 0) as H.
  cbn [N.of_nat Nat.add] in H. rewrite rs_start_0, N2Nat.id, rs_start_n, <- kg_ranges_spec in H by lia. exact H.
Qed.

(* every key group below count has exactly one owner in any permutation of keyGroupRanges(count, m): a permutation
   is a bijection of positions, which carries the owning position of C05's partition over *)
Lemma unique_owner : forall count m rs kg, 1 <= m -> Permutation rs (kg_ranges count m) -> kg < count ->
  exists j, (j < length rs)%nat /\ includes_kg (nth j rs dflt) kg = true /\
            forall j', (j' < length rs)%nat -> includes_kg (nth j' rs dflt) kg = true -> j' = j.
Proof.
  intros count m rs kg Hm Hp Hk.
  destruct (kg_ranges_partition count m kg ltac:(lia) Hk) as (j0 & Hj0 & Hin0 & Huniq0).
  apply Permutation_sym, (Permutation_nth _ _ dflt) in Hp. rewrite kg_ranges_length in Hp.
  destruct Hp as (-> & f & Hf & Hinj & Hnth).
  destruct (proj1 (bInjective_bSurjective Hf) Hinj j0 Hj0) as (j & Hj & <-).
  exists j. split; [exact Hj|]. split; [rewrite Hnth by exact Hj; exact Hin0|].
  intros j' Hj' Hin'. rewrite Hnth in Hin' by exact Hj'. apply (Hinj j' j Hj' Hj), (Huniq0 _ (Hf j' Hj') Hin').
Qed.

Lemma includes_overlaps : forall r o kg, includes_kg r kg = true -> includes_kg o kg = true -> overlaps r o = true.
Proof. intros [a b] [c d] kg. unfold includes_kg, overlaps; cbn [fst snd]. lia. Qed.

Lemma overlaps_shares : forall r o, fst r < snd r -> fst o < snd o -> overlaps r o = true ->
  exists kg, includes_kg r kg = true /\ includes_kg o kg = true.
Proof. intros [a b] [c d]. unfold includes_kg, overlaps; cbn [fst snd]. intros. exists (N.max a c). lia. Qed.

(* For ANY two lists of ranges: the owner of a key group in [from] is handed to its owner in [to] (complete), and
   whatever is handed to a range shares a key group with it (exclusive; for non-empty ranges: an operator with an empty
   range owns no key and holds no state). *)
Lemma assign_hands_owners to from :
  (forall i j kg, (i < length to)%nat -> (j < length from)%nat ->
     includes_kg (nth i to dflt) kg = true -> includes_kg (nth j from dflt) kg = true ->
     In (N.of_nat j) (nth i (assign_ranges to from) [])) /\
  (forall i j, (i < length to)%nat -> In j (nth i (assign_ranges to from) []) ->
     j < N.of_nat (length from) /\
     (fst (nth i to dflt) < snd (nth i to dflt) -> fst (nth (N.to_nat j) from dflt) < snd (nth (N.to_nat j) from dflt) ->
      exists kg, includes_kg (nth i to dflt) kg = true /\ includes_kg (nth (N.to_nat j) from dflt) kg = true)).
Proof.
  split.
  - intros i j kg Hi Hj Hii Hji. rewrite assign_ranges_nth by exact Hi.
    apply assign_scan_owned. rewrite Nat2N.id. split; [lia|]. apply includes_overlaps with kg; assumption.
  - intros i j Hi Hin. rewrite assign_ranges_nth in Hin by exact Hi. apply assign_scan_owned in Hin as (Hj & Hov).
    split; [exact Hj|]. intros Hne1 Hne2. apply overlaps_shares; assumption.
Qed.
