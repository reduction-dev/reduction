(* C11, source-runner side (Model/Wmark.v).  The tracker's maximum after a run is [zmax_list] of the timestamps seen
   (wm_fold_max), so the current watermark is that maximum less the allowed lateness and one (wm_tracks_l) and never moves
   back (wm_monotone_l).  For the pipeline, [stamped mx late out] says that every watermark message in [out] carries the
   maximum of the events forwarded before it; pipe_run_stamped proves it of every run, and the stamp_* lemmas read it off.
   _l marks the lemma behind one conjunct of the theorem of that name in Props/C11.v (wm_monotone_l, wm_tracks_l; the
   exception is wm_below_max_l, which is behind none); _gen a lemma for any watermarker state where Props/C11.v has [wm_new _]. *)
From Coq Require Import ZArith List Bool Lia Sorted.
From RV Require Import Base.Lists Model.Wmark.
Import ListNotations.
Open Scope Z_scope.

(* a protobuf (seconds, nanos) pair as an instant: [as_time (Some p)] *)
Definition instant (p : Z * Z) : Z := tm (fst p) (snd p).

Lemma NS_pos : 0 < NS.
Proof. unfold NS; lia. Qed.

Lemma instant_pb_new : forall t, instant (pb_new t) = t.
Proof.
  intro t. unfold instant, pb_new, tm. cbn [fst snd].
  pose proof (Z.div_mod t NS) as Hdm. pose proof NS_pos as Hp. lia.
Qed.

Lemma pb_new_normal : forall t, 0 <= snd (pb_new t) < NS.
Proof. intro t. unfold pb_new. cbn [snd]. apply Z.mod_pos_bound. exact NS_pos. Qed.

(* timestamppb.New is injective *)
Lemma pb_new_inj : forall a b, pb_new a = pb_new b -> a = b.
Proof. intros a b Hab. rewrite <- (instant_pb_new a), <- (instant_pb_new b), Hab. reflexivity. Qed.

Lemma zmax_list_spec : forall l d, In (zmax_list d l) (d :: l) /\ forall x, In x (d :: l) -> x <= zmax_list d l.
Proof.
  unfold zmax_list. induction l as [|y l IH]; intro d; cbn [fold_left].
  - split; [left; reflexivity|]. intros x [<-|[]]. lia.
  - destruct (IH (Z.max d y)) as [Hin Hle]. split.
    + cbn [In] in *. destruct Hin as [E|Hin]; [lia|tauto].
    + pose proof (Hle _ (or_introl eq_refl)). intros x [<-|[<-|Hx]]; [lia..|apply Hle; right; exact Hx].
Qed.

Lemma zmax_list_mono : forall l d d', d <= d' -> zmax_list d l <= zmax_list d' l.
Proof.
  unfold zmax_list. induction l as [|x l IH]; intros d d' Hd; cbn [fold_left]; [lia|].
  apply IH. lia.
Qed.

Lemma zmax_list_app : forall l1 l2 d, zmax_list d (l1 ++ l2) = zmax_list (zmax_list d l1) l2.
Proof. intros l1 l2 d. unfold zmax_list. apply fold_left_app. Qed.

Lemma zmax_list_largest : forall l d mx, In mx l -> (forall x, In x l -> x <= mx) -> d <= mx -> zmax_list d l = mx.
Proof.
  intros l d mx Hin Hle Hd. destruct (zmax_list_spec l d) as [Hi Hge]. apply Z.le_antisymm.
  - destruct Hi as [<-|Hi]; [exact Hd|exact (Hle _ Hi)].
  - apply Hge. right. exact Hin.
Qed.

Lemma wm_advance_max : forall w ts, wm_max (wm_advance w ts) = Z.max (wm_max w) ts.
Proof. intros w ts. unfold wm_advance. destruct (wm_max w <? ts) eqn:E; cbn [wm_max]; [apply Z.ltb_lt in E|apply Z.ltb_ge in E]; lia. Qed.

Lemma wm_advance_late : forall w ts, wm_late (wm_advance w ts) = wm_late w.
Proof. intros w ts. unfold wm_advance. destruct (wm_max w <? ts); reflexivity. Qed.

Lemma wm_fold_max : forall tss w, wm_max (fold_left wm_advance tss w) = zmax_list (wm_max w) tss.
Proof.
  intros tss w. apply (fold_left_sim wm_advance Z.max (fun w z => wm_max w = z)); [|reflexivity].
  intros w' z ts <-. apply wm_advance_max.
Qed.

Lemma wm_fold_late : forall tss w, wm_late (fold_left wm_advance tss w) = wm_late w.
Proof.
  intros tss w. apply (fold_left_inv wm_advance (fun w' => wm_late w' = wm_late w)); [|reflexivity].
  intros w' ts <-. apply wm_advance_late.
Qed.

(* one step never lowers the watermark: every timestamp, in or out of order *)
Lemma wm_step_monotone : forall w ts, wm_current w <= wm_current (wm_advance w ts).
Proof. intros w ts. unfold wm_current. rewrite wm_advance_max, wm_advance_late. lia. Qed.

Lemma wm_tracks_l : forall late tss, wm_current (wm_run late tss) = zmax_list go_zero_time tss - late - 1.
Proof.
  intros late tss. unfold wm_current, wm_run. rewrite wm_fold_max, wm_fold_late. cbn [wm_new wm_max wm_late]. lia.
Qed.

Lemma wm_below_max_l : forall late tss, 0 <= late -> wm_current (wm_run late tss) < zmax_list go_zero_time tss.
Proof. intros late tss Hl. rewrite wm_tracks_l. lia. Qed.

Lemma wm_at_largest : forall late tss mx,
  In mx tss -> (forall x, In x tss -> x <= mx) -> go_zero_time <= mx ->
  wm_current (wm_run late tss) = mx - late - 1.
Proof. intros late tss mx Hin Hle Hz. rewrite wm_tracks_l, (zmax_list_largest tss go_zero_time mx Hin Hle Hz). reflexivity. Qed.

Lemma wm_trace_lower : forall ops w p, In p (wm_trace w ops) -> wm_current w <= instant p.
Proof.
  induction ops as [|o ops IH]; intros w p Hin; [contradiction|].
  destruct o as [q|]; cbn [wm_trace] in Hin.
  - apply IH in Hin. pose proof (wm_step_monotone w (as_time q)). lia.
  - destruct Hin as [<-|Hin]; [rewrite instant_pb_new; lia|apply IH; exact Hin].
Qed.

Lemma wm_monotone_l : forall ops w, StronglySorted Z.le (map instant (wm_trace w ops)).
Proof.
  induction ops as [|o ops IH]; intro w; [constructor|].
  destruct o as [q|]; cbn [wm_trace]; [apply IH|].
  cbn [map]. constructor; [apply IH|].
  apply Forall_forall. intros x Hx. apply in_map_iff in Hx. destruct Hx as [p [<- Hp]].
  rewrite instant_pb_new. apply wm_trace_lower with (ops := ops). exact Hp.
Qed.

(* every stamped value, related to exactly the timestamps advanced before it: the watermarker's maximum is
   that of [d] and the timestamps [acc] advanced so far *)
Lemma wm_trace_tracks_gen : forall ops w d late acc,
  wm_max w = zmax_list d acc -> wm_late w = late ->
  map instant (wm_trace w ops) = map (fun fw => zmax_list d fw - late - 1) (wm_forwarded_before acc ops).
Proof.
  induction ops as [|o ops IH]; intros w d late acc Hm Hl; [reflexivity|].
  destruct o as [q|]; cbn [wm_trace wm_forwarded_before map].
  - apply IH; [rewrite wm_advance_max, Hm, zmax_list_app; reflexivity|rewrite wm_advance_late; exact Hl].
  - rewrite instant_pb_new. f_equal; [unfold wm_current; rewrite Hm, Hl; lia|apply IH; assumption].
Qed.

(* an output list in which every stamp carries the maximum so far - (late + 1), the maximum starting at [mx] *)
Fixpoint stamped (mx late : Z) (out : list sent) : Prop :=
  match out with
  | [] => True
  | SendK _ _ p :: r => stamped (Z.max mx (as_time p)) late r
  | SendW s :: r => s = pb_new (mx - (late + 1)) /\ stamped mx late r
  | SendB :: r => stamped mx late r
  end.

Lemma sent_ts_app : forall a b, sent_ts (a ++ b) = sent_ts a ++ sent_ts b.
Proof.
  induction a as [|x a IH]; intro b; [reflexivity|].
  destruct x; cbn [app sent_ts]; rewrite ?IH; reflexivity.
Qed.

Lemma stamped_app : forall a b mx late,
  stamped mx late (a ++ b) <-> stamped mx late a /\ stamped (zmax_list mx (sent_ts a)) late b.
Proof.
  induction a as [|x a IH]; intros b mx late; [cbn; tauto|].
  destruct x; cbn [app stamped sent_ts]; rewrite IH; unfold zmax_list; cbn [fold_left]; tauto.
Qed.

Lemma pipe_keyed_stamped : forall evs w,
  stamped (wm_max w) (wm_late w) (snd (pipe_keyed w evs)) /\
  wm_max (fst (pipe_keyed w evs)) = zmax_list (wm_max w) (sent_ts (snd (pipe_keyed w evs))) /\
  wm_late (fst (pipe_keyed w evs)) = wm_late w.
Proof.
  induction evs as [|[[o id] p] evs IH]; intro w; cbn [pipe_keyed]; [cbn; auto|].
  specialize (IH (wm_advance w (as_time p))). destruct (pipe_keyed (wm_advance w (as_time p)) evs) as [w2 out].
  rewrite wm_advance_max, wm_advance_late in IH. exact IH.
Qed.

Lemma pipe_run_stamped : forall ops w, stamped (wm_max w) (wm_late w) (pipe_run w ops).
Proof.
  induction ops as [|o ops IH]; intro w; [exact I|]. destruct o as [evs| | |]; cbn [pipe_run]; try apply IH.
  - destruct (pipe_keyed_stamped evs w) as (Hs & Hm & Hl). destruct (pipe_keyed w evs) as [w1 out]. cbn [fst snd] in *.
    apply stamped_app. split; [exact Hs|]. rewrite <- Hm, <- Hl. apply IH.
  - split; [reflexivity|apply IH].
Qed.

Lemma stamp_after_forwarded_gen : forall ops w pre stamp post,
  pipe_run w ops = pre ++ SendW stamp :: post ->
  stamp = pb_new (zmax_list (wm_max w) (sent_ts pre) - (wm_late w + 1)).
Proof.
  intros ops w pre stamp post H. pose proof (pipe_run_stamped ops w) as Hs. rewrite H in Hs.
  apply stamped_app in Hs. exact (proj1 (proj2 Hs)).
Qed.

(* consequences for what the operators see: stamps never decrease along the output, and a stamp is [t - (wm_late w + 1)]
   for the largest timestamp [t] forwarded before it, when [t] is at least the watermarker's start value *)
Lemma stamps_monotone_gen : forall ops w pre s1 mid s2 post,
  pipe_run w ops = pre ++ SendW s1 :: mid ++ SendW s2 :: post ->
  instant s1 <= instant s2.
Proof.
  intros ops w pre s1 mid s2 post H. pose proof (pipe_run_stamped ops w) as Hs. rewrite H in Hs.
  apply stamped_app in Hs. destruct Hs as [_ [-> Hs]]. apply stamped_app in Hs. destruct Hs as [_ [-> _]].
  rewrite !instant_pb_new.
  pose proof (proj2 (zmax_list_spec (sent_ts mid) (zmax_list (wm_max w) (sent_ts pre))) _ (or_introl eq_refl)). lia.
Qed.

Lemma stamp_below_forwarded_gen : forall ops w pre stamp post t,
  pipe_run w ops = pre ++ SendW stamp :: post ->
  In t (sent_ts pre) -> (forall x, In x (sent_ts pre) -> x <= t) -> wm_max w <= t ->
  instant stamp = t - (wm_late w + 1).
Proof.
  intros ops w pre stamp post t H Hin Hle Hz.
  rewrite (stamp_after_forwarded_gen _ _ _ _ _ H), instant_pb_new.
  rewrite (zmax_list_largest _ _ _ Hin Hle Hz). reflexivity.
Qed.
