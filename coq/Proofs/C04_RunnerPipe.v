(* C04: the invariant of the runner pipeline (Model/RunnerPipe.v) and its consequences.
   For every schedule: what operator i has been given ++ what is still on its way to i, in pipeline order
   (sender, hand-off, batcher, joiner work list, then the items read but not yet joined followed by the unread input)
   = the sub-sequence of the ideal stream routed to i. *)
From Coq Require Import List NArith Bool Arith Lia.
Import ListNotations.
From RV Require Import Base.Lists Model.RunnerPipe.

Lemma b_flush_spec : forall o o' b, b_flush o = (o', b) ->
  b = o_batch o /\ o_batch o' = [] /\ o_snd o' = o_snd o /\ o_out o' = o_out o.
Proof. intros o o' b H. unfold b_flush in H. destruct (o_batch o) eqn:E; injection H as <- <-; cbn; auto. Qed.
Lemma b_flush_tok_spec : forall o t o' b, b_flush_tok o t = (o', b) ->
  b ++ o_batch o' = o_batch o /\ (o_batch o = [] -> b = [] /\ o_batch o' = []) /\ o_snd o' = o_snd o /\ o_out o' = o_out o.
Proof.
  intros o t o' b H. unfold b_flush_tok in H. destruct (N.eqb (o_tok o) t).
  - destruct (b_flush_spec _ _ _ H) as (-> & -> & C & D). rewrite app_nil_r. auto.
  - injection H as <- <-. split; [reflexivity|]. split; [|now split]. intros E. now rewrite E.
Qed.

Lemma ladds_snoc : forall R tr l, ladds R (tr ++ [l]) = ladds R tr ++ match l with LAdd _ x => [x] | _ => [] end.
Proof. intros. apply flat_map_snoc. Qed.
Lemma louts_snoc : forall R tr l, louts R (tr ++ [l]) = louts R tr ++ match l with LOut _ res => [res] | _ => [] end.
Proof. intros. apply flat_map_snoc. Qed.

Lemma run_invariant : forall R route nops mx delay (P : st R -> Prop),
  (forall s a s', P s -> step R route nops mx delay s a = Some s' -> P s') ->
  forall sched s s', P s -> run R route nops mx delay s sched = Some s' -> P s'.
Proof.
  intros R route nops mx delay P H. induction sched as [|a sched IH]; intros s s' H0 Hr; cbn [run] in Hr.
  - now injection Hr as <-.
  - destruct (step R route nops mx delay s a) as [s1|] eqn:E; [|discriminate]. eauto.
Qed.

Section PipeInv.
  Variable kb : N -> list kev.
  Variable R : rstage.
  Variable route : list N -> nat.
  Variables (nops mx : nat) (delay : bool).
  Hypothesis Hin : rs_inorder kb R.
  Variable input : list item.

  Notation stT := (st R).

  (* for operator i: the batch the joiner is handing off to it, if any *)
  Definition jhand (s : stT) (i : nat) : list ev :=
    match s_pc R s with JHand j b => if Nat.eqb j i then b else [] | _ => [] end.
  (* the batch an operator's sender goroutine is delivering, if any *)
  Definition sndb (o : opst) : list ev := match o_snd o with SDel b => b | _ => [] end.
  (* the events for operator i in a work list of the joiner *)
  Definition wproj (i : nat) (w : list work) : list ev :=
    flat_map (fun x => match x with WEv j e => if Nat.eqb j i then [e] else [] | WFlush _ => [] end) w.

  (* The items read and not yet joined, [mid], are what outputStream and the pending records are two images of:
     a record stands in the queue as a placeholder, a marker as itself, a closed source as the two markers it enqueues. *)
  Definition qof (it : item) : list qitem :=
    match it with IRec _ => [QP] | IMark m => [QM m] | IClose => [QM Wm; QM Done] end.
  Definition recs (mid : list item) : list N := flat_map (fun it => match it with IRec x => [x] | _ => [] end) mid.

  (* what operator i has and what the joiner holds for it, in order, followed by tl; the hand-off is [jhand], written
     out here because the steps of the joiner change the program counter: local takes it as an argument *)
  Definition local (o : opst) (pc : jpc) (w : list work) (i : nat) (tl : list ev) : list ev :=
    concat (o_out o) ++ sndb o ++ match pc with JHand j b => if Nat.eqb j i then b else [] | _ => [] end ++
    o_batch o ++ wproj i w ++ tl.
  (* not yet seen by the joiner *)
  Definition upstream (i : nat) (mid todo : list item) : list ev := filter (sel route i) (ideal kb (mid ++ todo)).

  (* a history of the stage: it was given the records whose result the joiner has received, then the pending ones *)
  Definition trace_ok (r : RS R) (pend : list N) : Prop :=
    exists tr popped, rrun R tr r /\ ladds R tr = popped ++ pend /\ louts R tr = map kb popped.

  Record PInvM (s : stT) (mid : list item) : Prop := {
    pi_view : forall i, i < nops ->
      local (s_ops R s i) (s_pc R s) (s_work R s) i (upstream i mid (s_todo R s)) = expected kb route input i;
    pi_outq : s_outq R s = flat_map qof mid;
    (* ghost: the stage's history ends with exactly the pending records *)
    pi_tr : trace_ok (s_r R s) (recs mid);
    pi_pend : s_pend R s = recs mid;
    (* a waiting hand-off stands behind an empty batcher, so a time-out flush cannot overtake it *)
    pi_hand : forall j b, s_pc R s = JHand j b -> o_batch (s_ops R s j) = []
  }.
  Definition PInv (s : stT) : Prop := exists mid, PInvM s mid.

  Lemma trace_add : forall r pend x r', trace_ok r pend -> rs_add R r x = Some r' -> trace_ok r' (pend ++ [x]).
  Proof.
    intros r pend x r' (tr & popped & Hr & Ha & Ho) E. exists (tr ++ [LAdd R x]), popped.
    rewrite ladds_snoc, louts_snoc, Ha, Ho, app_nil_r, app_assoc. split; [econstructor; eauto|auto].
  Qed.
  Lemma trace_silent : forall r pend l r', trace_ok r pend -> (forall tr, rrun R tr r -> rrun R (tr ++ [l]) r') ->
    ladds R [l] = [] -> louts R [l] = [] -> trace_ok r' pend.
  Proof.
    intros r pend l r' (tr & popped & Hr & Ha & Ho) Hl Ea Eo. exists (tr ++ [l]), popped.
    unfold ladds, louts in *. rewrite !flat_map_app, Ea, Eo, !app_nil_r. auto.
  Qed.
  (* what the joiner receives is the key-by result of the oldest pending record: the assumption on the stage *)
  Lemma trace_out : forall r pend res r', trace_ok r pend -> rs_out R r = Some (res, r') ->
    exists x p', pend = x :: p' /\ res = kb x /\ trace_ok r' p'.
  Proof.
    intros r pend res r' (tr & popped & Hr & Ha & Ho) E.
    assert (Hr' : rrun R (tr ++ [LOut R res]) r') by (econstructor; eauto).
    destruct (Hin _ _ Hr') as (rest & Hrest).
    rewrite ladds_snoc, louts_snoc, Ha, Ho, app_nil_r, map_app, <- app_assoc in Hrest. apply app_inv_head in Hrest.
    destruct pend as [|x p']; [discriminate|]. injection Hrest as <- _. exists x, p'. repeat split.
    exists (tr ++ [LOut R (kb x)]), (popped ++ [x]).
    rewrite ladds_snoc, louts_snoc, Ha, Ho, app_nil_r, map_app, <- app_assoc. auto.
  Qed.

  Lemma wproj_app : forall i a b, wproj i (a ++ b) = wproj i a ++ wproj i b.
  Proof. intros. unfold wproj. apply flat_map_app. Qed.
  Lemma wproj_bcast : forall i m n, wproj i (bcast n m) = if i <? n then [EM m] else [].
  Proof.
    intros i m n. induction n as [|n IH]; [reflexivity|].
    unfold bcast in *. rewrite seq_S, map_app, wproj_app, IH. cbn [map wproj flat_map Nat.add].
    destruct (Nat.eqb_spec n i), (Nat.ltb_spec i n), (Nat.ltb_spec i (S n)); try lia; reflexivity.
  Qed.
  Lemma wproj_flushes : forall i n, wproj i (flushes n) = [].
  Proof. intros. unfold flushes, wproj. generalize (seq 0 n). induction l; cbn; auto. Qed.
  Lemma wproj_routed : forall i x res,
    wproj i (map (fun kv => WEv (route (fst kv)) (EK x kv)) res) = filter (sel route i) (map (EK x) res).
  Proof.
    intros. induction res as [|kv res IH]; [reflexivity|].
    cbn [map filter]. unfold wproj in *. cbn [flat_map]. rewrite IH. cbn [sel].
    destruct (Nat.eqb (route (fst kv)) i); reflexivity.
  Qed.

  Lemma PInv_init : PInv (init R input).
  Proof. exists []. constructor; cbn; try easy. exists [], []. repeat split. constructor. Qed.

  (* upstream of the operators: input, outputStream, the stage and the joiner's work list; each operator's stream is kept *)
  Lemma PInv_flow : forall s mid todo q r p w mid', PInvM s mid ->
    (forall i, i < nops -> wproj i w ++ upstream i mid' todo = wproj i (s_work R s) ++ upstream i mid (s_todo R s)) ->
    q = flat_map qof mid' -> p = recs mid' -> trace_ok r p ->
    PInv {| s_todo := todo; s_outq := q; s_r := r; s_pend := p; s_work := w; s_pc := s_pc R s; s_ops := s_ops R s |}.
  Proof.
    intros s mid todo q r p w mid' [Hv Hq Ht Hp Hh] Hw -> -> Ht'. exists mid'. constructor; cbn; auto.
    intros i Hi. rewrite <- (Hv i Hi). unfold local. now rewrite (Hw i Hi).
  Qed.

  (* the read loop appends the item it read to [mid]: its place in the ideal stream does not change *)
  Lemma PInv_push : forall s mid it t r p, PInvM s mid -> s_todo R s = it :: t -> p = s_pend R s ++ recs [it] -> trace_ok r p ->
    PInv {| s_todo := t; s_outq := s_outq R s ++ qof it; s_r := r; s_pend := p; s_work := s_work R s; s_pc := s_pc R s;
           s_ops := s_ops R s |}.
  Proof.
    intros s mid it t r p HI Et -> Ht. apply (PInv_flow s mid t _ r _ _ (mid ++ [it]) HI); auto.
    - intros i _. unfold upstream. now rewrite Et, <- app_assoc.
    - now rewrite flat_map_snoc, (pi_outq s mid HI).
    - unfold recs. now rewrite flat_map_app, (pi_pend s mid HI).
  Qed.

  (* at operator i: its batcher and sender, the joiner's position and work list; i's stream is kept, the others' hand-off
     and work are not touched *)
  Lemma PInv_local : forall s i o pc w, PInv s ->
    (forall tl, local o pc w i tl = local (s_ops R s i) (s_pc R s) (s_work R s) i tl) ->
    (forall k tl, k <> i -> local (s_ops R s k) pc w k tl = local (s_ops R s k) (s_pc R s) (s_work R s) k tl) ->
    (forall b, pc = JHand i b -> o_batch o = []) ->
    (forall j b, j <> i -> pc = JHand j b -> s_pc R s = JHand j b) ->
    PInv (set_j R s (s_outq R s) (s_r R s) (s_pend R s) w pc (upd (s_ops R s) i o)).
  Proof.
    intros s i o pc w (mid & [Hv Hq Ht Hp Hh]) Hi Hk Hb Hj. exists mid. constructor; cbn; auto.
    - intros k Hlt. rewrite <- (Hv k Hlt). unfold upd. destruct (Nat.eqb_spec k i) as [->|N]; auto.
    - intros j b E. unfold upd. destruct (Nat.eqb_spec j i) as [->|N]; eauto.
  Qed.

  (* the joiner's flush + hand-off: it holds no hand-off yet, and w is what is left of its work list *)
  Lemma PInv_j_flush : forall s w i, PInv s ->
    (forall k o tl, local o (s_pc R s) (s_work R s) k tl = local o JIdle w k tl) -> PInv (j_flush R s w i).
  Proof.
    intros s w i HI H. unfold j_flush. destruct (b_flush (s_ops R s i)) as [o' b] eqn:E.
    destruct (b_flush_spec _ _ _ E) as (A & B & C & D). apply PInv_local; auto; try congruence.
    - intros tl. rewrite H. unfold local, sndb. rewrite Nat.eqb_refl, A, B, C, D. now cbn.
    - intros k tl N. rewrite H. unfold local. destruct (Nat.eqb_spec i k); [congruence|reflexivity].
  Qed.

  Lemma PInv_hand : forall s, PInv s -> forall j b, s_pc R s = JHand j b -> o_batch (s_ops R s j) = [].
  Proof. intros s (mid & HI). apply (pi_hand s mid HI). Qed.

  Definition pkeeps (a : action R) : Prop :=
    forall s s', PInv s -> step R route nops mx delay s a = Some s' -> PInv s'.

  Lemma PInv_read : pkeeps (ARead R).
  Proof.
    intros s s' (mid & HI) Hs. pose proof (pi_tr s mid HI) as Ht. rewrite <- (pi_pend s mid HI) in Ht. cbn [step] in Hs.
    destruct (s_todo R s) as [|[x|m|] t] eqn:Et; [discriminate|..].
    - destruct (rs_add R (s_r R s) x) as [r'|] eqn:Ea; [|discriminate]. injection Hs as <-.
      apply (PInv_push s mid (IRec x) t); eauto using trace_add.
    - injection Hs as <-. apply (PInv_push s mid (IMark m) t); auto; now rewrite app_nil_r.
    - destruct (rs_flush R (s_r R s)) as [r'|] eqn:Ea; [|discriminate]. injection Hs as <-.
      apply (PInv_push s mid IClose t); auto; [now rewrite app_nil_r|].
      apply (trace_silent _ _ (LFlush R) _ Ht); [intros tr Hr; exact (rr_flush R tr _ _ Hr Ea)|reflexivity..].
  Qed.

  Lemma PInv_rint : forall a, pkeeps (ARInt R a).
  Proof.
    intros a s s' (mid & HI) Hs. cbn [step] in Hs.
    destruct (rs_int R (s_r R s) a) as [r'|] eqn:Ea; [|discriminate]. injection Hs as <-.
    apply (PInv_flow s mid (s_todo R s) (s_outq R s) r' (s_pend R s) (s_work R s) mid HI); auto using pi_outq, pi_pend.
    rewrite (pi_pend s mid HI).
    apply (trace_silent _ _ (LInt R a) _ (pi_tr s mid HI)); [intros tr Hr; exact (rr_int R tr _ _ _ Hr Ea)|reflexivity..].
  Qed.

  (* the joiner, with nothing left to do for the previous element, takes the next one off outputStream: the head of [mid] *)
  Lemma PInv_pop : forall s s', PInv s -> s_pc R s = JIdle -> s_work R s = [] ->
    j_step R route nops mx delay s = Some s' -> PInv s'.
  Proof.
    intros s s' (mid & HI) Epc Ew Hs. unfold j_step in Hs.
    rewrite Epc, Ew, (pi_outq s mid HI), (pi_pend s mid HI) in Hs. pose proof (pi_tr s mid HI) as Ht.
    destruct mid as [|[x|m|] mid']; [discriminate|cbn [qof recs flat_map app hd tl] in *..].
    - (* placeholder: receive the key-by result *)
      destruct (rs_out R (s_r R s)) as [[res r']|] eqn:Eo; [|discriminate]. injection Hs as <-.
      destruct (trace_out _ _ _ _ Ht Eo) as (x0 & p' & [= <- <-] & -> & Ht'). rewrite <- Epc.
      apply (PInv_flow s (IRec x :: mid') (s_todo R s) _ r' _ _ mid' HI); auto.
      intros i _. rewrite Ew, wproj_routed. unfold upstream. cbn. symmetry. apply filter_app.
    - (* marker: broadcast *)
      injection Hs as <-. rewrite <- Epc. apply (PInv_flow s (IMark m :: mid') (s_todo R s) _ (s_r R s) _ _ mid' HI); auto.
      intros i Hi. rewrite Ew, wproj_app, wproj_bcast. apply Nat.ltb_lt in Hi. rewrite Hi.
      now replace (wproj i match m with Done => flushes nops | _ => [] end) with (@nil ev)
        by (destruct m; auto using wproj_flushes).
    - (* the first of the two markers of a closed source; the second stays at the head *)
      injection Hs as <-. rewrite <- Epc.
      apply (PInv_flow s (IClose :: mid') (s_todo R s) _ (s_r R s) _ _ (IMark Done :: mid') HI); auto.
      intros i Hi. rewrite Ew, app_nil_r, wproj_bcast. apply Nat.ltb_lt in Hi. now rewrite Hi.
  Qed.

  Lemma PInv_join : pkeeps (AJoin R).
  Proof.
    intros s s' HI Hs. cbn [step] in Hs. destruct (s_pc R s) as [|i0|i0|i0 b0] eqn:Epc.
    - (* JIdle: the next call of the work list, or the next element of outputStream *)
      destruct (s_work R s) as [|[i0 e|i0] w] eqn:Ew.
      + exact (PInv_pop s s' HI Epc Ew Hs).
      + (* batcher.Add *)
        unfold j_step in Hs. rewrite Epc, Ew in Hs. injection Hs as <-. apply PInv_local; auto; try discriminate.
        * intros tl. rewrite Epc, Ew. unfold local, sndb. cbn. rewrite Nat.eqb_refl. cbn. now rewrite <- !app_assoc.
        * intros k tl N. rewrite Epc, Ew. unfold local. cbn. destruct (Nat.eqb_spec i0 k); [congruence|reflexivity].
      + (* operators.flush() *)
        unfold j_step in Hs. rewrite Epc, Ew in Hs. injection Hs as <-. apply PInv_j_flush; auto. intros. now rewrite Epc, Ew.
    - (* JAdded: IsFull *)
      unfold j_step in Hs. rewrite Epc in Hs. injection Hs as <-.
      destruct HI as (mid & [Hv Hq Ht Hp Hh]). exists mid. constructor; cbn; auto.
      + intros i Hi. rewrite <- (Hv i Hi). rewrite Epc. cbn. now destruct (_ <=? _).
      + intros j b. now destruct (_ <=? _).
    - (* JFull: Flush(CurrentBatch) and hand-off *)
      unfold j_step in Hs. rewrite Epc in Hs. injection Hs as <-. apply PInv_j_flush; auto. intros. now rewrite Epc.
    - (* JHand: the joiner waits for the sender *)
      unfold j_step in Hs. rewrite Epc in Hs. discriminate Hs.
  Qed.

  Lemma PInv_expire : forall i, pkeeps (AExpire R i).
  Proof.
    intros i s s' HI Hs. cbn [step] in Hs.
    destruct (o_slot (s_ops R s i)) as [t|] eqn:Esl; [|discriminate]. injection Hs as <-.
    apply PInv_local; auto. cbn. apply (PInv_hand s HI).
  Qed.

  Lemma PInv_timer : forall i t, pkeeps (ATimer R i t).
  Proof.
    intros i t s s' HI Hs. cbn [step] in Hs. destruct (o_snd (s_ops R s i)) eqn:Es; try discriminate.
    destruct (remove1 t (o_late (s_ops R s i))) as [ar|] eqn:Er; [|discriminate]. injection Hs as <-.
    apply PInv_local; auto; cbn; [|apply (PInv_hand s HI)]. intros tl. unfold local, sndb. cbn. now rewrite Es.
  Qed.

  (* by pi_hand, what the sender flushes here does not overtake a waiting hand-off *)
  Lemma PInv_snd_flush : forall i, pkeeps (ASndFlush R i).
  Proof.
    intros i s s' HI Hs. pose proof (PInv_hand s HI) as Hh. cbn [step] in Hs.
    destruct (o_snd (s_ops R s i)) eqn:Es; try discriminate.
    destruct (b_flush_tok (s_ops R s i) t) as [o' b] eqn:Ef. injection Hs as <-.
    destruct (b_flush_tok_spec _ _ _ _ Ef) as (A & B & C & D).
    apply PInv_local; auto.
    - intros tl. unfold local, sndb. cbn. rewrite Es, D. cbn.
      destruct (s_pc R s) as [| | |j b0] eqn:Epc; try (cbn; now rewrite <- A, <- app_assoc).
      destruct (Nat.eqb_spec j i) as [->|]; [|cbn; now rewrite <- A, <- app_assoc].
      destruct (B (Hh _ _ eq_refl)) as [-> ->]. now rewrite (Hh _ _ eq_refl).
    - intros b0 E. apply (B (Hh _ _ E)).
  Qed.

  Lemma PInv_snd_recv : forall i, pkeeps (ASndRecv R i).
  Proof.
    intros i s s' HI Hs. cbn [step] in Hs. destruct (o_snd (s_ops R s i)) eqn:Es; try discriminate.
    destruct (s_pc R s) as [| | |j b0] eqn:Epc; try discriminate.
    destruct (Nat.eqb_spec j i) as [->|]; [|discriminate]. injection Hs as <-.
    apply PInv_local; auto; try discriminate.
    - intros tl. rewrite Epc. unfold local, sndb. cbn. now rewrite Es, Nat.eqb_refl.
    - intros k tl N. rewrite Epc. unfold local. destruct (Nat.eqb_spec i k); [congruence|reflexivity].
  Qed.

  Lemma PInv_snd_done : forall i, pkeeps (ASndDone R i).
  Proof.
    intros i s s' HI Hs. cbn [step] in Hs. destruct (o_snd (s_ops R s i)) eqn:Es; try discriminate. injection Hs as <-.
    apply PInv_local; auto; cbn; [|apply (PInv_hand s HI)].
    intros tl. unfold local, sndb. cbn. rewrite Es, concat_app. cbn. now rewrite app_nil_r, <- app_assoc.
  Qed.

  Lemma PInv_step : forall a, pkeeps a.
  Proof.
    intros [|a| |i|i t|i|i|i];
      [exact PInv_read|exact (PInv_rint a)|exact PInv_join|exact (PInv_expire i)|exact (PInv_timer i t)
      |exact (PInv_snd_flush i)|exact (PInv_snd_recv i)|exact (PInv_snd_done i)].
  Qed.

  Theorem reachable_PInv : forall sched s, run R route nops mx delay (init R input) sched = Some s -> PInv s.
  Proof. intros sched s. apply run_invariant; [exact (fun s a => PInv_step a s)|exact PInv_init]. Qed.

  Theorem delivered_prefix : forall sched s i, run R route nops mx delay (init R input) sched = Some s -> i < nops ->
    exists later, expected kb route input i =
      delivered R s i ++ sndb (s_ops R s i) ++ jhand s i ++ o_batch (s_ops R s i) ++ later.
  Proof.
    intros sched s i Hr Hi. destruct (reachable_PInv _ _ Hr) as (mid & HI). eexists. symmetry. apply (pi_view s mid HI i Hi).
  Qed.

  Theorem delivered_exact : forall sched s i, run R route nops mx delay (init R input) sched = Some s -> i < nops ->
    drained R nops s = true -> delivered R s i = expected kb route input i.
  Proof.
    intros sched s i Hr Hi Hd. destruct (reachable_PInv _ _ Hr) as (mid & HI). rewrite <- (pi_view s mid HI i Hi).
    pose proof (pi_outq s mid HI) as Hq. unfold drained in Hd.
    destruct (s_todo R s); [|discriminate]. destruct (s_outq R s); [|discriminate]. destruct mid as [|[]]; [|discriminate..].
    destruct (s_work R s); [|discriminate]. destruct (s_pc R s); try discriminate.
    rewrite forallb_forall in Hd. assert (Ho : op_drained (s_ops R s i) = true) by (apply Hd, in_seq; lia).
    unfold op_drained in Ho. unfold local, sndb, delivered.
    destruct (o_batch (s_ops R s i)); [|discriminate]. destruct (o_snd (s_ops R s i)); try discriminate. cbn. now rewrite app_nil_r.
  Qed.
End PipeInv.
