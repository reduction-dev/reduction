(* C15 - the job state machine (Model/JobSM.v): an invariant of its reachable states, and the theorems of Props/C15.v
   proved for every state that has it. Operators and source runners are treated by one statement each, indexed by a
   boolean. A step either evaluates the cluster on the state [pre] (views [pre_view], [evaluated]) or acts on the snapshot store
   alone ([quiet], within [sto_ok]). Three machines: the job, the operator's checkpoint slot, its keyed state across
   redeployments. *)
From Coq Require Import List NArith Bool Lia Sorted.
From RV Require Import Model.JobSM.
From RV Require Import Base.Lists.
Import ListNotations.
Open Scope N_scope.

(* strictly ascending: the order of the registry's sorted maps, hence of every assembly *)
Definition sorted (l : list N) : Prop := StronglySorted N.lt l.

Lemma mem_In : forall x l, mem x l = true <-> In x l.
Proof. apply (existsb_eqb_In N.eqb N.eqb_eq). Qed.

Lemma In_ins : forall x y l, In y (ins x l) <-> y = x \/ In y l.
Proof.
  intros x y l. induction l as [|z t IH]; cbn [ins]; [cbn; intuition|].
  destruct (x <? z); [cbn; intuition|].
  destruct (N.eqb_spec x z) as [->|_]; cbn; [|rewrite IH]; intuition.
Qed.

Lemma sorted_ins : forall x l, sorted l -> sorted (ins x l).
Proof.
  intros x l H. induction H as [|z t Hs IH Hf]; cbn [ins]; [repeat constructor|].
  destruct (N.ltb_spec x z) as [L|L].
  - repeat constructor; [assumption.. |]. apply (Forall_impl _ (fun y Hy => N.lt_trans _ _ _ L Hy) Hf).
  - destruct (N.eqb_spec x z) as [_|E]; constructor; try assumption.
    apply Forall_forall. intros y Hy. apply In_ins in Hy. destruct Hy as [->|Hy]; [lia|].
    exact (proj1 (Forall_forall _ _) Hf y Hy).
Qed.

Lemma sorted_firstn : forall n l, sorted l -> sorted (firstn n l).
Proof.
  intros n l H. revert n. induction H as [|z t _ IH Hf]; intros [|n]; cbn [firstn]; constructor; [apply IH|].
  exact (incl_Forall (In_firstn n t) Hf).
Qed.

Lemma sorted_NoDup : forall l, sorted l -> NoDup l.
Proof. intros l. apply StronglySorted_NoDup, N.lt_irrefl. Qed.

Lemma In_rem : forall x y l, In y (rem x l) <-> In y l /\ y <> x.
Proof.
  intros x y l. unfold rem. rewrite filter_In, negb_true_iff, N.eqb_neq. tauto.
Qed.

Lemma In_tail : forall (A : Type) (x y : A) t, ~ In x t -> (In y t <-> In y (x :: t) /\ y <> x).
Proof.
  intros A x y t Hx. cbn [In]. split; [intros H; split; [auto | intros ->; exact (Hx H)]|].
  intros [[->|H] Hn]; [destruct (Hn eq_refl) | exact H].
Qed.

Lemma firstn_spec : forall n l, sorted l -> (n <= length l)%nat ->
  sorted (firstn n l) /\ length (firstn n l) = n /\ forall y, In y (firstn n l) -> In y l.
Proof. intros n l S L. split; [apply sorted_firstn, S | split; [apply firstn_length_le, L | apply In_firstn]]. Qed.

Lemma key_eqb_spec : forall a b, reflect (a = b) (key_eqb a b).
Proof.
  intros [a1 a2] [b1 b2]. unfold key_eqb. cbn [fst snd].
  destruct (eqb_spec a1 b1), (N.eqb_spec a2 b2); constructor; congruence.
Qed.

Lemma In_hb_set : forall k t m e, In e (hb_set k t m) <-> e = (k, t) \/ (In e m /\ fst e <> k).
Proof.
  intros k t m e. unfold hb_set. cbn [In]. rewrite filter_In.
  destruct (key_eqb_spec (fst e) k); cbn [negb]; intuition congruence.
Qed.

Lemma hb_get_In : forall k m t, hb_get k m = Some t -> In (k, t) m.
Proof.
  intros k m t H. unfold hb_get in H. destruct (find _ m) as [[k' t']|] eqn:F; [|discriminate].
  apply find_some in F. cbn [fst snd] in *. destruct F as [Hin Hk].
  destruct (key_eqb_spec k' k); congruence.
Qed.

Lemma hb_get_some : forall k m t, In (k, t) m -> exists t', hb_get k m = Some t'.
Proof.
  intros k m t Hin. unfold hb_get. destruct (find _ m) as [e|] eqn:F; [eexists; reflexivity|].
  apply find_none with (x := (k, t)) in F; [|exact Hin]. cbn [fst] in F. destruct (key_eqb_spec k k); congruence.
Qed.

(* registered and within the heartbeat deadline, in state s *)
Definition live_in (c : cfg) (s : st) (k : key) : Prop :=
  exists t, hb_get k (hb s) = Some t /\ now s <= t + deadline c.

Lemma unexpired_live : forall c s k t, (forall e, In e (hb s) -> expired c (now s) e = false) ->
  In (k, t) (hb s) -> live_in c s k.
Proof.
  intros c s k t U Hin. destruct (hb_get_some k _ t Hin) as [t' Ht']. exists t'. split; [exact Ht'|].
  apply N.ltb_ge, (U (k, t')), hb_get_In, Ht'.
Qed.

Lemma is_dead_spec : forall c s k, is_dead c s k = true <-> exists t, In (k, t) (hb s) /\ t + deadline c < now s.
Proof.
  intros c s k. unfold is_dead, expired. rewrite existsb_exists. split.
  - intros [[k' t] [H E]]. cbn [fst snd] in E. apply andb_true_iff in E. destruct E as [E1 E2].
    destruct (key_eqb_spec k' k); [subst k' | discriminate]. exists t. split; [exact H | apply N.ltb_lt, E2].
  - intros [t [H L]]. exists (k, t). split; [exact H|]. cbn [fst snd].
    destruct (key_eqb_spec k k); [apply N.ltb_lt, L | congruence].
Qed.

(* Operators and source runners are treated alike by the registry, the liveness map (first component of the key) and
   the assembly: [true] selects the operators' side of the state, [false] the runners'. *)
Definition reg (b : bool) (s : st) : list N := if b then ops s else srs s.
Definition asm (b : bool) (s : st) : list N := if b then a_ops s else a_srs s.
Definition flags (b : bool) (p : pending) : list (N * bool) := if b then p_ops p else p_srs p.
Definition chosen (b : bool) (c : cfg) (s : st) : list N := if b then choose_ops c s else choose_srs c s.

Definition reg_ok (b : bool) (l : list N) (h : hbmap) : Prop :=
  sorted l /\ forall n, In n l -> exists t, In ((b, n), t) h.

Lemma reg_ok_hb_set : forall b l h k t, reg_ok b l h -> reg_ok b l (hb_set k t h).
Proof.
  intros b l h k t [S C]. split; [exact S|]. intros n Hn. destruct (C n Hn) as [t' Ht'].
  destruct (key_eqb_spec (b, n) k) as [<-|Hk]; [exists t | exists t']; apply In_hb_set; auto.
Qed.

Lemma reg_ok_ins : forall b n l h t, reg_ok b l h -> reg_ok b (ins n l) (hb_set (b, n) t h).
Proof.
  intros b n l h t H. destruct (reg_ok_hb_set b l h (b, n) t H) as [S C]. split; [apply sorted_ins, S|].
  intros m Hm. apply In_ins in Hm. destruct Hm as [->|Hm]; [exists t; apply In_hb_set; auto | exact (C m Hm)].
Qed.

Lemma reg_ok_filter : forall b f l h, reg_ok b l h -> reg_ok b (filter f l) h.
Proof. intros b f l h [S C]. split; [apply StronglySorted_filter, S|]. intros n Hn. apply filter_In in Hn. apply C, Hn. Qed.

Lemma reg_purge : forall b c s, reg b (purge c s) = filter (fun n => negb (is_dead c s (b, n))) (reg b s).
Proof. intros [|] c s; reflexivity. Qed.

Lemma reg_ok_purge : forall b c s, reg_ok b (reg b s) (hb s) -> reg_ok b (reg b (purge c s)) (hb (purge c s)).
Proof.
  intros b c s H. rewrite reg_purge. destruct (reg_ok_filter b (fun n => negb (is_dead c s (b, n))) _ _ H) as [S C].
  split; [exact S|]. intros n Hn. destruct (C n Hn) as [t Ht]. exists t. apply filter_In. split; [exact Ht|].
  apply filter_In in Hn. destruct Hn as [_ Hd]. destruct (expired c (now s) ((b, n), t)) eqn:X; [|reflexivity].
  rewrite (proj2 (is_dead_spec c s (b, n))) in Hd; [discriminate|]. exists t. split; [exact Ht | apply N.ltb_lt, X].
Qed.

Lemma purge_unexpired : forall c s e, In e (hb (purge c s)) -> expired c (now (purge c s)) e = false.
Proof. intros c s e H. apply filter_In in H. apply negb_true_iff, H. Qed.

Lemma sortedb_sorted : forall l, sortedb l = true -> sorted l.
Proof.
  intros l H. apply Sorted_StronglySorted; [intros x y z; apply N.lt_trans|].
  induction l as [|x [|y t] IH]; [repeat constructor..|]. cbn [sortedb] in H. apply andb_true_iff in H.
  constructor; [apply IH, H | constructor; apply N.ltb_lt, H].
Qed.

Lemma admissible_spec : forall w reg chosen, admissible w reg chosen = true ->
  sorted chosen /\ length chosen = w /\ forall n, In n chosen -> In n reg.
Proof.
  intros w reg chosen H. unfold admissible in H. rewrite !andb_true_iff, forallb_forall in H. destruct H as [[H1 H2] H3].
  split; [apply sortedb_sorted, H1|]. split; [apply PeanoNat.Nat.eqb_eq, H2|]. intros n Hn. apply mem_In, H3, Hn.
Qed.

Lemma chosen_spec : forall b c s, sorted (reg b s) -> (wc c <= length (reg b s))%nat ->
  sorted (chosen b c s) /\ length (chosen b c s) = wc c /\ forall n, In n (chosen b c s) -> In n (reg b s).
Proof.
  intros b c s S L. pose proof (firstn_spec _ _ S L) as D.
  destruct b; unfold chosen, choose_ops, choose_srs; cbn [reg] in *; destruct (pick s) as [[co cr]|]; try exact D.
  - destruct (admissible (wc c) (ops s) co) eqn:A; [apply admissible_spec, A | exact D].
  - destruct (admissible (wc c) (srs s) cr) eqn:A; [apply admissible_spec, A | exact D].
Qed.

Set Implicit Arguments.
(* The store fits the job, of which it reads whether it has left Init ([up]) and the assembly. [w] is [writing s], the
   id whose file write is in progress (0 if none): it was handed out, hence [so_wr], and whatever is pending was
   created after it, hence the strict [pd_wr]. The guarded clauses hold of the repaired code only: every start registers
   its splitter in place of the previous one and aborts the snapshot the lost assembly left pending, so what is pending
   awaits exactly the members of the assembly. *)
Record pend_fits (c : cfg) (ao ar : list N) (so : store) (w : N) (p : pending) : Prop := MkPendFits {
  pd_id : p_id p = ctr so;
  pd_done : completed so < ctr so;
  pd_wr : w < ctr so;
  pd_members : q_keep_pending (qk c) = false -> q_keep_savepoint (qk c) = false ->
               forall b, map fst (flags b p) = if b then ao else ar
}.

Record sto_fits (c : cfg) (up : Prop) (ao ar : list N) (so : store) (w : N) : Prop := MkStoFits {
  so_done : completed so <= ctr so;
  so_wr : w <= ctr so;
  so_spl : q_splitters_accumulate (qk c) = false -> up -> splitters so = 1;
  so_pend : forall p, pend so = Some p -> pend_fits c ao ar so w p
}.
Unset Implicit Arguments.

(* stated over the components, so that it is the same proposition for states that differ in what it does not read *)
Definition sto_ok (c : cfg) (s : st) : store -> N -> Prop := sto_fits c (stat s <> Init) (a_ops s) (a_srs s).

Lemma sto_ok_up : forall c (up up' : Prop) ao ar so w, (up' -> up) -> sto_fits c up ao ar so w -> sto_fits c up' ao ar so w.
Proof. intros c up up' ao ar so w H [D W Sp P]. constructor; auto. Qed.

Lemma sto_ok_repend : forall c s so w p p', sto_ok c s so w -> pend so = Some p ->
  p_id p' = p_id p -> (forall b, map fst (flags b p') = map fst (flags b p)) ->
  sto_ok c s (MkStore (Some p') (completed so) (ctr so) (splitters so)) w.
Proof.
  intros c s so w p p' S Hp Ei Ek. destruct (so_pend S Hp) as [Pi Pd Pw Pm].
  constructor; [apply S.. |]. intros q [= <-]. constructor; [cbn; congruence | exact Pd | exact Pw |].
  intros Q1 Q2 b. rewrite Ek. exact (Pm Q1 Q2 b).
Qed.

Lemma sto_ok_nopend : forall c s so w x w', sto_ok c s so w -> x <= ctr so -> w' <= ctr so ->
  sto_ok c s (MkStore None x (ctr so) (splitters so)) w'.
Proof. intros c s so w x w' S X W. constructor; [exact X | exact W | apply S | discriminate]. Qed.

(* the held write returns: [completed] becomes the id written, or stays *)
Lemma sto_ok_written : forall c s so w so', sto_ok c s so w ->
  pend so' = pend so -> ctr so' = ctr so -> splitters so' = splitters so ->
  completed so' = w \/ completed so' = completed so -> sto_ok c s so' 0.
Proof.
  intros c s so w so' [D W Sp P] Ep Ec Es Ex. constructor; rewrite ?Ec, ?Es, ?Ep; [lia | lia | exact Sp |].
  intros p Hp. destruct (P p Hp) as [Pi Pd Pw Pm]. constructor; rewrite ?Ec; [exact Pi | lia | lia | exact Pm].
Qed.

(* [i_reg]: the registry is ascending and every registered node has a heartbeat entry (after a purge: an unexpired one,
   [purge_all_live]); [i_asm]: once the job has left Init its assembly has WorkerCount ascending members of each kind
   (before, it is empty); [i_tk]: the statement of Props.C15.ticker_armed_iff_running; [i_sto]: see [sto_fits]. *)
Record Inv (c : cfg) (s : st) : Prop := MkInv {
  i_reg : forall b, reg_ok b (reg b s) (hb s);
  i_asm : stat s <> Init -> forall b, length (asm b s) = wc c /\ sorted (asm b s);
  i_tk : q_ticker_once (qk c) = false -> (ticker s = 1 <-> stat s = Running);
  i_sto : sto_ok c s (sto s) (writing s)
}.

Lemma inv_init : forall c, Inv c init.
Proof.
  intros c. constructor; cbn; try easy.
  intros []; split; [constructor | easy | constructor | easy].
Qed.

Lemma purge_inv : forall c s, Inv c s -> Inv c (purge c s).
Proof.
  intros c s [Hreg Hasm Htk Hsto]. constructor; auto. intros b; apply reg_ok_purge; auto.
Qed.

Lemma tk_stop_ne1 : forall t, tk_stop t <> 1.
Proof. intros t. unfold tk_stop. destruct (t =? 0); discriminate. Qed.

Lemma with_stat_inv : forall c s x tk, Inv c s -> stat s <> Init ->
  (q_ticker_once (qk c) = false -> (tk = 1 <-> x = Running)) ->
  Inv c (MkSt (now s) (ops s) (srs s) (hb s) x (a_ops s) (a_srs s) (dep_ck s) (sto s) tk (holdw s) (writing s) (pick s)).
Proof.
  intros c s x tk [Hreg Hasm Htk Hsto] Hn T. constructor; try assumption; [intros _; exact (Hasm Hn)|].
  exact (sto_ok_up c _ _ _ _ _ _ (fun _ => Hn) Hsto).
Qed.

Lemma set_stat_inv : forall c s, Inv c s -> stat s <> Init -> Inv c (set_stat s Paused).
Proof.
  intros c s I Hn. apply with_stat_inv; [assumption..|].
  intros _. split; [intros T; destruct (tk_stop_ne1 _ T) | discriminate].
Qed.

Lemma go_running_inv : forall c s, Inv c s -> stat s <> Init -> Inv c (go_running c s).
Proof.
  intros c s I Hn. apply with_stat_inv; [assumption..|].
  intros Q. unfold tk_arm. rewrite Q. split; reflexivity.
Qed.

Definition enough (c : cfg) (s : st) : Prop := forall b, (wc c <= length (reg b s))%nat.

Lemma start_begin_asm : forall b c s, asm b (fst (start_begin c s)) = chosen b c s.
Proof. intros [|] c s; reflexivity. Qed.

Lemma start_begin_inv : forall c s, Inv c s -> stat s <> Running -> enough c s -> Inv c (fst (start_begin c s)).
Proof.
  intros c s [Hreg Hasm Htk Hsto] Hnr E.
  assert (K : forall p, pend (sto (fst (start_begin c s))) = Some p -> pend (sto s) = Some p /\
                        (q_keep_pending (qk c) = false -> q_keep_savepoint (qk c) = false -> False)).
  { cbn. intros p. destruct (q_keep_pending (qk c)); [easy|]. destruct (pend (sto s)) as [p0|]; [|easy].
    destruct (q_keep_savepoint (qk c)); [|easy]. destruct (p_sp p0); easy. }
  constructor; auto.
  - (* i_asm *) intros _ b. rewrite start_begin_asm. destruct (chosen_spec b c s (proj1 (Hreg b)) (E b)) as [S [L _]]. auto.
  - (* i_tk *) intros Q. split; [|discriminate]. intros T. apply (Htk Q) in T. contradiction.
  - (* i_sto *) destruct Hsto as [D W _ P]. constructor; [exact D | exact W | intros Q _; cbn; rewrite Q; reflexivity |].
    intros p Hp. destruct (K p Hp) as [Hp' Kq]. destruct (P p Hp') as [Pi Pd Pw _].
    constructor; [exact Pi | exact Pd | exact Pw |]. intros Q1 Q2. destruct (Kq Q1 Q2).
Qed.

Definition waiting (s : st) : Prop := stat s = Init \/ stat s = Paused.

(* [w] is the state in which the evaluation of [s] looks for a new assembly *)
Definition halted (c : cfg) (s w : st) : Prop :=
  waiting s /\ w = purge c s \/ stat s = Running /\ healthy (purge c s) = false /\ w = set_stat (purge c s) Paused.

(* [ev_halts]: only a waiting job is known to be short of nodes; a Running job that pauses stays paused, whatever is
   registered, when no choice is supplied (the next assembly is formed at the next event, as in job.go) *)
Inductive evaluated (c : cfg) (s : st) : st * list dep -> Prop :=
| ev_settled : stat s = Starting \/ stat s = Running /\ healthy (purge c s) = true -> evaluated c s (purge c s, [])
| ev_halts : forall w, halted c s w ->
    (waiting s -> (length (ops w) < wc c)%nat \/ (length (srs w) < wc c)%nat) -> evaluated c s (w, [])
| ev_starts : forall w, halted c s w -> enough c w -> evaluated c s (start_begin c w).

Lemma evaluate_spec : forall c s, evaluated c s (evaluate c s).
Proof.
  intros c s. unfold evaluate. set (sp := purge c s). change (stat sp) with (stat s).
  assert (T : forall w, halted c s w -> evaluated c s (try_assemble c w)).
  { intros w Hw. unfold try_assemble.
    destruct (PeanoNat.Nat.ltb_spec (length (srs w)) (wc c)); [apply ev_halts; auto|].
    destruct (PeanoNat.Nat.ltb_spec (length (ops w)) (wc c)); [apply ev_halts; auto|].
    apply ev_starts; [exact Hw | intros []; assumption]. }
  destruct (stat s) eqn:E.
  - apply T. left. split; [left; exact E | reflexivity].
  - apply T. left. split; [right; exact E | reflexivity].
  - apply ev_settled. auto.
  - destruct (healthy sp) eqn:Hh; [apply ev_settled; auto|].
    assert (Hw : halted c s (set_stat sp Paused)) by (right; auto).
    destruct (pick sp); [exact (T _ Hw) | apply ev_halts; [exact Hw | intros [W|W]; congruence]].
Qed.

(* a waiting job evaluates in two ways only: it stays as purged, short of nodes, or starts from the purged state *)
Lemma evaluate_waiting : forall c s, waiting s ->
  (evaluate c s = (purge c s, []) /\ ((length (ops (purge c s)) < wc c)%nat \/ (length (srs (purge c s)) < wc c)%nat)) \/
  (evaluate c s = start_begin c (purge c s) /\ enough c (purge c s)).
Proof.
  intros c s W. destruct (evaluate_spec c s) as [[S|[R _]] | w Hw H | w Hw E].
  - (* settled while Starting *) destruct W; congruence.
  - (* settled while Running *) destruct W; congruence.
  - (* halts *) destruct Hw as [[_ ->]|[R _]]; [left; split; [reflexivity | exact (H W)] | destruct W; congruence].
  - (* starts *) destruct Hw as [[_ ->]|[R _]]; [right; split; [reflexivity | exact E] | destruct W; congruence].
Qed.

Definition all_live (c : cfg) (s : st) : Prop := forall b n, In n (reg b s) -> live_in c s (b, n).

Lemma purge_all_live : forall c s, Inv c s -> all_live c (purge c s).
Proof.
  intros c s I b n Hn. destruct (i_reg _ _ (purge_inv _ _ I) b) as [_ C]. destruct (C n Hn) as [t Ht].
  exact (unexpired_live c _ _ t (purge_unexpired c s) Ht).
Qed.

Lemma halted_inv : forall c s w, Inv c s -> halted c s w -> Inv c w /\ all_live c w /\ waiting w.
Proof.
  intros c s w I [[W ->]|[R [_ ->]]]; (split; [|split; [exact (purge_all_live c s I)|]]).
  - apply purge_inv, I.
  - exact W.
  - apply set_stat_inv; [apply purge_inv, I | cbn; congruence].
  - right. reflexivity.
Qed.

Lemma evaluate_inv : forall c s, Inv c s -> Inv c (fst (evaluate c s)).
Proof.
  intros c s I. destruct (evaluate_spec c s) as [_ | w Hw _ | w Hw E]; [apply purge_inv, I | apply (halted_inv c s w I Hw) |].
  destruct (halted_inv c s w I Hw) as [Iw [_ W]]. apply start_begin_inv; [exact Iw | destruct W; congruence | exact E].
Qed.

Lemma with_sto_inv : forall c s nw so h w pk, Inv c s -> sto_ok c s so w ->
  Inv c (MkSt nw (ops s) (srs s) (hb s) (stat s) (a_ops s) (a_srs s) (dep_ck s) so (ticker s) h w pk).
Proof.
  intros c s nw so h w pk [Hreg Hasm Htk Hsto] S. constructor; assumption.
Qed.

(* [s] with the registry [l] on side [b] and the heartbeats [h] *)
Definition with_reg (s : st) (b : bool) (l : list N) (h : hbmap) : st :=
  MkSt (now s) (if b then l else ops s) (if b then srs s else l) h (stat s) (a_ops s) (a_srs s) (dep_ck s) (sto s)
       (ticker s) (holdw s) (writing s) (pick s).

Lemma reg_with_reg : forall s b l h, reg b (with_reg s b l h) = l.
Proof. intros s [] l h; reflexivity. Qed.

Lemma with_reg_inv : forall c s b l h, Inv c s -> reg_ok b l h -> reg_ok (negb b) (reg (negb b) s) h ->
  Inv c (with_reg s b l h).
Proof.
  intros c s b l h [Hreg Hasm Htk Hsto] R R'. constructor; try assumption. intros b'.
  destruct b, b'; assumption.
Qed.

Lemma mark_keys : forall x l l', mark x l = Some l' -> map fst l' = map fst l.
Proof.
  intros x l. induction l as [|[y b] t IH]; intros l' H; cbn [mark] in H; [discriminate|].
  destruct (x =? y).
  - destruct b; [discriminate|]. injection H as <-. reflexivity.
  - destruct (mark x t) as [t'|]; [|discriminate]. injection H as <-. cbn [map fst]. rewrite (IH t' eq_refl). reflexivity.
Qed.

Definition marked (b : bool) (p : pending) (l : list (N * bool)) : pending :=
  if b then MkPending (p_id p) l (p_srs p) (p_sp p) else MkPending (p_id p) (p_ops p) l (p_sp p).

Lemma flags_marked : forall b b' p l, flags b' (marked b p l) = if Bool.eqb b' b then l else flags b' p.
Proof. intros [] [] p l; reflexivity. Qed.

(* AddOperatorSnapshot and AddSourceSnapshot differ only in what an unknown or repeated sender does *)
Lemma ack_eq : forall (b : bool) so n id, (if b then ack_op else ack_sr) so n id =
  match pend so with
  | Some p => if p_id p =? id
              then match mark n (flags b p) with
                   | Some l => finish_if_complete so (marked b p l)
                   | None => if b then finish_if_complete so p else (so, 1, 0)
                   end
              else (so, 1, 0)
  | None => (so, 1, 0)
  end.
Proof.
  intros [] so n id; [unfold ack_op | unfold ack_sr]; (destruct (pend so) as [p|]; [|reflexivity]);
    (destruct (p_id p =? id); [|reflexivity]); cbn [negb flags]; destruct (mark n _); reflexivity.
Qed.

(* what a step does to the current checkpoint [old]: it publishes nothing ([pub] = 0) and leaves it, or publishes a newer
   id, which becomes current *)
Definition pub_cases (old new pub : N) : Prop :=
  (pub = 0 /\ new = old) \/ (pub <> 0 /\ new = pub /\ old < pub).

Lemma pub_none : forall x, pub_cases x x 0.
Proof. intros x. left. auto. Qed.

Lemma pub_cases_newer : forall old new pub, pub_cases old new pub -> old <= new /\ (pub <> 0 -> new = pub /\ old < pub).
Proof. intros old new pub [[P ->]|[P [-> L]]]; split; try lia; easy. Qed.

(* what an acknowledgement does to a store that fits the job: it leaves the current checkpoint (accepted or not), or
   it was the last one awaited and the pending id, the counter, becomes current *)
Inductive ack_post (c : cfg) (s : st) (so : store) (w : N) : store * N * N -> Prop :=
| ack_kept : forall so' r, sto_ok c s so' w -> completed so' = completed so -> ack_post c s so w (so', r, 0)
| ack_finished : forall so' r pub, sto_ok c s so' w -> pend so' = None -> completed so' = pub -> pub = ctr so' ->
    completed so < pub -> ack_post c s so w (so', r, pub).

Lemma ack_spec : forall (b : bool) c s so w n id,
  sto_ok c s so w -> ack_post c s so w ((if b then ack_op else ack_sr) so n id).
Proof.
  intros b c s so w n id S. rewrite ack_eq.
  (* R: the ack is refused; F: the snapshot p', with the members of p, is looked at for completeness *)
  assert (R : ack_post c s so w (so, 1, 0)) by (apply ack_kept; auto).
  destruct (pend so) as [p|] eqn:Hp; [|exact R]. destruct (p_id p =? id); [|exact R].
  assert (F : forall p', p_id p' = p_id p -> (forall b', map fst (flags b' p') = map fst (flags b' p)) ->
              ack_post c s so w (finish_if_complete so p')).
  { intros p' Ei Ek.
    assert (Kp : forall r, ack_post c s so w (MkStore (Some p') (completed so) (ctr so) (splitters so), r, 0))
      by (intros r; apply ack_kept; [exact (sto_ok_repend c s so w p p' S Hp Ei Ek) | reflexivity]).
    unfold finish_if_complete. destruct (complete p'); [|apply Kp]. destruct (splitters so =? 1); [|apply Kp].
    destruct (so_pend S Hp) as [Pi Pd _ _].
    apply ack_finished; cbn; [apply (sto_ok_nopend c s so w); [exact S | lia | apply S] | reflexivity.. | congruence | lia]. }
  destruct (mark n (flags b p)) as [l|] eqn:M.
  - (* accepted: the sender's flag is set *) apply F; [destruct b; reflexivity|].
    intros b'. rewrite flags_marked. destruct (eqb_spec b' b) as [->|]; [exact (mark_keys _ _ _ M) | reflexivity].
  - (* unknown or repeated sender: an operator's ack is only logged and p looked at again, a runner's is refused *)
    destruct b; [exact (F p eq_refl (fun _ => eq_refl)) | exact R].
Qed.

Definition ack (b : bool) (n id : N) : op := if b then OAckOp n id else OAckSr n id.

Lemma step_ack : forall b c s n id,
  step c s (ack b n id) = let '(so, res, pub) := (if b then ack_op else ack_sr) (sto s) n id in after_ack s so res pub.
Proof. intros [] c s n id; reflexivity. Qed.

Lemma ack_step : forall b c s n id, Inv c s ->
  Inv c (fst (step c s (ack b n id))) /\
  pub_cases (completed (sto s)) (completed (sto (fst (step c s (ack b n id))))) (o_published (snd (step c s (ack b n id)))).
Proof.
  intros b c s n id I. rewrite step_ack.
  destruct (ack_spec b c s _ _ n id (i_sto _ _ I)) as [so r K E | so r pub K Pn Pc Pp L]; unfold after_ack.
  - rewrite andb_false_r. cbn. rewrite E. split; [apply with_sto_inv; assumption | apply pub_none].
  - destruct (N.eqb_spec pub 0) as [|_]; [lia|]. cbn [negb]. rewrite andb_true_r. destruct (holdw s); cbn.
    + (* the write gate is armed and the ack completes the snapshot: it is being written, nothing is published yet *)
      split; [apply with_sto_inv; [exact I|] | apply pub_none].
      rewrite Pn. apply (sto_ok_nopend c s so (writing s)); [exact K | lia | lia].
    + split; [apply with_sto_inv; assumption | right]. repeat split; lia.
Qed.

(* [pre c s o] is the state on which evaluateClusterStatus runs in step [o] (None: the step evaluates nothing) *)
Definition pre (c : cfg) (s : st) (o : op) : option st :=
  match o with
  | ORegOp n => Some (MkSt (now s) (ins n (ops s)) (srs s) (hb_set (true, n) (now s) (hb s)) (stat s) (a_ops s) (a_srs s) (dep_ck s) (sto s) (ticker s) (holdw s) (writing s) (pick s))
  | ORegSr n => Some (MkSt (now s) (ops s) (ins n (srs s)) (hb_set (false, n) (now s) (hb s)) (stat s) (a_ops s) (a_srs s) (dep_ck s) (sto s) (ticker s) (holdw s) (writing s) (pick s))
  | ODeregOp n => Some (MkSt (now s) (rem n (ops s)) (srs s) (hb s) (stat s) (a_ops s) (a_srs s) (dep_ck s) (sto s) (ticker s) (holdw s) (writing s) (pick s))
  | ODeregSr n => Some (MkSt (now s) (ops s) (rem n (srs s)) (hb s) (stat s) (a_ops s) (a_srs s) (dep_ck s) (sto s) (ticker s) (holdw s) (writing s) (pick s))
  | OFin ok => match stat s with
               | Starting => Some (if ok then go_running c s else set_stat s Paused)
               | _ => None
               end
  | _ => None
  end.

Definition reg_op (b : bool) (n : N) : op := if b then ORegOp n else ORegSr n.
Definition dereg_op (b : bool) (n : N) : op := if b then ODeregOp n else ODeregSr n.

(* the operations that evaluate, and the state they evaluate on: a registration (= heartbeat), a deregistration, and
   the end of a start, which evaluates only while Starting *)
Inductive pre_view (c : cfg) (s : st) : op -> st -> Prop :=
| pv_reg : forall b n, pre_view c s (reg_op b n) (with_reg s b (ins n (reg b s)) (hb_set (b, n) (now s) (hb s)))
| pv_dereg : forall b n, pre_view c s (dereg_op b n) (with_reg s b (rem n (reg b s)) (hb s))
| pv_fin : forall ok, stat s = Starting -> pre_view c s (OFin ok) (if ok then go_running c s else set_stat s Paused).

Lemma pre_spec : forall c s o s1, pre c s o = Some s1 -> pre_view c s o s1.
Proof.
  intros c s o s1 H. destruct o as [n|n|n|n|ms|ok| | |n id|n id| | |co cr]; try discriminate H.
  - (* ORegOp *) injection H as <-. exact (pv_reg c s true n).
  - (* ORegSr *) injection H as <-. exact (pv_reg c s false n).
  - (* ODeregOp *) injection H as <-. exact (pv_dereg c s true n).
  - (* ODeregSr *) injection H as <-. exact (pv_dereg c s false n).
  - (* OFin *) cbn [pre] in H. destruct (stat s) eqn:E; try discriminate H. injection H as <-. exact (pv_fin c s ok E).
Qed.

Lemma pre_dereg : forall c s b n, pre c s (dereg_op b n) = Some (with_reg s b (rem n (reg b s)) (hb s)).
Proof. intros c s [] n; reflexivity. Qed.

Lemma step_eval : forall c s o s1, pre c s o = Some s1 ->
  fst (step c s o) = fst (evaluate c s1) /\
  o_deps (snd (step c s o)) = snd (evaluate c s1) /\
  o_status (snd (step c s o)) = status_code (stat (fst (evaluate c s1))) /\
  o_published (snd (step c s o)) = 0.
Proof.
  intros c s o s1 H. destruct (pre_spec c s o s1 H) as [b n|b n|ok E].
  - (* registration *) destruct b; cbn [step reg_op with_reg reg]; destruct (evaluate c _) as [s2 ds]; cbn; auto.
  - (* deregistration *) destruct b; cbn [step dereg_op with_reg reg]; destruct (evaluate c _) as [s2 ds]; cbn; auto.
  - (* end of a start *) cbn [step]. rewrite E. destruct ok; destruct (evaluate c _) as [s2 ds]; cbn; auto.
Qed.

Lemma pre_frame : forall c s o s1, pre c s o = Some s1 ->
  now s1 = now s /\ sto s1 = sto s /\ pick s1 = pick s /\ (forall b, asm b s1 = asm b s) /\
  (stat s <> Starting -> stat s1 = stat s).
Proof.
  intros c s o s1 H. destruct (pre_spec c s o s1 H) as [b n|b n|ok E].
  - (* registration *) repeat split.
  - (* deregistration *) repeat split.
  - (* end of a start *) destruct ok; repeat split; try congruence; intros []; reflexivity.
Qed.

Lemma pre_inv : forall c s o s1, Inv c s -> pre c s o = Some s1 -> Inv c s1.
Proof.
  intros c s o s1 I H. destruct (pre_spec c s o s1 H) as [b n|b n|ok E].
  - (* registration *) apply with_reg_inv; [exact I | apply reg_ok_ins | apply reg_ok_hb_set]; apply (i_reg _ _ I).
  - (* deregistration *) apply with_reg_inv; [exact I | apply reg_ok_filter |]; apply (i_reg _ _ I).
  - (* end of a start *) destruct ok; [apply go_running_inv | apply set_stat_inv]; try exact I; congruence.
Qed.

(* the store after CreateCheckpoint / CreateSavepoint found nothing pending *)
Definition fresh_pending (s : st) (sp : bool) : store :=
  MkStore (Some (MkPending (ctr (sto s) + 1) (map (fun n => (n, false)) (a_ops s)) (map (fun n => (n, false)) (a_srs s)) sp))
          (completed (sto s)) (ctr (sto s) + 1) (splitters (sto s)).

Lemma map_fst_false : forall l : list N, map fst (map (fun n => (n, false)) l) = l.
Proof. intros l. rewrite map_map. apply map_id. Qed.

Lemma sto_ok_fresh : forall c s sp, sto_ok c s (sto s) (writing s) -> sto_ok c s (fresh_pending s sp) (writing s).
Proof.
  intros c s sp [D W Sp _]. constructor; cbn; [lia | lia | exact Sp |].
  intros p [= <-]. constructor; cbn; [reflexivity | lia | lia |]. intros _ _ []; apply map_fst_false.
Qed.

(* A step that evaluates nothing deploys nothing and leaves registry, heartbeats, status and assembly alone; it acts on
   the store within [sto_ok] and publishes newer checkpoints only. *)
Record quiet (c : cfg) (s : st) (r : st * obs) : Prop := MkQuiet {
  qt_deps : o_deps (snd r) = [];
  qt_job : stat (fst r) = stat s /\ ops (fst r) = ops s /\ srs (fst r) = srs s /\ hb (fst r) = hb s /\
           a_ops (fst r) = a_ops s /\ a_srs (fst r) = a_srs s;
  qt_inv : Inv c s -> Inv c (fst r);
  qt_pub : Inv c s -> q_install_superseded (qk c) = false ->
           pub_cases (completed (sto s)) (completed (sto (fst r))) (o_published (snd r))
}.

Lemma quiet_sto : forall c s nw so h w pk b, o_deps b = [] -> (Inv c s -> sto_ok c s so w) ->
  (Inv c s -> q_install_superseded (qk c) = false -> pub_cases (completed (sto s)) (completed so) (o_published b)) ->
  quiet c s (MkSt nw (ops s) (srs s) (hb s) (stat s) (a_ops s) (a_srs s) (dep_ck s) so (ticker s) h w pk, b).
Proof. intros c s nw so h w pk b D S P. constructor; cbn; auto 10. intros I. apply with_sto_inv; auto. Qed.

Lemma quiet_same : forall c s b, o_deps b = [] -> o_published b = 0 -> quiet c s (s, b).
Proof. intros c s b D P. constructor; cbn; auto 10. intros _ _. rewrite P. apply pub_none. Qed.

Lemma fin_quiet : forall c s ok, pre c s (OFin ok) = None -> quiet c s (step c s (OFin ok)).
Proof.
  intros c s ok P. cbn [pre] in P. cbn [step]. destruct (stat s); try discriminate P; apply quiet_same; reflexivity.
Qed.

Lemma tick_quiet : forall c s, quiet c s (step c s OTick).
Proof.
  intros c s. cbn [step]. destruct (ticker s =? 1); [|apply quiet_same; reflexivity].
  unfold create_checkpoint. destruct (pend (sto s)); [apply quiet_same; reflexivity|].
  apply quiet_sto; [reflexivity | intros I; apply sto_ok_fresh, I | intros _ _; apply pub_none].
Qed.

Lemma savepoint_quiet : forall c s, quiet c s (step c s OSavepoint).
Proof.
  intros c s. cbn [step]. destruct (stat s); try (apply quiet_same; reflexivity).
  unfold create_savepoint. destruct (pend (sto s)) as [p|] eqn:Hp.
  - destruct (p_sp p); [apply quiet_same; reflexivity|].
    apply quiet_sto; [reflexivity | | intros _ _; apply pub_none].
    intros I. apply (sto_ok_repend c s _ _ p); [apply I | exact Hp | reflexivity | intros []; reflexivity].
  - apply quiet_sto; [reflexivity | intros I; apply sto_ok_fresh, I | intros _ _; apply pub_none].
Qed.

Lemma ack_quiet : forall b c s n id, quiet c s (step c s (ack b n id)).
Proof.
  intros b c s n id. constructor.
  - (* qt_deps *) rewrite step_ack. destruct (_ (sto s) n id) as [[so r] pub]. unfold after_ack. destruct (holdw s && _); reflexivity.
  - (* qt_job *) rewrite step_ack. destruct (_ (sto s) n id) as [[so r] pub]. unfold after_ack. destruct (holdw s && _); cbn; auto 10.
  - (* qt_inv *) intros I. apply (ack_step b c s n id I).
  - (* qt_pub *) intros I _. apply (ack_step b c s n id I).
Qed.

Lemma holdw_quiet : forall c s, quiet c s (step c s OHoldW).
Proof.
  intros c s. cbn [step]. destruct (N.eqb_spec (writing s) 0) as [W|_]; [|apply quiet_same; reflexivity].
  apply quiet_sto; [reflexivity | rewrite <- W; apply i_sto | intros _ _; apply pub_none].
Qed.

(* the snapshot of a write that returns late is not installed over a newer one *)
Lemma releasew_quiet : forall c s, quiet c s (step c s OReleaseW).
Proof.
  intros c s. cbn [step]. destruct (N.eqb_spec (writing s) 0) as [_|W]; [apply quiet_same; reflexivity|].
  apply quiet_sto; [reflexivity | |].
  - intros I. destruct (_ || _); apply (sto_ok_written c s (sto s) (writing s)); cbn; auto; apply I.
  - intros _ Q. rewrite Q. cbn [orb]. destruct (N.ltb_spec (completed (sto s)) (writing s)); [right | left]; auto.
Qed.

Lemma step_quiet : forall c s o, pre c s o = None -> quiet c s (step c s o).
Proof.
  intros c s o P. destruct o as [n|n|n|n|ms|ok| | |n id|n id| | |co cr]; try discriminate P.
  - (* OAdv: only the clock moves *) apply quiet_sto; [reflexivity | apply i_sto | intros _ _; apply pub_none].
  - apply fin_quiet, P.
  - apply tick_quiet.
  - apply savepoint_quiet.
  - apply (ack_quiet true).
  - apply (ack_quiet false).
  - apply holdw_quiet.
  - apply releasew_quiet.
  - (* OChoose: only the choice is set *) apply quiet_sto; [reflexivity | apply i_sto | intros _ _; apply pub_none].
Qed.

Lemma step_inv : forall c s o, Inv c s -> Inv c (fst (step c s o)).
Proof.
  intros c s o I. destruct (pre c s o) as [s1|] eqn:P; [|exact (qt_inv _ _ _ (step_quiet c s o P) I)].
  rewrite (proj1 (step_eval c s o s1 P)). apply evaluate_inv. eapply pre_inv; eauto.
Qed.

Lemma run_cons : forall c s o t,
  run c s (o :: t) = (fst (run c (fst (step c s o)) t), snd (step c s o) :: snd (run c (fst (step c s o)) t)).
Proof. intros c s o t. cbn [run]. destruct (step c s o) as [s1 b]. cbn [fst snd]. destruct (run c s1 t). reflexivity. Qed.

(* the state of a run is a left fold of [step]: [run_inv] takes its invariant from Base's [fold_left_inv] through it *)
Lemma run_fst_app : forall c l s, fst (run c s l) = fold_left (fun s o => fst (step c s o)) l s.
Proof.
  intros c l. induction l as [|o t IH]; intros s; [reflexivity|]. rewrite run_cons. apply IH.
Qed.

Lemma run_inv : forall c l s, Inv c s -> Inv c (fst (run c s l)).
Proof. intros c l s. rewrite run_fst_app. apply fold_left_inv. intros s1 o. apply step_inv. Qed.

Lemma exec_inv : forall c l, Inv c (exec c l).
Proof. intros c l. apply run_inv, inv_init. Qed.

(* what every deployment [d] that a step emits satisfies, read in the state [s'] AFTER the step *)
Record dep_ok (c : cfg) (s' : st) (d : dep) : Prop := MkDepOk {
  k_stat : stat s' = Starting;
  k_dep : d = MkDep (a_ops s') (a_srs s') (map (fun _ => completed (sto s')) (a_ops s')) true;
  k_depck : dep_ck s' = completed (sto s');
  k_asm : forall b, length (asm b s') = wc c /\ NoDup (asm b s') /\
                    forall n, In n (asm b s') -> In n (reg b s') /\ live_in c s' (b, n);
  k_pend : q_keep_pending (qk c) = false -> q_keep_savepoint (qk c) = false -> pend (sto s') = None
}.

Lemma start_begin_deps : forall c s d, Inv c s -> all_live c s -> enough c s ->
  In d (snd (start_begin c s)) -> dep_ok c (fst (start_begin c s)) d.
Proof.
  intros c s d I F E [<-|[]]. constructor; try reflexivity.
  - intros b. rewrite start_begin_asm. destruct (chosen_spec b c s (proj1 (i_reg _ _ I b)) (E b)) as [S [L C]].
    split; [exact L|]. split; [apply sorted_NoDup, S|]. intros n Hn. split; [exact (C n Hn) | exact (F b n (C n Hn))].
  - intros Q1 Q2. cbn. rewrite Q1, Q2. destruct (pend (sto s)); reflexivity.
Qed.

Lemma evaluate_deps : forall c s d, Inv c s -> In d (snd (evaluate c s)) -> dep_ok c (fst (evaluate c s)) d.
Proof.
  intros c s d I Hd. destruct (evaluate_spec c s) as [_ | w _ _ | w Hw E]; try contradiction.
  destruct (halted_inv c s w I Hw) as [Iw [Fw _]]. apply start_begin_deps; assumption.
Qed.

Lemma step_deps : forall c s o d, Inv c s -> In d (o_deps (snd (step c s o))) -> dep_ok c (fst (step c s o)) d.
Proof.
  intros c s o d I Hd. destruct (pre c s o) as [s1|] eqn:P.
  - destruct (step_eval c s o s1 P) as [E1 [E2 _]]. rewrite E2 in Hd. rewrite E1.
    exact (evaluate_deps c s1 d (pre_inv _ _ _ _ I P) Hd).
  - rewrite (qt_deps _ _ _ (step_quiet c s o P)) in Hd. contradiction.
Qed.

Lemma healthy_spec : forall s, healthy s = true <-> forall b n, In n (asm b s) -> In n (reg b s).
Proof.
  intros s. unfold healthy. rewrite andb_true_iff, !forallb_forall. split.
  - intros [Hr Ho] [] n Hn; apply mem_In; auto.
  - intros H. split; intros n Hn; apply mem_In; [apply (H false) | apply (H true)]; exact Hn.
Qed.

Lemma evaluate_running : forall c s, Inv c s -> stat (fst (evaluate c s)) = Running ->
  forall b n, In n (asm b (fst (evaluate c s))) -> In n (reg b (fst (evaluate c s))) /\ live_in c (fst (evaluate c s)) (b, n).
Proof.
  intros c s I H. destruct (evaluate_spec c s) as [[S|[_ Hh]] | w Hw _ | w _ _]; cbn [fst] in *.
  - change (stat (purge c s)) with (stat s) in H. congruence.
  - intros b n Hn. apply (proj1 (healthy_spec _) Hh) in Hn. split; [exact Hn | exact (purge_all_live c s I b n Hn)].
  - destruct (halted_inv c s w I Hw) as [_ [_ [W|W]]]; congruence.
  - discriminate.
Qed.

Lemma unhealthy_pauses : forall c s b n, stat s = Running -> In n (asm b s) -> ~ In n (reg b (purge c s)) ->
  stat (fst (evaluate c s)) = Paused \/ stat (fst (evaluate c s)) = Starting.
Proof.
  intros c s b n R Hn Hx. destruct (evaluate_spec c s) as [[S|[_ Hh]] | w Hw _ | w _ _]; cbn [fst].
  - (* settled while Starting *) congruence.
  - (* settled and healthy: but n is not registered *) destruct Hx. exact (proj1 (healthy_spec _) Hh b n Hn).
  - (* halts: the job was Running, so it is paused now *) destruct Hw as [[[W|W] _]|[_ [_ ->]]]; [congruence..|left; reflexivity].
  - (* starts *) right. reflexivity.
Qed.

Lemma deregistered_pauses : forall (b : bool) c s n, stat s = Running -> In n (asm b s) ->
  stat (fst (step c s (dereg_op b n))) = Paused \/ stat (fst (step c s (dereg_op b n))) = Starting.
Proof.
  intros b c s n R Hn. rewrite (proj1 (step_eval c s _ _ (pre_dereg c s b n))).
  apply (unhealthy_pauses c _ b n); [exact R | exact Hn |].
  (* n has just been removed from the registry, so it is not in the purged one *)
  rewrite reg_purge, reg_with_reg. intros [[_ X]%In_rem _]%filter_In. exact (X eq_refl).
Qed.

(* a registration replaces the node's own heartbeat, every other entry stays *)
Lemma pre_hb : forall c s o s1 (b : bool) n t, pre c s o = Some s1 -> In ((b, n), t) (hb s) ->
  o <> reg_op b n -> In ((b, n), t) (hb s1).
Proof.
  intros c s o s1 b n t H Hin Hne. destruct (pre_spec c s o s1 H) as [b' m|b' m|ok E].
  - (* registration *) apply In_hb_set. right. split; [exact Hin|]. intros [= -> ->]. exact (Hne eq_refl).
  - (* deregistration *) exact Hin.
  - (* end of a start *) destruct ok; exact Hin.
Qed.

Lemma expired_pauses : forall (b : bool) c s n t o s1, stat s = Running -> In n (asm b s) ->
  hb_get (b, n) (hb s) = Some t -> t + deadline c < now s ->
  pre c s o = Some s1 -> o <> reg_op b n ->
  stat (fst (step c s o)) = Paused \/ stat (fst (step c s o)) = Starting.
Proof.
  intros b c s n t o s1 R Hn Hg Hlt P Hne. rewrite (proj1 (step_eval c s o s1 P)).
  destruct (pre_frame c s o s1 P) as [Fn [_ [_ [Fa Fs]]]].
  apply (unhealthy_pauses c s1 b n); [rewrite Fs; congruence | rewrite Fa; exact Hn |].
  rewrite reg_purge. intros X. apply filter_In, proj2, negb_true_iff, not_true_iff_false in X. apply X, is_dead_spec.
  exists t. rewrite Fn. split; [|exact Hlt]. exact (pre_hb c s o s1 b n t P (hb_get_In _ _ _ Hg) Hne).
Qed.

Lemma evaluate_completed : forall c s, completed (sto (fst (evaluate c s))) = completed (sto s).
Proof.
  intros c s. destruct (evaluate_spec c s) as [_ | w Hw _ | w Hw _]; [reflexivity|..];
    destruct Hw as [[_ ->]|[_ [_ ->]]]; reflexivity.
Qed.

Lemma step_pub_cases : forall c s o, Inv c s -> q_install_superseded (qk c) = false ->
  pub_cases (completed (sto s)) (completed (sto (fst (step c s o)))) (o_published (snd (step c s o))).
Proof.
  intros c s o I Q. destruct (pre c s o) as [s1|] eqn:P; [|exact (qt_pub _ _ _ (step_quiet c s o P) I Q)].
  destruct (step_eval c s o s1 P) as [-> [_ [_ ->]]]. rewrite evaluate_completed, (proj1 (proj2 (pre_frame c s o s1 P))).
  apply pub_none.
Qed.

(* the greatest of [start] and the ids published in [bs] *)
Definition max_pub (bs : list obs) (start : N) : N := fold_left (fun m b => N.max m (o_published b)) bs start.

Lemma run_max_pub : forall c l s, Inv c s -> q_install_superseded (qk c) = false ->
  completed (sto (fst (run c s l))) = max_pub (snd (run c s l)) (completed (sto s)).
Proof.
  intros c l. induction l as [|o t IH]; intros s I Q; [reflexivity|].
  rewrite run_cons. cbn [fst snd max_pub fold_left]. rewrite (IH _ (step_inv c s o I) Q). unfold max_pub. f_equal.
  destruct (step_pub_cases c s o I Q) as [[-> ->]|[_ [-> L]]]; lia.
Qed.

Lemma ack_inj : forall b b' n n' id, ack b n id = ack b' n' id -> b = b' /\ n = n'.
Proof. intros [] [] n n' id [= ->]; auto. Qed.

(* [a] is an acknowledgement of checkpoint [id] that the pending snapshot [p] still awaits (flag not set) *)
Definition ack_of (id : N) (p : pending) (a : op) : Prop :=
  (exists n, a = OAckOp n id /\ In (n, false) (p_ops p)) \/ (exists n, a = OAckSr n id /\ In (n, false) (p_srs p)).

Lemma ack_of_iff : forall id p a, ack_of id p a <-> exists b n, a = ack b n id /\ In (n, false) (flags b p).
Proof.
  intros id p a. split.
  - intros [[n H]|[n H]]; [exists true, n | exists false, n]; exact H.
  - intros [[] [n H]]; [left | right]; exists n; exact H.
Qed.

Lemma all_true_spec : forall l, all_true l = true <-> forall m, ~ In (m, false) l.
Proof.
  intros l. unfold all_true. rewrite forallb_forall. split.
  - intros H m Hin. discriminate (H _ Hin).
  - intros H [m []] Hin; [reflexivity | destruct (H m Hin)].
Qed.

Lemma complete_spec : forall id p, complete p = true <-> forall a, ~ ack_of id p a.
Proof.
  intros id p. unfold complete. rewrite andb_true_iff, !all_true_spec. split.
  - intros [Hr Ho] a [[n [_ H]]|[n [_ H]]]; [exact (Ho n H) | exact (Hr n H)].
  - intros H. split; intros m Hin; [apply (H (OAckSr m id)); right | apply (H (OAckOp m id)); left]; eauto.
Qed.

Lemma mark_spec : forall n l, NoDup (map fst l) -> In (n, false) l ->
  exists l2, mark n l = Some l2 /\ forall m, In (m, false) l2 <-> m <> n /\ In (m, false) l.
Proof.
  intros n l. induction l as [|[y b0] t IH]; intros ND Hin; [contradiction|].
  cbn [map fst] in ND. inversion ND as [|? ? Hy NDt]; subst. cbn [mark].
  assert (K : forall b, In (y, b) t -> False) by (intros b X; apply Hy, (in_map fst _ _ X)).
  destruct (N.eqb_spec n y) as [<-|E].
  - destruct Hin as [[= ->]|X]; [|destruct (K _ X)]. eexists. split; [reflexivity|]. intros m. cbn [In]. split.
    + intros [[=]|X]. split; [intros -> |]; eauto.
    + intros [Hm [[= ->]|X]]; [contradiction | auto].
  - destruct Hin as [[= -> _]|X]; [contradiction|]. destruct (IH NDt X) as [t2 [-> C]]. eexists. split; [reflexivity|].
    intros m. cbn [In]. rewrite C. split.
    + intros [[= -> ->]|[Hm X']]; auto.
    + intros [Hm [Y|Y]]; auto.
Qed.

Lemma ack_accepted : forall b c s p n l, holdw s = false -> pend (sto s) = Some p -> mark n (flags b p) = Some l ->
  step c s (ack b n (p_id p)) = let '(so, r, pub) := finish_if_complete (sto s) (marked b p l) in
                                (set_sto s so, MkObs (status_code (stat s)) [] [] 0 r pub 0).
Proof.
  intros b c s p n l Hw P M. rewrite step_ack, ack_eq, P, N.eqb_refl, M.
  destruct (finish_if_complete _ _) as [[so r] pub]. unfold after_ack. rewrite Hw. reflexivity.
Qed.

Lemma ack_of_marked : forall id p b n l, (forall m, In (m, false) l <-> m <> n /\ In (m, false) (flags b p)) ->
  forall a, ack_of id (marked b p l) a <-> ack_of id p a /\ a <> ack b n id.
Proof.
  intros id p b n l C a. rewrite !ack_of_iff. split.
  - intros [b' [m [-> Hm]]]. rewrite flags_marked in Hm.
    destruct (eqb_spec b' b) as [->|Hb]; [apply C in Hm; destruct Hm as [Hmn Hm]|];
      (split; [eauto | intros E; apply ack_inj in E; destruct E; congruence]).
  - intros [[b' [m [-> Hm]]] Hne]. exists b', m. split; [reflexivity|]. rewrite flags_marked.
    destruct (eqb_spec b' b) as [->|Hb]; [|exact Hm]. apply C. split; [intros ->; exact (Hne eq_refl) | exact Hm].
Qed.

(* The induction behind both checkpoints_resume theorems: the acks that [p] still awaits, in any duplicate-free order,
   are each accepted; the one that leaves none awaited completes and publishes [p]; the status is untouched. *)
Lemma acks_complete : forall c l s p,
  holdw s = false -> pend (sto s) = Some p -> splitters (sto s) = 1 -> (forall b, NoDup (map fst (flags b p))) ->
  NoDup l -> (forall a, In a l <-> ack_of (p_id p) p a) -> l <> [] ->
  pend (sto (fst (run c s l))) = None /\ completed (sto (fst (run c s l))) = p_id p /\
  Forall (fun b => o_res b = 0) (snd (run c s l)) /\ (exists b, In b (snd (run c s l)) /\ o_published b = p_id p) /\
  stat (fst (run c s l)) = stat s.
Proof.
  intros c l. induction l as [|a l' IH]; intros s p Hw P Spl NDk ND Hl Hne; [contradiction|]. clear Hne.
  inversion ND as [|? ? Ha NDl]; subst.
  destruct (proj1 (ack_of_iff _ _ _) (proj1 (Hl a) (or_introl eq_refl))) as [b [n [-> Hin]]].
  destruct (mark_spec n _ (NDk b) Hin) as [l2 [M C]]. set (p' := marked b p l2).
  assert (Pid : p_id p' = p_id p) by (destruct b; reflexivity).
  assert (Hl' : forall a', In a' l' <-> ack_of (p_id p') p' a').
  { intros a'. rewrite Pid. unfold p'. rewrite (ack_of_marked _ _ _ _ _ C), <- Hl. apply In_tail, Ha. }
  assert (NDk' : forall b', NoDup (map fst (flags b' p'))).
  { intros b'. unfold p'. rewrite flags_marked. destruct (eqb_spec b' b) as [->|]; [rewrite (mark_keys _ _ _ M)|]; apply NDk. }
  rewrite run_cons, (ack_accepted b c s p n l2 Hw P M). fold p'. unfold finish_if_complete. destruct (complete p') eqn:Cp.
  - (* complete: no ack is left *)
    assert (l' = []) by (destruct l' as [|a' t]; [reflexivity | destruct (proj1 (complete_spec (p_id p') p') Cp a'); apply Hl'; left; reflexivity]).
    subst l'. rewrite Spl. cbn. rewrite Pid. repeat split; auto. eexists. split; [left; reflexivity | reflexivity].
  - (* not complete: some ack is left, continue *)
    assert (Hne' : l' <> []).
    { intros ->. apply not_true_iff_false in Cp. apply Cp, (complete_spec (p_id p')). intros a' Ha'. apply Hl' in Ha'. contradiction. }
    cbn [fst snd]. edestruct (IH (set_sto s (MkStore (Some p') (completed (sto s)) (ctr (sto s)) (splitters (sto s)))) p')
      as [A [B [C' [[b0 [Hb1 Hb2]] D]]]]; try eassumption; try reflexivity.
    rewrite <- Pid. split; [exact A|]. split; [exact B|]. split; [constructor; [reflexivity | exact C']|].
    split; [exists b0; split; [right; exact Hb1 | exact Hb2] | exact D].
Qed.

Lemma tick_started : forall c s, Inv c s -> q_ticker_once (qk c) = false ->
  o_started (snd (step c s OTick)) <> [] ->
  stat s = Running /\ o_started (snd (step c s OTick)) = a_srs s.
Proof.
  intros c s I Q H. cbn [step] in *. destruct (N.eqb_spec (ticker s) 1) as [T|_]; [|contradiction].
  split; [apply (i_tk _ _ I Q), T|]. destruct (create_checkpoint _ _ _) as [so [id|]]; [reflexivity | contradiction].
Qed.

Lemma waiting_starts_or_short : forall c s o s1,
  pre c s o = Some s1 -> stat s1 = Init \/ stat s1 = Paused ->
  let s' := fst (step c s o) in
  (stat s' = Starting /\ exists d, o_deps (snd (step c s o)) = [d]) \/
  (stat s' = stat s1 /\ ((length (ops s') < wc c)%nat \/ (length (srs s') < wc c)%nat)).
Proof.
  intros c s o s1 P W. cbv zeta. destruct (step_eval c s o s1 P) as [-> [-> _]].
  destruct (evaluate_waiting c s1 W) as [[-> H]|[-> _]].
  - right. split; [reflexivity | exact H].
  - left. split; [reflexivity | eexists; reflexivity].
Qed.

(* [a] is the acknowledgement of checkpoint [id] by a member of the assembly of [s] *)
Definition member_ack (s : st) (id : N) (a : op) : Prop :=
  (exists n, a = OAckOp n id /\ In n (a_ops s)) \/ (exists n, a = OAckSr n id /\ In n (a_srs s)).

(* whether the checkpoint that [o] starts is flagged as a savepoint *)
Definition starter_sp (o : op) : bool := match o with OSavepoint => true | _ => false end.

Lemma fresh_checkpoint_completes : forall c s, Inv c s -> forall acks starter,
  q_splitters_accumulate (qk c) = false -> q_ticker_once (qk c) = false -> (0 < wc c)%nat ->
  starter = OTick \/ starter = OSavepoint ->
  stat s = Running -> pend (sto s) = None -> holdw s = false ->
  let id := ctr (sto s) + 1 in
  NoDup acks -> (forall a, In a acks <-> member_ack s id a) ->
  let s1 := fst (step c s starter) in
  let r := run c s1 acks in
  o_started (snd (step c s starter)) = a_srs s /\ o_cid (snd (step c s starter)) = id /\
  o_res (snd (step c s starter)) = 0 /\
  (forall p, pend (sto s1) = Some p -> p_sp p = starter_sp starter) /\
  completed (sto s) < id /\
  pend (sto (fst r)) = None /\ completed (sto (fst r)) = id /\
  Forall (fun b => o_res b = 0) (snd r) /\ (exists b, In b (snd r) /\ o_published b = id) /\
  stat (fst r) = Running.
Proof.
  intros c s I acks starter Qs Qt Hw Hst E Pn Hh id ND Hacks.
  assert (T : step c s starter = (set_sto s (fresh_pending s (starter_sp starter)), MkObs (status_code Running) [] (a_srs s) id 0 0 0)).
  { destruct Hst as [-> | ->]; cbn [step starter_sp].
    - (* OTick fires: in a Running state the ticker is armed *)
      rewrite (proj2 (i_tk _ _ I Qt) E). cbn [N.eqb Pos.eqb]. unfold create_checkpoint. rewrite Pn. cbn [set_sto stat].
      rewrite E. reflexivity.
    - (* OSavepoint is accepted: the job is Running *)
      rewrite E. unfold create_savepoint. rewrite Pn. cbn [set_sto stat]. rewrite E. reflexivity. }
  cbv zeta. rewrite T. cbn [fst snd o_started o_cid o_res].
  split; [reflexivity|]. split; [reflexivity|]. split; [reflexivity|]. split; [intros p [= <-]; reflexivity|].
  pose proof (i_sto _ _ I) as So. split; [pose proof (so_done So); unfold id; lia|].
  assert (Ia : forall b, length (asm b s) = wc c /\ sorted (asm b s)) by (apply (i_asm _ _ I); congruence).
  rewrite <- E.
  apply (acks_complete c acks (set_sto s (fresh_pending s (starter_sp starter))) _ Hh eq_refl); try assumption.
  - apply (so_spl So Qs). congruence.
  - intros b. destruct (Ia b) as [_ S]. destruct b; cbn; rewrite map_fst_false; apply sorted_NoDup, S.
  - intros a. rewrite Hacks. unfold member_ack, ack_of. cbn [p_ops p_srs p_id fresh_pending].
    assert (X : forall n (l : list N), In (n, false) (map (fun m => (m, false)) l) <-> In n l).
    { intros n l. rewrite in_map_iff. split; [intros [m [[= ->] H]]; exact H | eauto]. }
    setoid_rewrite X. reflexivity.
  - destruct (Ia true) as [L _]. cbn [asm] in L. destruct (a_ops s) as [|n t] eqn:Ao; [cbn in L; lia|].
    intros ->. apply (proj2 (Hacks (OAckOp n id))). left. exists n. rewrite Ao. split; [reflexivity | left; reflexivity].
Qed.

Lemma inflight_completes : forall c s, Inv c s -> forall p acks,
  q_keep_pending (qk c) = false -> q_keep_savepoint (qk c) = false -> q_splitters_accumulate (qk c) = false ->
  stat s = Running -> pend (sto s) = Some p -> holdw s = false ->
  NoDup acks -> (forall a, In a acks <-> ack_of (p_id p) p a) -> acks <> [] ->
  (forall a, ack_of (p_id p) p a -> member_ack s (p_id p) a) /\
  pend (sto (fst (run c s acks))) = None /\ completed (sto (fst (run c s acks))) = p_id p /\
  Forall (fun b => o_res b = 0) (snd (run c s acks)) /\ stat (fst (run c s acks)) = Running.
Proof.
  intros c s I p acks Qp Qv Qs E P Hh ND Hacks Hne.
  pose proof (i_sto _ _ I) as S. pose proof (pd_members (so_pend S P) Qp Qv) as K. split.
  - pose proof (K true) as Ko. pose proof (K false) as Kr. cbn [flags asm] in Ko, Kr.
    intros a [[n [-> H]]|[n [-> H]]]; [left; rewrite <- Ko | right; rewrite <- Kr]; exists n;
      (split; [reflexivity | exact (in_map fst _ _ H)]).
  - destruct (acks_complete c acks s p Hh P) as [R1 [R2 [R3 [_ R5]]]]; try assumption.
    + apply (so_spl S Qs). congruence.
    + intros b. rewrite K. apply sorted_NoDup, (i_asm _ _ I). congruence.
    + rewrite R5. auto.
Qed.

(* The histories the theorems quantify over contain OChoose ops with arbitrary lists, so every theorem above holds
   whichever admissible nodes NewAssembly picks. Conversely every admissible choice is realised: when the job, waiting,
   evaluates its cluster and [co], [cr] are WorkerCount ascending registered live operators / runners, the deployment
   goes to exactly them. *)
Lemma admissible_choice_deployed : forall c s co cr, pick s = Some (co, cr) -> forall o s1,
  pre c s o = Some s1 -> stat s1 = Init \/ stat s1 = Paused ->
  admissible (wc c) (ops (purge c s1)) co = true -> admissible (wc c) (srs (purge c s1)) cr = true ->
  o_deps (snd (step c s o)) = [MkDep co cr (map (fun _ => completed (sto s1)) co) true] /\
  a_ops (fst (step c s o)) = co /\ a_srs (fst (step c s o)) = cr.
Proof.
  intros c s co cr Pk o s1 P W Ao Ar. destruct (step_eval c s o s1 P) as [-> [-> _]].
  destruct (pre_frame c s o s1 P) as [_ [_ [Pk1 _]]]. rewrite Pk in Pk1.
  destruct (admissible_spec _ _ _ Ao) as [So [Lo Io]]. destruct (admissible_spec _ _ _ Ar) as [Sr [Lr Ir]].
  pose proof (NoDup_incl_length (sorted_NoDup _ So) Io) as Ho. pose proof (NoDup_incl_length (sorted_NoDup _ Sr) Ir) as Hr.
  destruct (evaluate_waiting c s1 W) as [[-> H]|[-> _]].
  - destruct H; lia.
  - unfold start_begin, choose_ops, choose_srs. change (pick (purge c s1)) with (pick s1). rewrite Pk1, Ao, Ar. auto.
Qed.

(* the configuration of the witness histories: one operator, one runner, a deadline of 5 s *)
Definition cfg_of (q : quirks) : cfg := MkCfg 1 5000 q.
(* boot, checkpoint 1 started, the operator leaves, a new one registers, redeploy (the theorem then ticks) *)
Definition hist_d18 : list op := [ORegOp 0; ORegSr 0; OFin true; OTick; ODeregOp 0; ORegOp 1; OFin true].
(* boot, complete checkpoint 1, the operator leaves, a new one registers, redeploy (the theorem then ticks) *)
Definition hist_d30 : list op := [ORegOp 0; ORegSr 0; OFin true; OTick; OAckOp 0 1; OAckSr 0 1; ODeregOp 0; ORegOp 1; OFin true].
(* seeded C15-3: the abort spares savepoints. A requested savepoint (hist_sp_a) or a periodic checkpoint upgraded to a
   savepoint (hist_sp_b) is in flight when the operator leaves *)
Definition hist_sp_a : list op := [ORegOp 0; ORegSr 0; OFin true; OSavepoint; OAckSr 0 1; ODeregOp 0; ORegOp 1; OFin true].
Definition hist_sp_b : list op := [ORegOp 0; ORegSr 0; OFin true; OTick; OSavepoint; OAckSr 0 1; ODeregOp 0; ORegOp 1; OFin true].
(* seeded C15r2-1: the ticker is created once only; every pause stops it: after the first recovery it never fires again *)
Definition hist_tk : list op := [ORegOp 0; ORegSr 0; OFin true; OTick; OAckOp 0 1; OAckSr 0 1; ODeregOp 0; ORegOp 1; OFin true].
(* seeded C15r6-3: finishSnapshotAsync installs the snapshot it wrote although a newer one is published. Checkpoint 1 is
   fully acknowledged while its file write is held; checkpoint 2 is started, acknowledged and published; the write of 1
   returns; the operator leaves and a new one registers: the new assembly is deployed from 1 although 2 was published.
   On the repaired code (current) the same history deploys from 2. *)
Definition hist_slow_write : list op :=
  [ORegOp 0; ORegSr 0; OFin true; OHoldW; OTick; OAckOp 0 1; OAckSr 0 1; OTick; OAckOp 0 2; OAckSr 0 2; OReleaseW; ODeregOp 0; ORegOp 1].

Lemma run_idle_prefix : forall c s o b k l, step c s o = (s, b) -> fst (run c s (repeat o k ++ l)) = fst (run c s l).
Proof.
  intros c s o b k l H. induction k as [|k IH]; [reflexivity|]. cbn [repeat app]. rewrite run_cons, H. exact IH.
Qed.

(* the runners whose barrier for checkpoint [id] is still awaited: an empty slot awaits all of them (the first barrier
   creates it) *)
Definition awaits (o : oper) (id : N) (w : list N) : Prop :=
  match o_slot o with Some sl => sl = MkSlot id w | None => w = o_runners o end.

Lemma oper_barrier_awaited : forall o id w x, awaits o id w -> In x w ->
  oper_barrier o x id true = match rem x w with
                             | [] => (MkOper (o_runners o) None, 2)
                             | w' => (MkOper (o_runners o) (Some (MkSlot id w')), 0)
                             end.
Proof.
  intros o id w x A Hx. unfold oper_barrier, awaits in *. destruct (o_slot o) as [sl|]; subst; [|reflexivity].
  cbn [sl_wait sl_id]. rewrite (proj2 (mem_In x w) Hx), N.eqb_refl, andb_false_r. reflexivity.
Qed.

Lemma barriers_complete : forall id order, NoDup order -> forall o w, awaits o id w ->
  (forall x, In x order <-> In x w) -> order <> [] ->
  exists pre_rs, snd (oper_barriers o order id true) = pre_rs ++ [2] /\ Forall (fun r => r = 0) pre_rs /\
                 o_slot (fst (oper_barriers o order id true)) = None.
Proof.
  intros id order ND. induction ND as [|x t Hx NDt IH]; intros o w A Hw Hne; [contradiction|].
  cbn [oper_barriers]. rewrite (oper_barrier_awaited o id w x A (proj1 (Hw x) (or_introl eq_refl))).
  assert (Hrem : forall y, In y t <-> In y (rem x w)) by (intros y; rewrite In_rem, <- Hw; apply In_tail, Hx).
  destruct t as [|y t'].
  - assert (R : rem x w = []) by (destruct (rem x w) as [|z ?]; [reflexivity | destruct (proj2 (Hrem z) (or_introl eq_refl))]).
    rewrite R. exists []. cbn. auto.
  - destruct (rem x w) as [|z w'] eqn:R; [destruct (proj1 (Hrem y) (or_introl eq_refl))|].
    destruct (IH (MkOper (o_runners o) (Some (MkSlot id (z :: w')))) (z :: w') eq_refl Hrem) as [prs [E1 [E2 E3]]]; [discriminate|].
    destruct (oper_barriers _ (y :: t') id true) as [o2 rs]. cbn [fst snd] in *. exists (0 :: prs). rewrite E1. auto.
Qed.

Lemma deployed_slot_resumes : forall q o runners order id,
  q_keep_slot q = false -> q_keep_complete_slot q = false -> runners <> [] ->
  NoDup order -> (forall x, In x order <-> In x runners) ->
  let o1 := oper_deploy q o runners in
  exists pre_rs, snd (oper_barriers o1 order id true) = pre_rs ++ [2] /\ Forall (fun r => r = 0) pre_rs /\
                 o_slot (fst (oper_barriers o1 order id true)) = None.
Proof.
  intros q o runners order id Q Qc Hne ND Ho o1. apply (barriers_complete id order ND o1 runners); [|exact Ho|].
  - unfold awaits, o1, oper_deploy. rewrite Q, Qc. cbn. destruct (o_slot o); reflexivity.
  - destruct runners as [|r rs]; [contradiction|]. intros ->. apply (proj2 (Ho r)). left. reflexivity.
Qed.

Lemma snap_get_In : forall id l x, snap_get id l = Some x -> In (id, x) l.
Proof.
  intros id l x. induction l as [|[i y] t IH]; cbn [snap_get]; [discriminate|].
  destruct (i =? id) eqn:E; [apply N.eqb_eq in E; intros H; inversion H; subst; left; reflexivity | intros H; right; auto].
Qed.

Lemma srun_fst : forall l s, fst (srun s l) = fold_left (fun s o => fst (sstep s o)) l s.
Proof.
  induction l as [|o t IH]; intros s; cbn [srun fold_left]; [reflexivity|].
  destruct (sstep s o) as [s1 b] eqn:E. specialize (IH s1). destruct (srun s1 t) as [s2 bs]. cbn [fst] in *. exact IH.
Qed.

(* checkpoint ids are positive, so no snapshot is recorded under 0, the id that stands for "no checkpoint" *)
Definition no_snap0 (s : ost) : Prop := 0 < next_id s /\ snap_get 0 (snaps s) = None.

Lemma srun_no_snap0 : forall l, no_snap0 (fst (srun ost0 l)).
Proof.
  intros l. rewrite srun_fst. apply fold_left_inv; [|split; reflexivity]. intros s o [P H].
  destruct o; cbn [sstep fst]; unfold no_snap0; cbn [next_id snaps snap_get]; [split; assumption | | split; assumption].
  split; [lia|]. destruct (N.eqb_spec (next_id s) 0); [lia | exact H].
Qed.

Lemma sstep_spec : forall s, no_snap0 s ->
  (forall k, applied (fst (sstep s (SRedeploy 0))) = [] /\ snd (sstep (fst (sstep s (SRedeploy 0))) (SEv k)) = 0) /\
  (forall id x, snap_get id (snaps s) = Some x -> applied (fst (sstep s (SRedeploy id))) = x) /\
  (snap_get (next_id s) (snaps (fst (sstep s SCkpt))) = Some (applied s)) /\
  (forall k, snd (sstep s (SEv k)) = count k (applied s)).
Proof.
  intros s [_ H]. cbn [sstep fst snd applied snaps snap_get]. rewrite H, N.eqb_refl. repeat split.
  intros id x ->. reflexivity.
Qed.
