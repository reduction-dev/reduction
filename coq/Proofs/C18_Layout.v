(* The layout invariant [LLInv] of level lists and the correctness of LevelList.Get / ScanPrefix under it: both return,
   per key, the entry with the greatest sequence number of the whole layout ([view]).  [C18_Main.valid], the hypothesis of
   the theorems of C18, adds to [LLInv] that there are two levels at least and no empty table ([nonempty]). *)
From Coq Require Import List NArith Bool Lia.
From RV Require Import Base.Bytes Base.Lists Model.LsmBase Proofs.C07_Sorted.
Import ListNotations.
Open Scope N_scope.

Definition kle (a b : bytes) : Prop := a = b \/ klt a b.

Lemma kle_trans a b c : kle a b -> kle b c -> kle a c.
Proof. intros [->|H1] [->|H2]; unfold kle; auto. right. eapply klt_trans; eauto. Qed.
Lemma kle_lt_trans a b c : kle a b -> klt b c -> klt a c.
Proof. intros [->|H1] H2; auto. eapply klt_trans; eauto. Qed.
Lemma klt_le_trans a b c : klt a b -> kle b c -> klt a c.
Proof. intros H1 [<-|H2]; auto. eapply klt_trans; eauto. Qed.
Lemma kle_total a b : kle a b \/ klt b a.
Proof. unfold kle, klt. destruct (bcmp_spec a b); auto. Qed.

Lemma prefix_le p x : is_prefix p x = true -> kle p x.
Proof.
  intros H. apply is_prefix_spec in H as [[|c s] ->]; [left; symmetry; apply app_nil_r|right].
  unfold klt. rewrite <- (app_nil_r p) at 1. apply bcmp_app_same.
Qed.

Lemma prefix_between p f x : klt p f -> kle f x -> is_prefix p x = true -> is_prefix p f = true.
Proof.
  unfold klt. intros H1 H2 H3. apply (prefix_convex p f x H3).
  - rewrite bcmp_antisym, H1. discriminate.
  - destruct H2 as [->|H2]; [rewrite bcmp_refl|rewrite H2]; discriminate.
Qed.

(* a key between lo and hi that has the prefix p: the test of RangeContainsPrefix on a table whose keys span lo .. hi *)
Lemma prefix_in_range p lo hi k : kle lo k -> kle k hi -> is_prefix p k = true ->
  (bleb lo p && bleb p hi) || is_prefix p lo || is_prefix p hi = true.
Proof.
  intros H1 H2 Hp.
  destruct (is_prefix p lo) eqn:E1; [rewrite orb_true_r; reflexivity|].
  destruct (is_prefix p hi) eqn:E2; [rewrite orb_true_r; reflexivity|].
  rewrite !orb_false_r. apply andb_true_iff. split; apply bleb_true.
  - destruct (kle_total lo p) as [H|H]; [exact H|]. exfalso. rewrite (prefix_between p lo k H H1 Hp) in E1. discriminate.
  - eapply kle_trans; [apply prefix_le; exact Hp|exact H2].
Qed.

Lemma first_key_le t e : sorted t -> In e t -> kle (first_key t) (ekey e).
Proof. destruct t as [|x t]; [intros _ []|]. cbn. intros [H _] [<-|He]; [left; reflexivity|right; auto]. Qed.

Lemma last_key_in t : t <> [] -> exists z, In z t /\ ekey z = last_key t /\ (sorted t -> forall e, In e t -> kle (ekey e) (ekey z)).
Proof.
  intros H. destruct (exists_last H) as (t' & z & ->). exists z. unfold last_key. rewrite map_app. cbn [map]. rewrite last_last.
  split; [apply in_or_app; right; left; reflexivity|]. split; [reflexivity|].
  intros Hs e He. apply sorted_app in Hs as (_ & _ & Hs).
  apply in_snoc in He as [He|<-]; [right; apply Hs; [exact He|left; reflexivity]|left; reflexivity].
Qed.

Lemma last_key_ge t e : sorted t -> In e t -> kle (ekey e) (last_key t).
Proof.
  intros Hs He. destruct (last_key_in t) as (z & _ & <- & H); [intros ->; destruct He|auto].
Qed.

Lemma range_contains_in t e : sorted t -> In e t -> range_contains (ekey e) t = true.
Proof.
  intros Hs He. unfold range_contains. apply andb_true_iff. split; apply bleb_true; [apply first_key_le|apply last_key_ge]; auto.
Qed.

Lemma range_contains_prefix_in p t e : sorted t -> In e t -> is_prefix p (ekey e) = true -> range_contains_prefix p t = true.
Proof. intros Hs He. exact (prefix_in_range p _ _ _ (first_key_le _ _ Hs He) (last_key_ge _ _ Hs He)). Qed.

Lemma tbl_get_app k a b : tbl_get k (a ++ b) = match tbl_get k a with Some e => Some e | None => tbl_get k b end.
Proof. exact (find_app (keyeq k) a b). Qed.

Lemma sorted_concat_in l t : sorted (concat l) -> In t l -> sorted t.
Proof.
  induction l as [|x l IH]; [intros _ []|]. cbn. intros H [<-|Ht]; apply sorted_app in H as (H1 & H2 & _); auto.
Qed.

Lemma sorted_concat_filter (f : table -> bool) l : sorted (concat l) -> sorted (concat (filter f l)).
Proof.
  induction l as [|x l IH]; [auto|]. cbn. intros H. apply sorted_app in H as (H1 & H2 & H3).
  destruct (f x); cbn; [|auto]. apply sorted_app. repeat split; auto.
  intros a b Ha Hb. apply H3; auto. apply in_concat in Hb as (t & Ht & Hb). apply filter_In in Ht as [Ht _].
  apply in_concat. exists t. auto.
Qed.

Lemma sorted_concat_same_table l t t' e e' :
  sorted (concat l) -> In t l -> In t' l -> In e t -> In e' t' -> ekey e = ekey e' -> t = t'.
Proof.
  induction l as [|x l IH]; [intros _ []|]. cbn. intros H Ht Ht' He He' Hk.
  apply sorted_app in H as (H1 & H2 & H3).
  assert (Hc : forall y a b, In y l -> In a x -> In b y -> ekey a <> ekey b).
  { intros y a b Hy Ha Hb E. apply (klt_irrefl (ekey a)). rewrite E at 2. apply H3; [exact Ha|]. apply in_concat. eauto. }
  destruct Ht as [<-|Ht], Ht' as [<-|Ht']; [reflexivity| | |apply IH; auto].
  - destruct (Hc _ _ _ Ht' He He' Hk).
  - destruct (Hc _ _ _ Ht He' He (eq_sym Hk)).
Qed.

Definition ents (ll : levels) (e : entry) : Prop := exists l t, In l ll /\ In t l /\ In e t.
Definition view (ll : levels) : table := merge_all (concat ll).

(* level 0 (and the memtables above it) in chronological order: every sequence number of an earlier table is
   below every sequence number of a later one *)
Fixpoint sep (cs : list table) : Prop :=
  match cs with
  | [] => True
  | x :: r => (forall y e e', In y r -> In e x -> In e' y -> eseq e < eseq e') /\ sep r
  end.

(* a level >= 1: its tables in order make one key-sorted run, i.e. they are range-sorted and disjoint; none is empty, because
   an empty table has no key range (last_key [] = []) and the search for the table whose range holds a key would stop at it *)
Definition deep_ok (l : list table) : Prop := sorted (concat l) /\ forall t, In t l -> t <> [].
(* no empty table: the third part of [C18_Main.valid], field [i_real] of [C07_Refine.Inv] *)
Definition nonempty (ll : levels) : Prop := forall l t, In l ll -> In t l -> t <> [].

(* v_sorted: every table is key-sorted; v_deep: the levels >= 1 are [deep_ok]; v_sep: level 0 is in chronological order;
   v_ord: per key, a version in an upper level is newer than one in a lower level (the search order agrees with the
   sequence numbers). *)
Record LLInv (ll : levels) : Prop := mkLLInv {
  v_sorted : forall l t, In l ll -> In t l -> sorted t;
  v_deep : forall i l, nth_error ll (S i) = Some l -> deep_ok l;
  v_sep : forall l, nth_error ll 0 = Some l -> sep l;
  v_ord : forall i j li lj t t' e e', (i < j)%nat -> nth_error ll i = Some li -> nth_error ll j = Some lj ->
            In t li -> In t' lj -> In e t -> In e' t' -> ekey e = ekey e' -> eseq e' < eseq e
}.

Lemma sep_in cs t t' e e' : sep cs -> In t cs -> In t' cs -> In e t -> In e' t' -> eseq e = eseq e' -> t = t'.
Proof.
  induction cs as [|x r IH]; [intros _ []|]. cbn. intros [H1 H2] [<-|Ht] [<-|Ht'] He He' Hs; auto.
  - specialize (H1 _ _ _ Ht' He He'). lia.
  - specialize (H1 _ _ _ Ht He' He). lia.
Qed.

Lemma sep_filter (f : table -> bool) cs : sep cs -> sep (filter f cs).
Proof.
  induction cs as [|x r IH]; [auto|]. cbn. intros [H1 H2]. destruct (f x); cbn; auto. split; auto.
  intros y e e' Hy. apply filter_In in Hy as [Hy _]. eauto.
Qed.

Lemma sep_app a b : sep (a ++ b) <-> sep a /\ sep b /\ (forall x y e e', In x a -> In y b -> In e x -> In e' y -> eseq e < eseq e').
Proof.
  induction a as [|x a IH]; cbn.
  - split; [intros H; repeat split; auto; intros ? ? ? ? []|intros (_ & H & _); exact H].
  - rewrite IH. split.
    + intros (H1 & H2 & H3 & H4). repeat split; auto.
      * intros y e e' Hy. apply H1, in_or_app. auto.
      * intros x0 y e e' [<-|Hx] Hy; [apply H1, in_or_app; auto|apply H4; auto].
    + intros ((H1 & H2) & H3 & H4). repeat split; auto; [|intros x0 y e e' Hx; apply H4; auto].
      intros y e e' Hy. apply in_app_or in Hy as [Hy|Hy]; [apply H1|apply (H4 x)]; auto.
Qed.

Lemma sep_snoc L x : sep L -> (forall y e e', In y L -> In e y -> In e' x -> eseq e < eseq e') -> sep (L ++ [x]).
Proof.
  intros H Hx. apply sep_app. split; [exact H|]. split; [cbn; split; [intros ? ? ? []|exact I]|].
  intros y z e e' Hy [<-|[]] He He'. eauto.
Qed.

Lemma ents_view ll : Mx (ents ll) (view ll).
Proof.
  unfold view. eapply Mx_ext; [|apply Mx_merge_all]. intros e. unfold ents_of, ents. split.
  - intros (t & Ht & He). apply in_concat in Ht as (l & Hl & Ht). exists l, t. auto.
  - intros (l & t & Hl & Ht & He). exists t. split; [|exact He]. apply in_concat. exists l. auto.
Qed.

Lemma LLInv_uniq ll : LLInv ll -> uniq (ents ll).
Proof.
  intros Hv e e' (l & t & Hl & Ht & He) (l' & t' & Hl' & Ht' & He') Hk Hs.
  apply In_nth_error in Hl as (i & Hi). apply In_nth_error in Hl' as (j & Hj).
  destruct (Nat.lt_trichotomy i j) as [Hij|[Hij|Hij]].
  - pose proof (v_ord _ Hv _ _ _ _ _ _ _ _ Hij Hi Hj Ht Ht' He He' Hk). lia.
  - subst j. assert (l' = l) by congruence. subst l'. destruct i as [|i].
    + pose proof (sep_in _ _ _ _ _ (v_sep _ Hv _ Hi) Ht Ht' He He' Hs) as ->.
      apply (sorted_key_inj t' e e'); auto. eapply v_sorted; [exact Hv|eapply nth_error_In; exact Hi|exact Ht'].
    + destruct (v_deep _ Hv _ _ Hi) as [Hd _]. apply (sorted_key_inj _ _ _ Hd); [apply in_concat; eauto..|exact Hk].
  - pose proof (v_ord _ Hv _ _ _ _ _ _ _ _ Hij Hj Hi Ht' Ht He' He (eq_sym Hk)). lia.
Qed.

Lemma view_newest ll k : newest (ents ll) k (tbl_get k (view ll)).
Proof. apply Mx_newest, ents_view. Qed.
Lemma view_is ll k o : LLInv ll -> newest (ents ll) k o -> tbl_get k (view ll) = o.
Proof. intros Hv. apply newest_get; [apply ents_view|apply LLInv_uniq, Hv]. Qed.

Lemma l0_newest k ts : forall S acc,
  (forall t, In t ts -> sorted t) -> newest S k acc ->
  newest (fun e => S e \/ ents_of ts e) k (fold_left l0_pick (map (tbl_get k) (filter (range_contains k) ts)) acc).
Proof.
  induction ts as [|t ts IH]; intros S acc Hs Hacc; cbn [filter map fold_left].
  - eapply newest_ext; [|exact Hacc]. intros e _. split; [auto|intros [H|(l & [] & _)]; exact H].
  - assert (Hst : sorted t) by (apply Hs; left; reflexivity).
    assert (Hts : forall x, In x ts -> sorted x) by (intros x Hx; apply Hs; right; exact Hx).
    destruct (range_contains k t) eqn:E; cbn [map fold_left].
    + eapply newest_ext; [|exact (IH _ _ Hts (newest_pick _ _ _ _ _ Hacc (sorted_newest t k Hst)))].
      intros e _. rewrite ents_of_cons. tauto.
    + eapply newest_ext; [|exact (IH _ _ Hts Hacc)]. intros e Hk. rewrite ents_of_cons. split; [tauto|].
      intros [H|[H|H]]; auto. rewrite <- Hk, range_contains_in in E; auto. discriminate.
Qed.

Lemma lvl_get_spec k l : deep_ok l -> lvl_get k l = tbl_get k (concat l).
Proof.
  unfold lvl_get. induction l as [|t l IH]; [reflexivity|]. intros [Hs Hne]. cbn [concat find].
  cbn in Hs. pose proof Hs as Hs'. apply sorted_app in Hs' as (H1 & H2 & H3). rewrite tbl_get_app.
  assert (Hd : deep_ok l) by (split; [exact H2|intros x Hx; apply Hne; right; exact Hx]).
  destruct (range_contains k t) eqn:E.
  - destruct (tbl_get k t) eqn:G; [reflexivity|]. symmetry.
    (* k is not in t and not above its last key, the other tables lie above that *)
    apply tbl_get_none_lt. intros e He.
    unfold range_contains in E. apply andb_true_iff in E as [_ E]. apply bleb_true in E.
    destruct (last_key_in t (Hne t (or_introl eq_refl))) as (z & Hz & Hzk & _). rewrite <- Hzk in E.
    exact (kle_lt_trans _ _ _ E (H3 z e Hz He)).
  - rewrite (tbl_get_none_intro k t); [apply IH; exact Hd|]. intros e He Hk.
    rewrite <- Hk, range_contains_in in E; auto; discriminate.
Qed.

Lemma ents_cons l ll e : ents (l :: ll) e <-> (exists t, In t l /\ In e t) \/ ents ll e.
Proof.
  unfold ents. split.
  - intros (l' & t & [<-|Hl] & Ht & He); [left; exists t; auto|right; exists l', t; auto].
  - intros [(t & Ht & He)|(l' & t & Hl & Ht & He)]; [exists l, t; cbn; auto|exists l', t; cbn; auto].
Qed.

Lemma ents_nth ll e : ents ll e <-> exists i l t, nth_error ll i = Some l /\ In t l /\ In e t.
Proof.
  unfold ents. split.
  - intros (l & t & Hl & Ht & He). apply In_nth_error in Hl as (i & Hi). exists i, l, t. auto.
  - intros (i & l & t & Hi & Ht & He). exists l, t. split; [eapply nth_error_In; eauto|auto].
Qed.

(* [v_ord] on its own: unlike [LLInv], it passes to the tail of a level list *)
Definition ordered (ll : levels) : Prop :=
  forall i j li lj t t' e e', (i < j)%nat -> nth_error ll i = Some li -> nth_error ll j = Some lj ->
    In t li -> In t' lj -> In e t -> In e' t' -> ekey e = ekey e' -> eseq e' < eseq e.

Lemma ordered_cons l ll :
  ordered (l :: ll) -> ordered ll /\ forall e e', ents_of l e -> ents ll e' -> ekey e = ekey e' -> eseq e' < eseq e.
Proof.
  intros H. split.
  - intros i j li lj t t' e e' Hij. apply (H (S i) (S j)). lia.
  - intros e e' (t & Ht & He) He' Hk. apply ents_nth in He' as (j & lj & t' & Hj & Ht' & He').
    apply (H 0%nat (S j) l lj t t' e e'); auto. lia.
Qed.

Lemma deep_newest k deep :
  (forall l, In l deep -> deep_ok l) -> ordered deep -> newest (ents deep) k (first_some (map (lvl_get k) deep)).
Proof.
  induction deep as [|l deep IH]; intros Hd Ho; [intros e (l & t & [] & _)|].
  destruct (ordered_cons _ _ Ho) as [Ho' Hord]. eapply newest_ext; [intros e _; symmetry; apply ents_cons|].
  apply newest_first; [|apply IH; [intros x Hx; apply Hd; right; exact Hx|exact Ho']|exact Hord].
  pose proof (Hd l (or_introl eq_refl)) as Hl. rewrite lvl_get_spec by exact Hl.
  eapply newest_ext; [|exact (sorted_newest _ k (proj1 Hl))]. intros e _. apply in_concat.
Qed.

Theorem ll_get_is_newest ll k : LLInv ll -> newest (ents ll) k (ll_get k ll).
Proof.
  intros Hv. destruct ll as [|l0 deep]; [intros e (l & t & [] & _)|].
  destruct (ordered_cons _ _ (v_ord _ Hv)) as [Ho' Hord]. eapply newest_ext; [intros e _; symmetry; apply ents_cons|].
  apply (newest_first (ents_of l0) (ents deep)); [| |exact Hord].
  - eapply newest_ext; [|apply (l0_newest k l0 (fun _ => False) None)].
    + intros e _. tauto.
    + intros t Ht. apply (v_sorted _ Hv l0); [left; reflexivity|exact Ht].
    + intros e [].
  - apply deep_newest; [|exact Ho']. intros l Hl. apply In_nth_error in Hl as (i & Hi). exact (v_deep _ Hv i l Hi).
Qed.

Theorem ll_get_ok ll k : LLInv ll -> ll_get k ll = tbl_get k (view ll).
Proof. intros Hv. symmetry. apply view_is, ll_get_is_newest; exact Hv. Qed.

Theorem ll_scan_ok ll p : LLInv ll -> ll_scan_entries p ll = tbl_scan p (view ll).
Proof.
  intros Hv. unfold ll_scan_entries.
  eapply Mx_sub_eq; [apply Mx_merge_all|apply Mx_scan, ents_view| | |].
  - intros e e' [He _] [He' _]. apply (LLInv_uniq _ Hv); auto.
  - intros e (s & Hs & He). apply in_map_iff in Hs as (t & <- & Ht). apply filter_In in Ht as [Ht _].
    apply filter_In in He as [He Hp]. apply in_concat in Ht as (l & Hl & Ht). split; [exists l, t; auto|exact Hp].
  - intros e [(l & t & Hl & Ht & He) Hp]. exists e. split; [|split; [reflexivity|lia]].
    exists (tbl_scan p t). split; [|apply filter_In; auto]. apply in_map, filter_In. split; [apply in_concat; eauto|].
    eapply range_contains_prefix_in; eauto. eapply v_sorted; eauto.
Qed.

Lemma view_get ll k m :
  tbl_get k (view ll) = Some m -> ents ll m /\ ekey m = k /\ forall e, ents ll e -> ekey e = k -> eseq e <= eseq m.
Proof. intros G. pose proof (view_newest ll k) as H. rewrite G in H. exact H. Qed.

Lemma view_dominates ll e : LLInv ll -> ents ll e -> dominated (view ll) e.
Proof.
  intros Hv He. pose proof (view_newest ll (ekey e)) as H. destruct (tbl_get (ekey e) (view ll)) as [m|] eqn:G; [|destruct (H e He eq_refl)].
  destruct H as (H1 & H2 & H3). exists m. split; [exact G|]. split; [auto|]. intros Heq. apply (LLInv_uniq _ Hv); auto.
Qed.

(* the view's answer for a key depends only on the versions of that key *)
Lemma view_get_same a b k :
  LLInv a -> (forall e, ekey e = k -> ents a e <-> ents b e) -> tbl_get k (view a) = tbl_get k (view b).
Proof. intros Ha H. apply view_is; [exact Ha|]. apply (newest_ext (ents b)); [|apply view_newest]. intros e Hk. symmetry. auto. Qed.

(* the view survives when entries only disappear and each has a version at least as new left *)
Lemma view_sub_eq a b :
  LLInv b -> (forall e, ents a e -> ents b e) ->
  (forall e, ents b e -> exists m, ents a m /\ ekey m = ekey e /\ eseq e <= eseq m) -> view a = view b.
Proof. intros Hb. exact (Mx_sub_eq _ _ _ _ (ents_view a) (ents_view b) (LLInv_uniq _ Hb)). Qed.

Lemma view_nil ll : (forall e, ~ ents ll e) -> view ll = [].
Proof.
  intros H. destruct (view ll) as [|e t] eqn:E; [reflexivity|]. destruct (ents_view ll) as (_ & H2 & _).
  rewrite E in H2. destruct (H e). apply H2. left. reflexivity.
Qed.
