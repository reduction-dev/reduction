(* C19: the index-assigner call-backs of the binary heap (Model/HeapIdx.v) track positions.
   1. the instrumented functions compute the same slices as the pure model (Model/Heap.v), so every theorem of
      C19_Heap.v transfers;
   2. for a duplicate-free slice, a client that records the last reported index of every element ([apply_events])
      knows the position of every element after Push / Pop / Fix ([tracks]); the popped element is reported -1,
      except for the quirk of Pop on a one-element heap, where it is reported -1 and then 0. *)
From Coq Require Import List Arith Bool ZArith Lia Permutation.
From RV Require Import Model.Heap Model.HeapIdx Proofs.C19_Heap.
Import ListNotations.

Local Arguments Nat.mul : simpl never.
Local Arguments Nat.div2 : simpl never.

Section HeapIdxProofs.
  Context {A : Type} (lt : A -> A -> bool).

  Lemma swapE_fst : forall i j (l : list A), fst (swapE i j l) = swap i j l.
  Proof. reflexivity. Qed.

  (* both loops are chains of swaps: their events are those of the swaps, in order *)
  Inductive swaps : list A -> list A -> list (A * Z) -> Prop :=
  | swaps_nil : forall l, swaps l l []
  | swaps_cons : forall i j l l' e, swaps (swap i j l) l' e -> swaps l l' (snd (swapE i j l) ++ e).

  Lemma up_loopE_swaps : forall f (l : list A) i,
      fst (up_loopE lt f l i) = up_loop lt f l i /\
      swaps l (up_loop lt f l i) (snd (up_loopE lt f l i)).
  Proof.
    induction f as [|f IH]; intros l i.
    (* every way the loop stops returns (l, []): stated once, in the shape the goal has there *)
    all: assert (Hstop : fst (l, @nil (A * Z)) = l /\ swaps l l (snd (l, @nil (A * Z))))
      by (split; [reflexivity|constructor]).
    - exact Hstop.
    - destruct i as [|i]; [exact Hstop|]. cbn [up_loopE up_loop].
      destruct (nth_error l (S i)) as [vi|], (nth_error l (Nat.div2 (S i - 1))) as [vp|]; try exact Hstop.
      destruct (lt vi vp); [|exact Hstop].
      destruct (IH (swap (S i) (Nat.div2 (S i - 1)) l) (Nat.div2 (S i - 1))) as [E Hs].
      unfold swapE. cbv beta iota zeta.
      destruct (up_loopE lt f _ _) as [l2 e2]. cbn [fst snd] in *.
      split; [exact E|exact (swaps_cons _ _ _ _ _ Hs)].
  Qed.

  Lemma down_loopE_swaps : forall f (l : list A) i,
      fst (down_loopE lt f l i) = down_loop lt f l i /\
      swaps l (fst (down_loop lt f l i)) (snd (down_loopE lt f l i)) /\
      (snd (down_loop lt f l i) <= i -> down_loopE lt f l i = (l, i, [])).
  Proof.
    induction f as [|f IH]; intros l i.
    (* every way the loop stops returns (l, i, []): stated once, in the shape the goal has there *)
    all: assert (Hstop : fst (l, i, @nil (A * Z)) = (l, i) /\ swaps l (fst (l, i)) (snd (l, i, @nil (A * Z))) /\
                         (snd (l, i) <= i -> (l, i, @nil (A * Z)) = (l, i, [])))
      by (split; [reflexivity|split; [constructor|reflexivity]]).
    - exact Hstop.
    - rewrite down_loop_S. cbn [down_loopE].
      destruct (nth_error l (2 * i + 1)) as [vl|]; [|exact Hstop].
      fold (down_child lt l i vl).
      pose proof (is_child_lt _ _ (down_child_is_child lt l i vl)) as Hlt.
      destruct (nth_error l (down_child lt l i vl)) as [vj|], (nth_error l i) as [vi|]; try exact Hstop.
      destruct (lt vj vi); [|exact Hstop].
      destruct (IH (swap i (down_child lt l i vl) l) (down_child lt l i vl)) as (E & Hs & _).
      pose proof (down_loop_ge lt f (swap i (down_child lt l i vl) l) (down_child lt l i vl)) as Hge.
      unfold swapE. cbv beta iota zeta.
      destruct (down_loopE lt f _ _) as [[l2 i2] e2]. cbn [fst snd] in *.
      split; [exact E|split; [exact (swaps_cons _ _ _ _ _ Hs)|lia]].
  Qed.

  Lemma upE_fst : forall (l : list A) i, fst (upE lt l i) = up lt l i.
  Proof. intros l i. exact (proj1 (up_loopE_swaps _ l i)). Qed.

  Lemma down_loopE_fst : forall f (l : list A) i, fst (down_loopE lt f l i) = down_loop lt f l i.
  Proof. intros f l i; apply down_loopE_swaps. Qed.

  Lemma downE_unfold : forall (l : list A) i,
      downE lt l i =
        (fst (down_loop lt (length l) l i), i <? snd (down_loop lt (length l) l i),
         snd (down_loopE lt (length l) l i)).
  Proof.
    intros l i. unfold downE.
    rewrite <- down_loopE_fst.
    destruct (down_loopE lt (length l) l i) as [[l' i'] e]; reflexivity.
  Qed.

  Lemma downE_fst : forall (l : list A) i, fst (downE lt l i) = down lt l i.
  Proof.
    intros l i. rewrite downE_unfold. unfold down.
    destruct (down_loop lt (length l) l i) as [l' i']; reflexivity.
  Qed.

  Lemma pushE_unfold : forall x (l : list A),
      pushE lt x l =
        (up lt (l ++ [x]) (length l), (x, Z.of_nat (length l)) :: snd (upE lt (l ++ [x]) (length l))).
  Proof.
    intros x l. unfold pushE.
    replace (length (l ++ [x]) - 1) with (length l) by (rewrite app_length; simpl; lia).
    rewrite <- upE_fst. destruct (upE lt (l ++ [x]) (length l)) as [l2 e]. cbn [fst snd].
    do 3 f_equal. rewrite app_length. simpl. lia.
  Qed.

  Theorem pushE_fst : forall x (l : list A), fst (pushE lt x l) = push lt x l.
  Proof. intros x l. rewrite pushE_unfold. reflexivity. Qed.

  Lemma fixE_unfold : forall (l : list A) i,
      fixE lt l i =
        if i <? snd (down_loop lt (length l) l i)
        then (fst (down_loop lt (length l) l i), snd (down_loopE lt (length l) l i))
        else (up lt l i, snd (upE lt l i)).
  Proof.
    intros l i. unfold fixE. rewrite downE_unfold.
    destruct (i <? snd (down_loop lt (length l) l i)) eqn:Hm; [reflexivity|].
    apply Nat.ltb_ge in Hm.
    rewrite <- down_loopE_fst, (proj2 (proj2 (down_loopE_swaps _ _ _)) Hm). cbn [fst snd app].
    rewrite <- upE_fst.
    destruct (upE lt l i) as [l2 e2]; reflexivity.
  Qed.

  Theorem fixE_fst : forall (l : list A) i, fst (fixE lt l i) = fix_ lt l i.
  Proof.
    intros l i. rewrite fixE_unfold, fix_unfold.
    destruct (i <? snd (down_loop lt (length l) l i)); reflexivity.
  Qed.

  Lemma popE_nil : popE lt ([] : list A) = (None, [], []).
  Proof. reflexivity. Qed.

  Lemma popE_single : forall x : A, popE lt [x] = (Some x, [], [(x, (-1)%Z); (x, 0%Z)]).
  Proof. reflexivity. Qed.

  Lemma popE_snoc : forall (x : A) r y,
      popE lt (x :: r ++ [y]) =
        (Some x, fst (down_loop lt (length (y :: r)) (y :: r) 0),
         (x, (-1)%Z) :: (y, 0%Z) :: snd (down_loopE lt (length (y :: r)) (y :: r) 0)).
  Proof.
    intros x r y. destruct (pop_snoc_facts x r y) as (E1 & E2 & E3).
    unfold popE. rewrite E1, E2, E3, downE_unfold. reflexivity.
  Qed.

  Theorem popE_fst : forall l : list A, fst (popE lt l) = pop lt l.
  Proof.
    intros [|x r]; [reflexivity|].
    induction r as [|y r _] using rev_ind; [reflexivity|].
    rewrite popE_snoc, pop_snoc, fst_down. reflexivity.
  Qed.

  Section Tracks.
    Context (eqb : A -> A -> bool).
    Hypothesis Heqb : forall a b, eqb a b = true <-> a = b.

    Lemma eqb_same : forall a, eqb a a = true.
    Proof. intro a. apply Heqb. reflexivity. Qed.

    Lemma eqb_diff : forall a b, a <> b -> eqb a b = false.
    Proof.
      intros a b Hne. destruct (eqb a b) eqn:E; [|reflexivity].
      exfalso. apply Hne. apply Heqb. exact E.
    Qed.

    Lemma apply_events_cons : forall a k r (idx : A -> Z),
        apply_events eqb ((a, k) :: r) idx =
          apply_events eqb r (fun y => if eqb y a then k else idx y).
    Proof. reflexivity. Qed.

    Lemma apply_events_app : forall e1 e2 (idx : A -> Z),
        apply_events eqb (e1 ++ e2) idx = apply_events eqb e2 (apply_events eqb e1 idx).
    Proof.
      induction e1 as [|[a k] r IH]; intros e2 idx; [reflexivity|].
      simpl. apply IH.
    Qed.

    Lemma apply_events_notin : forall evs (idx : A -> Z) x,
        (forall a k, In (a, k) evs -> a <> x) -> apply_events eqb evs idx x = idx x.
    Proof.
      induction evs as [|[a k] r IH]; intros idx x Hnot; [reflexivity|].
      rewrite apply_events_cons. rewrite IH.
      - rewrite eqb_diff; [reflexivity|].
        intro E. apply (Hnot a k); [left; reflexivity|symmetry; exact E].
      - intros a' k' Hin. apply (Hnot a' k'). right; exact Hin.
    Qed.

    Definition evs_in (evs : list (A * Z)) (l : list A) : Prop :=
      forall a k, In (a, k) evs -> In a l.

    Lemma swap_nodup : forall i j (l : list A), NoDup l -> NoDup (swap i j l).
    Proof.
      intros i j l. apply Permutation_NoDup, Permutation_sym, swap_perm.
    Qed.

    (* the client's view is exact on the positions in P: an operation leaves it exact on some positions, and each
       call-back adds the position it reports (tracks_on_assign) *)
    Definition tracks_on (P : nat -> Prop) (l : list A) (idx : A -> Z) : Prop :=
      forall i x, P i -> nth_error l i = Some x -> idx x = Z.of_nat i.

    Lemma tracks_on_assign : forall (P : nat -> Prop) (l : list A) idx k a,
        NoDup l -> nth_error l k = Some a -> tracks_on P l idx ->
        tracks_on (fun i => P i \/ i = k) l (fun y => if eqb y a then Z.of_nat k else idx y).
    Proof.
      intros P l idx k a Hnd Hk Htr i x Hi Hx.
      destruct (eqb x a) eqn:E.
      - apply Heqb in E. subst x. f_equal. exact (nodup_pos_inj l k i a Hnd Hk Hx).
      - destruct Hi as [Hi| ->]; [exact (Htr i x Hi Hx)|].
        rewrite Hk in Hx. injection Hx as <-. rewrite eqb_same in E. discriminate E.
    Qed.

    Lemma tracks_nil : forall idx : A -> Z, tracks [] idx.
    Proof. intros idx [|i] x H; discriminate H. Qed.

    Lemma swapE_cases : forall i j (l : list A),
        swapE i j l = (l, []) \/
        exists a b c d, nth_error l i = Some a /\ nth_error l j = Some b /\
          nth_error (swap i j l) i = Some c /\ nth_error (swap i j l) j = Some d /\
          snd (swapE i j l) = [(c, Z.of_nat i); (d, Z.of_nat j)].
    Proof.
      intros i j l. unfold swapE.
      destruct (nth_error l i) as [a|] eqn:Hi; [destruct (nth_error l j) as [b|] eqn:Hj|].
      - right. exists a, b.
        apply nth_error_lt in Hi as Hil. apply nth_error_lt in Hj as Hjl.
        rewrite <- (swap_length i j l) in Hil, Hjl.
        destruct (nth_error (swap i j l) i) as [c|] eqn:Hc; [|apply nth_error_None in Hc; lia].
        destruct (nth_error (swap i j l) j) as [d|] eqn:Hd; [|apply nth_error_None in Hd; lia].
        exists c, d. auto.
      - left. unfold swap. rewrite Hi, Hj, Hi, Hj. reflexivity.
      - left. unfold swap. rewrite Hi, Hi. reflexivity.
    Qed.

    Lemma swapE_evs_in : forall i j (l : list A), evs_in (snd (swapE i j l)) l.
    Proof.
      intros i j l x k Hin. apply (Permutation_in x (swap_perm i j l)).
      destruct (swapE_cases i j l) as [E|(a & b & c & d & _ & _ & Hc & Hd & E)]; rewrite E in Hin;
        [destruct Hin|].
      destruct Hin as [[= <- _]|[[= <- _]|[]]]; eapply nth_error_In; eassumption.
    Qed.

    Lemma swapE_tracks : forall i j (l : list A) idx,
        NoDup l -> tracks l idx ->
        tracks (swap i j l) (apply_events eqb (snd (swapE i j l)) idx).
    Proof.
      intros i j l idx Hnd Htr.
      destruct (swapE_cases i j l) as [E|(a & b & c & d & Hi & Hj & Hc & Hd & E)].
      { rewrite <- swapE_fst, E. exact Htr. }
      rewrite E. cbn [apply_events].
      (* the exchange leaves the view exact away from i and j; the two call-backs repair i, then j *)
      assert (H0 : tracks_on (fun k => k <> i /\ k <> j) (swap i j l) idx).
      { intros k x [Nki Nkj] Hk. rewrite (swap_eq l i j a b Hi Hj), !nth_error_upd_neq in Hk by congruence.
        exact (Htr k x Hk). }
      pose proof (swap_nodup i j l Hnd) as Hnd'.
      pose proof (tracks_on_assign _ _ _ j d Hnd' Hd (tracks_on_assign _ _ _ i c Hnd' Hc H0)) as H2.
      intros k x. apply H2. destruct (Nat.eq_dec k i), (Nat.eq_dec k j); auto.
    Qed.

    Lemma swaps_tracks : forall (l l' : list A) e, swaps l l' e -> forall idx,
        NoDup l -> tracks l idx -> tracks l' (apply_events eqb e idx).
    Proof.
      induction 1 as [l|i j l l' e _ IH]; intros idx Hnd Htr; [exact Htr|].
      rewrite apply_events_app.
      apply IH; [apply swap_nodup; exact Hnd|apply swapE_tracks; assumption].
    Qed.

    Lemma swaps_evs_in : forall (l l' : list A) e, swaps l l' e -> evs_in e l.
    Proof.
      induction 1 as [l|i j l l' e _ IH]; intros a k Hin; [destruct Hin|].
      apply in_app_or in Hin. destruct Hin as [Hin|Hin].
      - exact (swapE_evs_in _ _ _ a k Hin).
      - exact (Permutation_in a (swap_perm i j l) (IH a k Hin)).
    Qed.

    Lemma up_loopE_evs_in : forall f (l : list A) i, evs_in (snd (up_loopE lt f l i)) l.
    Proof. intros f l i. exact (swaps_evs_in _ _ _ (proj2 (up_loopE_swaps f l i))). Qed.

    Theorem upE_tracks : forall (l : list A) i idx,
        NoDup l -> tracks l idx ->
        tracks (up lt l i) (apply_events eqb (snd (upE lt l i)) idx).
    Proof. intros l i idx. exact (swaps_tracks _ _ _ (proj2 (up_loopE_swaps _ l i)) idx). Qed.

    Lemma down_loopE_evs_in : forall f (l : list A) i, evs_in (snd (down_loopE lt f l i)) l.
    Proof. intros f l i. exact (swaps_evs_in _ _ _ (proj1 (proj2 (down_loopE_swaps f l i)))). Qed.

    Lemma down_loopE_tracks : forall f (l : list A) i idx,
        NoDup l -> tracks l idx ->
        tracks (fst (down_loop lt f l i)) (apply_events eqb (snd (down_loopE lt f l i)) idx).
    Proof. intros f l i idx. exact (swaps_tracks _ _ _ (proj1 (proj2 (down_loopE_swaps f l i))) idx). Qed.

    Theorem pushE_tracks : forall x (l : list A) idx,
        NoDup (l ++ [x]) -> tracks l idx ->
        tracks (push lt x l) (apply_events eqb (snd (pushE lt x l)) idx).
    Proof.
      intros x l idx Hnd Htr.
      rewrite pushE_unfold. cbn [snd]. rewrite apply_events_cons. unfold push.
      apply upE_tracks; [exact Hnd|].
      (* the view is exact on the old positions; the call-back of Push adds the new last one *)
      assert (H0 : tracks_on (fun k => k < length l) (l ++ [x]) idx).
      { intros k z Hk Hz. rewrite nth_error_app1 in Hz by exact Hk. exact (Htr k z Hz). }
      assert (Hx : nth_error (l ++ [x]) (length l) = Some x).
      { rewrite nth_error_app2, Nat.sub_diag by lia. reflexivity. }
      intros k z Hz. apply (tracks_on_assign _ _ _ _ _ Hnd Hx H0); [|exact Hz].
      apply nth_error_lt in Hz. rewrite app_length in Hz. simpl in Hz. lia.
    Qed.

    Theorem popE_tracks : forall (l : list A) idx x l',
        NoDup l -> tracks l idx -> pop lt l = (Some x, l') ->
        tracks l' (apply_events eqb (snd (popE lt l)) idx) /\
        (length l > 1 -> apply_events eqb (snd (popE lt l)) idx x = (-1)%Z).
    Proof.
      intros [|x0 r] idx x l' Hnd Htr Hpop; [discriminate Hpop|].
      induction r as [|y r' _] using rev_ind.
      - rewrite pop_single in Hpop. inversion Hpop; subst x l'.
        split; [apply tracks_nil|]. simpl length. lia.
      - rewrite pop_snoc in Hpop. inversion Hpop; subst x l'. clear Hpop.
        rewrite popE_snoc, fst_down. cbn [snd]. rewrite !apply_events_cons.
        assert (Hperm : Permutation (r' ++ [y]) (y :: r')) by apply Permutation_sym, Permutation_cons_append.
        apply NoDup_cons_iff in Hnd as Hnd1. destruct Hnd1 as [Hnotin Hnd1].
        rewrite Hperm in Hnotin, Hnd1.
        split.
        + apply down_loopE_tracks; [exact Hnd1|].
          (* away from the root the positions are the old ones and x0 is not there; the call-back for y repairs
             the root *)
          assert (H0 : tracks_on (fun k => 0 < k) (y :: r') (fun z => if eqb z x0 then (-1)%Z else idx z)).
          { intros [|k] z Hk Hz; [lia|]. simpl in Hz.
            rewrite eqb_diff by (intros ->; apply Hnotin; right; exact (nth_error_In _ _ Hz)).
            apply (Htr (S k) z). simpl. rewrite nth_error_app1 by exact (nth_error_lt _ _ _ Hz). exact Hz. }
          intros k z. apply (tracks_on_assign _ _ _ 0 y Hnd1 eq_refl H0). lia.
        + intros _. rewrite apply_events_notin.
          * rewrite eqb_diff by (intros ->; apply Hnotin; left; reflexivity).
            rewrite eqb_same; reflexivity.
          * intros a k Hin ->. apply Hnotin.
            exact (down_loopE_evs_in _ _ _ x0 k Hin).
    Qed.

    Corollary popE_popped_index : forall (l : list A) idx x l',
        NoDup l -> tracks l idx -> pop lt l = (Some x, l') -> length l > 1 ->
        apply_events eqb (snd (popE lt l)) idx x = (-1)%Z.
    Proof.
      intros l idx x l' Hnd Htr Hpop Hlen.
      exact (proj2 (popE_tracks l idx x l' Hnd Htr Hpop) Hlen).
    Qed.

    (* the quirk: Pop on a one-element heap reports -1 and then 0 for the popped element
       (data[0] is still x when assign(data[0], 0) runs), so the client is left believing that the
       popped element sits at position 0 *)
    Theorem popE_last_element_quirk : forall (l : list A) idx x l',
        length l = 1 -> pop lt l = (Some x, l') ->
        snd (popE lt l) = [(x, (-1)%Z); (x, 0%Z)] /\
        apply_events eqb (snd (popE lt l)) idx x = 0%Z.
    Proof.
      intros l idx x l' Hlen Hpop.
      destruct l as [|a [|b r]]; simpl in Hlen; try lia.
      rewrite pop_single in Hpop. inversion Hpop; subst x l'.
      rewrite popE_single. simpl snd. split; [reflexivity|].
      rewrite !apply_events_cons. simpl apply_events. rewrite eqb_same. reflexivity.
    Qed.

    Theorem fixE_tracks_gen : forall (l : list A) i idx,
        NoDup l -> tracks l idx ->
        tracks (fix_ lt l i) (apply_events eqb (snd (fixE lt l i)) idx).
    Proof.
      intros l i idx Hnd Htr. rewrite fixE_unfold, fix_unfold.
      destruct (i <? snd (down_loop lt (length l) l i)); simpl snd.
      - apply down_loopE_tracks; assumption.
      - apply upE_tracks; assumption.
    Qed.

    Theorem fixE_tracks : forall (l : list A) i idx,
        NoDup l -> i < length l -> tracks l idx ->
        tracks (fix_ lt l i) (apply_events eqb (snd (fixE lt l i)) idx).
    Proof. intros l i idx Hnd _ Htr. apply fixE_tracks_gen; assumption. Qed.

    (* the slices stay duplicate-free, so the theorems chain over any sequence of operations *)
    Lemma push_nodup : forall x (l : list A), NoDup (l ++ [x]) -> NoDup (push lt x l).
    Proof.
      intros x l. unfold push. apply Permutation_NoDup, Permutation_sym, up_perm.
    Qed.

    Lemma pop_nodup : forall (l : list A) x l', NoDup l -> pop lt l = (Some x, l') -> NoDup l'.
    Proof.
      intros l x l' Hnd Hpop.
      pose proof (Permutation_NoDup (pop_perm lt l x l' Hpop) Hnd) as H.
      inversion H; assumption.
    Qed.

    Lemma fix_nodup : forall (l : list A) i, NoDup l -> NoDup (fix_ lt l i).
    Proof.
      intros l i. apply Permutation_NoDup, Permutation_sym, fix_perm.
    Qed.
  End Tracks.
End HeapIdxProofs.

(* concrete check of the quirk and of tracking on a sample (A := nat) *)
Example quirk_sample :
  apply_events Nat.eqb (snd (popE Nat.ltb [4])) (fun _ => 0%Z) 4 = 0%Z /\
  map (apply_events Nat.eqb (snd (popE Nat.ltb [1; 2; 3; 5; 7; 4])) (fun _ => 99%Z)) [1; 2; 4; 3; 5; 7]
    = [(-1)%Z; 0%Z; 1%Z; 99%Z; 99%Z; 99%Z].
Proof. split; vm_compute; reflexivity. Qed.

(* one term over lemmas of this file, so that one Print Assumptions shows them closed under the global context *)
Definition C19_heapidx_audit :=
  (@pushE_fst, @popE_fst, @fixE_fst, @swapE_tracks, @upE_tracks, @pushE_tracks, @popE_tracks,
   @popE_popped_index, @popE_last_element_quirk, @fixE_tracks, @fixE_tracks_gen,
   @push_nodup, @pop_nodup, @fix_nodup, @quirk_sample).
Print Assumptions C19_heapidx_audit.
