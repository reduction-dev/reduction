(* C20, part 2: the reorder fetcher (Model/Reorder.v).  The step functions are read once as rules (fstep, rstep) and every
   proof about a step goes by cases on them.  One invariant, InvC, for the code with the flush mutex (rp_fixed = true);
   three ghost observers, each with an invariant of its own, the one for the errors valid without the mutex too; the code
   without the mutex (rp_fixed = false) by two computed schedules. *)
From Coq Require Import List NArith ZArith Bool Arith Lia Permutation.
From RV Require Import Model.Batcher Model.Reorder Proofs.C20_Batcher.
From RV Require Import Base.Lists.
Import ListNotations.
Open Scope nat_scope.

(* b = a ++ something *)
Definition prefix {A} (a b : list A) : Prop := exists c, b = a ++ c.

Lemma prefix_refl : forall {A} (l : list A), prefix l l.
Proof. intros A l. exists []. now rewrite app_nil_r. Qed.

Lemma nth_error_app_l : forall {A} (l l' : list A) k x, nth_error l k = Some x -> nth_error (l ++ l') k = Some x.
Proof. intros A l l' k x H. rewrite nth_error_app1; [assumption|]. exact (nth_error_lt _ _ _ H). Qed.

(* Reorder.set_nth and del_nth are Lists.set_at and drop_at *)
Lemma nth_error_set_del : forall {A} (l : list A) i g, nth_error l i = Some g ->
  exists l1 l2, l = l1 ++ g :: l2 /\ (forall x, set_nth i x l = l1 ++ x :: l2) /\ del_nth i l = l1 ++ l2.
Proof. intros A. exact (@set_drop_at_split A). Qed.

Section Steps.
Context {T R : Type}.
Variable fetch : list T -> list R.
Variable p : rparams.

Notation rstate := (rstate T R).
Notation pc := (pc T).

Lemma lookup_remove_key : forall k d (m : list (nat * list R)),
  lookup k (remove_key d m) = if Nat.eqb k d then None else lookup k m.
Proof.
  intros k d m. induction m as [|[k' v] m IH]; cbn [remove_key lookup].
  - now destruct (Nat.eqb k d).
  - destruct (Nat.eqb_spec d k') as [<-|E1]; [|cbn [lookup]]; rewrite IH;
      destruct (Nat.eqb_spec k d) as [->|E2]; try reflexivity.
    now apply Nat.eqb_neq in E1 as ->.
Qed.

Lemma lookup_put : forall k k' v (m : list (nat * list R)),
  lookup k (put k' v m) = if Nat.eqb k k' then Some v else lookup k m.
Proof. intros k k' v m. unfold put. cbn [lookup]. rewrite lookup_remove_key. now destruct (Nat.eqb k k'). Qed.

Lemma remove_key_length : forall d (m : list (nat * list R)),
  length (remove_key d m) <= length m /\ (lookup d m <> None -> length (remove_key d m) < length m).
Proof.
  intros d m. induction m as [|[k' v] m [IH1 IH2]]; cbn [remove_key lookup length]; [now split|].
  destruct (Nat.eqb d k'); cbn [length]; split; try lia. intros H. specialize (IH2 H). lia.
Qed.

(* the states after the steps that do more than move a program counter *)
Definition s_take (s : rstate) : rstate :=
  mkR (mkB [] (token (bt s) + 1)%Z None) (script s) (apc s) (tpc s) (inflight s) (rp_fixed p) (reserved s) (nextseq s)
      (drained s) (items s) (fetchers s) (out s) (added s) (flushed s ++ [batch (bt s)]).
Definition s_go (s : rstate) (seq : nat) (ev : list T) (r : nat) : rstate :=
  mkR (bt s) (script s) (apc s) (tpc s) (inflight s) false (reserved s) (S r) (drained s) (items s)
      (fetchers s ++ [mkF seq ev Fetching]) (out s) (added s) (flushed s).
Definition s_add (s : rstate) (x : T) (sc : list (aop T)) : rstate :=
  mkR (b_add (rp_b p) x (bt s)) sc PAdded (tpc s) (inflight s) (flock s) (reserved s) (nextseq s) (drained s)
      (items s) (fetchers s) (out s) (added s ++ [x]) (flushed s).
Definition s_done (s : rstate) (i seq : nat) (ev : list T) : rstate :=
  mkR (bt s) (script s) (apc s) (tpc s) (inflight s) (flock s) (reserved s) (nextseq s) (drained s)
      (put seq (fetch ev) (items s)) (set_nth i (mkF seq ev Added) (fetchers s)) (out s) (added s) (flushed s).
Definition s_drain (s : rstate) (fs : list (fetcher T)) (d : nat) (its : list (nat * list R)) (res : nat) (o : list R) : rstate :=
  mkR (bt s) (script s) (apc s) (tpc s) (inflight s) (flock s) res (nextseq s) d its fs o (added s) (flushed s).
(* one turn of the Drain loop *)
Definition s_pop (s : rstate) (r : list R) : rstate :=
  s_drain s (fetchers s) (S (drained s)) (remove_key (drained s) (items s)) (Nat.pred (reserved s)) (out s ++ r).

(* The rules of flush() and of the five actions.  Every variable and premise of a rule has its name in the rule's binders:
   the proofs by cases on [fstep] / [rstep] take those names from here. *)
Inductive fstep : pc -> rstate -> pc -> rstate -> Prop :=
| FEmpty s (Efree : rp_fixed p && flock s = false) (Eb : batch (bt s) = []) : fstep PFlush s PIdle s
| FTake s (Efree : rp_fixed p && flock s = false) (Eb : batch (bt s) <> []) :
    fstep PFlush s (PReserve (batch (bt s))) (s_take s)
| FReserve s ev (Eslot : reserved s < max_items p) : fstep (PReserve ev) s (PRead ev) (set_reserved (S (reserved s)) s)
| FRead s ev : fstep (PRead ev) s (PInc ev (nextseq s)) s
| FInc s ev seq : fstep (PInc ev seq) s (PWrite ev seq (nextseq s)) s
| FWrite s ev seq r : fstep (PWrite ev seq r) s PIdle (s_go s seq ev r).

Lemma flush_step_fstep : forall c s c' s', flush_step p c s = Some (c', s') -> fstep c s c' s'.
Proof.
  intros c s c' s'. destruct c; cbn [flush_step]; try discriminate.
  - destruct (rp_fixed p && flock s) eqn:E; [discriminate|]. rewrite b_flush_current.
    destruct (batch (bt s)) eqn:Eb; cbn; intros [= <- <-].
    + now constructor.
    + rewrite <- Eb. constructor; [assumption|]. now rewrite Eb.
  - destruct (Nat.ltb_spec (reserved s) (max_items p)); intros [= <- <-]. now constructor.
  - intros [= <- <-]. constructor.
  - intros [= <- <-]. constructor.
  - intros [= <- <-]. constructor.
Qed.

Inductive rstep : action -> rstate -> rstate -> Prop :=
| RAdd s x sc (Ea : apc s = PIdle) (Es : script s = AddOp x :: sc) : rstep AAdder s (s_add s x sc)
| RCall s sc (Ea : apc s = PIdle) (Es : script s = FlushOp :: sc) :
    rstep AAdder s
      (mkR (bt s) sc PFlush (tpc s) (inflight s) (flock s) (reserved s) (nextseq s) (drained s)
           (items s) (fetchers s) (out s) (added s) (flushed s))
| RFull s (Ea : apc s = PAdded) : rstep AAdder s (set_apc (if b_full (rp_b p) (bt s) then PFlush else PIdle) s)
| RAFlush s c' s' (F : fstep (apc s) s c' s') : rstep AAdder s (set_apc c' s')
| RRecv s n (Et : tpc s = PIdle) (Ei : inflight s = S n) : rstep ATimeout s (set_tpc PFlush (set_inflight n s))
| RTFlush s c' s' (F : fstep (tpc s) s c' s') : rstep ATimeout s (set_tpc c' s')
| RFire s t (Earm : armed (bt s) = Some t) : rstep ATimerFire s (set_inflight (S (inflight s)) s)
| RComplete s i seq ev (En : nth_error (fetchers s) i = Some (mkF seq ev Fetching)) :
    rstep (AComplete i) s (s_done s i seq ev)
| RDrain s i seq ev d its res o (En : nth_error (fetchers s) i = Some (mkF seq ev Added))
    (Ed : drain_loop (S (length (items s))) (drained s) (items s) (reserved s) (out s) = (d, its, res, o)) :
    rstep (ADrain i) s (s_drain s (del_nth i (fetchers s)) d its res o).

(* a goroutine inside flush(): g puts the new program counter in its place *)
Lemma flush_step_some : forall (g : pc -> rstate -> rstate) c s s1,
  match flush_step p c s with Some (c', s') => Some (g c' s') | None => None end = Some s1 ->
  exists c' s', fstep c s c' s' /\ s1 = g c' s'.
Proof. intros g c s s1. destruct (flush_step p c s) as [[c' s']|] eqn:E; intros [= <-]. eauto using flush_step_fstep. Qed.

Lemma step_opt_rstep : forall a s s', step_opt fetch p a s = Some s' -> rstep a s s'.
Proof.
  intros a s s'. destruct a; cbn [step_opt].
  - (* the adder at PIdle | at PAdded | at one of the five program counters inside flush() *)
    unfold adder_step. destruct (apc s) eqn:Ea;
      [destruct (script s) as [|[x|] sc] eqn:Es; intros [= <-]; now constructor
      |intros [= <-]; now constructor
      |intros (c' & s1 & F & ->)%flush_step_some; apply RAFlush; now rewrite Ea ..].
  - (* the same for the time-out goroutine, which is never at PAdded *)
    unfold timeout_step. destruct (tpc s) eqn:Et;
      [destruct (inflight s) eqn:Ei; intros [= <-]; now constructor
      |discriminate
      |intros (c' & s1 & F & ->)%flush_step_some; apply RTFlush; now rewrite Et ..].
  - (* ATimerFire *) unfold timer_fire. destruct (armed (bt s)) as [t|] eqn:E; intros [= <-]. now apply RFire with t.
  - (* AComplete *) unfold complete_step. destruct (nth_error (fetchers s) i) as [[seq ev [|]]|] eqn:E; intros [= <-]. now constructor.
  - (* ADrain *) unfold drain_step. destruct (nth_error (fetchers s) i) as [[seq ev [|]]|] eqn:E; try discriminate.
    destruct (drain_loop _ _ _ _ _) as [[[d its] res] o] eqn:Ed. intros [= <-]. now apply RDrain with seq ev.
Qed.

Lemma step_cases : forall (P : rstate -> Prop) a s, P s -> (forall s', rstep a s s' -> P s') -> P (step fetch p a s).
Proof. intros P a s H0 H. unfold step. destruct (step_opt fetch p a s) eqn:E; auto using step_opt_rstep. Qed.

Lemma fstep_frame : forall c s c' s', fstep c s c' s' ->
  apc s' = apc s /\ tpc s' = tpc s /\ script s' = script s /\ inflight s' = inflight s /\ added s' = added s /\ out s' = out s.
Proof. destruct 1; cbn; auto 6. Qed.

Lemma fstep_flushed : forall c s c' s', fstep c s c' s' -> exists l, flushed s' = flushed s ++ l /\ length l <= 1.
Proof. destruct 1; cbn; [|now exists [batch (bt s)]; auto|..]; exists []; rewrite app_nil_r; auto. Qed.

Lemma step_flushed : forall a s, exists l, flushed (step fetch p a s) = flushed s ++ l /\ length l <= 1.
Proof.
  intros a s. apply step_cases; [|destruct 1; cbn; eauto using fstep_flushed]; exists []; rewrite app_nil_r; auto.
Qed.

Lemma drain_loop_out : forall fuel d its res (o : list R) d' its' res' o',
  drain_loop fuel d its res o = (d', its', res', o') -> exists o2, o' = o ++ o2.
Proof.
  induction fuel as [|fuel IH]; intros d its res o d' its' res' o' H; cbn [drain_loop] in H.
  2: destruct (lookup d its) as [r|].
  2: { apply IH in H as (o2 & ->). exists (r ++ o2). now rewrite app_assoc. }
  all: injection H as <- <- <- <-; exists []; now rewrite app_nil_r.
Qed.

End Steps.

Section ReorderProofs.
Context {T R : Type}.
Variable fetch : list T -> list R.
Variable p : rparams.
Hypothesis Hfixed : rp_fixed p = true.

Notation rstate := (rstate T R).
Notation pc := (pc T).


Definition in_crit (c : pc) : bool :=
  match c with PReserve _ | PRead _ | PInc _ _ | PWrite _ _ _ => true | _ => false end.

(* between `reserved <-` and `nextSeqNum++` a flusher holds a slot for a batch that has no number yet *)
Definition past (c : pc) : nat := match c with PRead _ | PInc _ _ | PWrite _ _ _ => 1 | _ => 0 end.

(* what a flusher inside the critical section holds: its batch is the last one handed out, and still has no number *)
Definition crit_ok (s : rstate) (c : pc) : Prop :=
  match c with
  | PReserve ev | PRead ev => exists fl, flushed s = fl ++ [ev] /\ length fl = nextseq s
  | PInc ev seq => exists fl, flushed s = fl ++ [ev] /\ length fl = nextseq s /\ seq = nextseq s
  | PWrite ev seq r => exists fl, flushed s = fl ++ [ev] /\ length fl = nextseq s /\ seq = nextseq s /\ r = nextseq s
  | _ => True
  end.

(* a, t: program counters of the adder and of the time-out goroutine (the fields apc/tpc of s are not looked at) *)
Record InvC (a t : pc) (s : rstate) : Prop := mkInv {
  (* the lock: held exactly while a flusher is between batcher.Flush and the end of Reserve, by one flusher at a time; with
     nobody inside, every batch handed out has its number; the flusher inside holds the last batch, which has none yet *)
  inv_lock : flock s = in_crit a || in_crit t;
  inv_excl : in_crit a && in_crit t = false;
  inv_nocrit : in_crit a = false -> in_crit t = false -> length (flushed s) = nextseq s;
  inv_a : crit_ok s a;
  inv_t : crit_ok s t;
  (* numbers are handed out in flush order: fetch goroutine and map entry number k belong to the k-th batch handed out *)
  inv_f : forall f, In f (fetchers s) -> nth_error (flushed s) (f_seq f) = Some (f_ev f) /\ f_seq f < nextseq s;
  inv_items : forall k r, lookup k (items s) = Some r ->
                          k < nextseq s /\ exists ev, nth_error (flushed s) k = Some ev /\ r = fetch ev;
  (* what was emitted and what was taken in *)
  inv_out : out s = concat (map fetch (firstn (drained s) (flushed s)));
  inv_cat : concat (flushed s) ++ batch (bt s) = added s;
  inv_dn : drained s <= nextseq s;
  (* nothing is forgotten: a number not drained yet is still being fetched or stored in the map, and a stored head of the
     queue has a fetch goroutine that will still call Drain; no_deadlock_inv and inv_all_drained rest on these two *)
  inv_cover : forall k, drained s <= k < nextseq s ->
                (exists f, In f (fetchers s) /\ f_seq f = k /\ f_stage f = Fetching) \/ lookup k (items s) <> None;
  inv_pend : lookup (drained s) (items s) <> None -> exists f, In f (fetchers s) /\ f_stage f = Added;
  (* every reserved slot belongs to a numbered batch not drained yet, or to a flusher past `reserved <-` *)
  inv_res : reserved s = nextseq s - drained s + past a + past t
}.

Definition Inv (s : rstate) : Prop := InvC (apc s) (tpc s) s.

(* the fields InvC reads *)
Definition core (s : rstate) :=
  (bt s, flock s, reserved s, nextseq s, drained s, items s, fetchers s, out s, added s, flushed s).

Lemma InvC_core : forall a t s s', core s' = core s -> InvC a t s -> InvC a t s'.
Proof. intros a t [] []. cbn. intros [=]. subst. intros []. constructor; assumption. Qed.

Lemma InvC_sym : forall a t s, InvC a t s -> InvC t a s.
Proof. intros a t s []. constructor; auto; [now rewrite orb_comm|now rewrite andb_comm|lia]. Qed.

Lemma Inv_init : forall sc, Inv (r_init sc).
Proof. intros sc. constructor; cbn; auto; easy. Qed.

Lemma crit_ok_ext : forall s s' c, flushed s' = flushed s -> nextseq s' = nextseq s -> crit_ok s c -> crit_ok s' c.
Proof. intros s s' c Hf Hn H. destruct c; cbn in *; try exact I; rewrite Hf, Hn; exact H. Qed.

Lemma crit_ok_nocrit : forall s c, in_crit c = false -> crit_ok s c.
Proof. intros s []; easy. Qed.

Lemma past_nocrit : forall c : pc, in_crit c = false -> past c = 0.
Proof. now intros []. Qed.

Lemma InvC_idle : forall a a' t s, in_crit a = false -> in_crit a' = false -> InvC a t s -> InvC a' t s.
Proof.
  intros a a' t s Ha Ha' []. rewrite Ha, ?(past_nocrit a) in * by assumption.
  constructor; rewrite ?Ha', ?(past_nocrit a') by assumption; auto using crit_ok_nocrit.
Qed.

Lemma inv_all_drained : forall a t s, InvC a t s -> fetchers s = [] -> drained s = nextseq s.
Proof.
  intros a t s [] Hf. destruct (Nat.eq_dec (drained s) (nextseq s)) as [|E]; [assumption|exfalso].
  destruct (inv_cover0 (drained s)) as [(f & Hin & _)|Hl]; [lia| |apply inv_pend0 in Hl as (f & Hin & _)];
    rewrite Hf in Hin; contradiction.
Qed.

(* the state comes from the goal, so that a field of [InvC a t s] can be given for a state that differs from [s] only in
   fields the clause does not read *)
Arguments mkInv a t s & _ _ _ _ _ _ _ _ _ _ _ _ _.

(* the goals of the fields, to be selected by name; the clauses that read the same in both states come from HI, and what is
   in the context is used *)
Ltac invc_fields HI :=
  refine {| inv_lock := ?[lock]; inv_excl := ?[excl]; inv_nocrit := ?[nocrit]; inv_a := ?[a]; inv_t := ?[t]; inv_f := ?[f];
            inv_items := ?[items]; inv_out := ?[out]; inv_cat := ?[cat]; inv_dn := ?[dn]; inv_cover := ?[cover];
            inv_pend := ?[pend]; inv_res := ?[res] |};
  try (destruct HI; assumption).

Lemma inv_FTake : forall o s, rp_fixed p && flock s = false -> InvC PFlush o s ->
  InvC (PReserve (batch (bt s))) o (s_take p s).
Proof.
  intros o s Efree HI. rewrite Hfixed in Efree. cbn in Efree.
  pose proof (inv_lock _ _ _ HI) as Ho. rewrite Efree in Ho. symmetry in Ho. cbn in Ho.
  assert (Hlen : length (flushed s) = nextseq s) by now apply (inv_nocrit _ _ _ HI).
  invc_fields HI; cbn.
  [nocrit]: easy.
  [a]: now exists (flushed s).
  [t]: now apply crit_ok_nocrit.
  [f]: { intros f Hin. destruct (inv_f _ _ _ HI f Hin). auto using nth_error_app_l. }
  [items]: { intros k r Hl. destruct (inv_items _ _ _ HI k r Hl) as (? & ev & ? & ?). eauto using nth_error_app_l. }
  [out]: { rewrite firstn_app_le by (pose proof (inv_dn _ _ _ HI); lia). apply (inv_out _ _ _ HI). }
  [cat]: { rewrite app_nil_r, concat_app. cbn. rewrite app_nil_r. apply (inv_cat _ _ _ HI). }
Qed.

Lemma inv_FReserve : forall o s ev, InvC (PReserve ev) o s -> InvC (PRead ev) o (set_reserved (S (reserved s)) s).
Proof. intros o s ev HI. invc_fields HI. [res]: { pose proof (inv_res _ _ _ HI) as Hres. cbn in *. lia. } Qed.

Lemma inv_FRead : forall o s ev, InvC (PRead ev) o s -> InvC (PInc ev (nextseq s)) o s.
Proof. intros o s ev HI. invc_fields HI. [a]: { destruct (inv_a _ _ _ HI) as (fl & ? & ?). now exists fl. } Qed.

Lemma inv_FInc : forall o s ev seq, InvC (PInc ev seq) o s -> InvC (PWrite ev seq (nextseq s)) o s.
Proof. intros o s ev seq HI. invc_fields HI. [a]: { destruct (inv_a _ _ _ HI) as (fl & ? & ? & ?). now exists fl. } Qed.

(* the flusher leaves the critical section: its batch gets its number and its fetcher *)
Lemma inv_FWrite : forall o s ev seq r, InvC (PWrite ev seq r) o s -> InvC PIdle o (s_go s seq ev r).
Proof.
  intros o s ev seq r HI. destruct (inv_a _ _ _ HI) as (fl & Hfl & Hlen & -> & ->).
  pose proof (inv_excl _ _ _ HI) as Ho. pose proof (inv_res _ _ _ HI) as Hres. pose proof (inv_dn _ _ _ HI) as Hdn.
  cbn in Ho, Hres.
  invc_fields HI; cbn -[Nat.sub].
  [lock]: now rewrite Ho.
  [excl]: reflexivity.
  [nocrit]: { intros _ _. rewrite Hfl, app_length. cbn. lia. }
  [a]: exact I.
  [t]: now apply crit_ok_nocrit.
  [f]: { intros f Hin. apply in_snoc in Hin as [Hin|<-].
    - destruct (inv_f _ _ _ HI f Hin). auto.
    - cbn. rewrite Hfl, <- Hlen, nth_error_app2, Nat.sub_diag by lia. auto. }
  [items]: { intros k r Hl. destruct (inv_items _ _ _ HI k r Hl). auto. }
  [dn]: lia.
  [cover]: { intros k Hk. destruct (Nat.eq_dec k (nextseq s)) as [->|E].
    - left. exists (mkF (nextseq s) ev Fetching). rewrite in_app_iff. cbn. auto.
    - destruct (inv_cover _ _ _ HI k) as [(f & ? & ?)|]; [lia| |now right]. left. exists f. rewrite in_app_iff. auto. }
  [pend]: { intros H. destruct (inv_pend _ _ _ HI H) as (f & ? & ?). exists f. rewrite in_app_iff. auto. }
  [res]: lia.
Qed.

Lemma fstep_inv : forall c o s c' s', fstep p c s c' s' -> InvC c o s -> InvC c' o s'.
Proof.
  intros c o s c' s' Hs.
  destruct Hs.
  - (* FEmpty *) now apply InvC_idle.
  - (* FTake *) exact (inv_FTake o s Efree).
  - (* FReserve *) exact (inv_FReserve o s ev).
  - (* FRead *) exact (inv_FRead o s ev).
  - (* FInc *) exact (inv_FInc o s ev seq).
  - (* FWrite *) exact (inv_FWrite o s ev seq r).
Qed.

Lemma inv_RAdd : forall t s x sc, InvC PIdle t s -> InvC PAdded t (s_add p s x sc).
Proof.
  intros t s x sc HI. invc_fields HI.
  [cat]: { unfold b_add. cbn. rewrite app_assoc. f_equal. apply (inv_cat _ _ _ HI). }
Qed.

Lemma inv_RComplete : forall a t s i seq ev, nth_error (fetchers s) i = Some (mkF seq ev Fetching) -> InvC a t s ->
  InvC a t (s_done fetch s i seq ev).
Proof.
  intros a t s i seq ev En HI. unfold s_done. destruct (nth_error_set_del _ _ _ En) as (f1 & f2 & Ef & -> & _).
  pose proof (inv_f _ _ _ HI) as Hf. pose proof (inv_cover _ _ _ HI) as Hcov. rewrite Ef in Hf, Hcov.
  destruct (Hf (mkF seq ev Fetching)) as [Hnth Hlt]; [apply in_elt|]. cbn in Hnth, Hlt.
  invc_fields HI; cbn -[put].
  [f]: { intros f Hin. apply in_app_or in Hin as [Hin|[<-|Hin]]; [apply Hf|now split|apply Hf]; rewrite in_app_iff; cbn; auto. }
  [items]: { intros k r Hl. rewrite lookup_put in Hl. destruct (Nat.eqb_spec k seq) as [->|]; [|now apply (inv_items _ _ _ HI)].
    injection Hl as <-. eauto. }
  [cover]: { intros k Hk. rewrite lookup_put. destruct (Nat.eqb_spec k seq) as [|N]; [now right|].
    destruct (Hcov k Hk) as [(f & Hin & <- & ?)|]; [left|now right]. exists f. split; [|auto].
    apply in_app_or in Hin as [Hin|[<-|Hin]]; [|now cbn in N|]; rewrite in_app_iff; cbn; auto. }
  [pend]: { intros _. exists (mkF seq ev Added). split; [apply in_elt|reflexivity]. }
Qed.

(* a slot goes from stored to emitted *)
Lemma inv_pop : forall a t s r, lookup (drained s) (items s) = Some r -> InvC a t s -> InvC a t (s_pop s r).
Proof.
  intros a t s r El HI. destruct (inv_items _ _ _ HI _ _ El) as (Hd & ev & Hnth & ->).
  invc_fields HI; cbn -[firstn].
  [items]: { intros k r Hl. rewrite lookup_remove_key in Hl. destruct (Nat.eqb k (drained s)); [discriminate|].
    now apply (inv_items _ _ _ HI). }
  [out]: { rewrite (firstn_S_nth _ _ _ Hnth), map_app, concat_app, <- (inv_out _ _ _ HI). cbn. now rewrite app_nil_r. }
  [cover]: { intros k Hk. rewrite lookup_remove_key. destruct (Nat.eqb_spec k (drained s)); [lia|].
    apply (inv_cover _ _ _ HI). lia. }
  [pend]: { intros _. apply (inv_pend _ _ _ HI). congruence. }
  [res]: { pose proof (inv_res _ _ _ HI). lia. }
Qed.

(* so the loop keeps the invariant of the whole state; it stops at a slot that is not stored.  Every turn removes a stored
   key, which is why the fuel S (length (items s)) of drain_step is enough *)
Lemma inv_drain : forall a t fuel s d its res o, length (items s) < fuel -> InvC a t s ->
  drain_loop fuel (drained s) (items s) (reserved s) (out s) = (d, its, res, o) ->
  InvC a t (s_drain s (fetchers s) d its res o) /\ lookup d its = None.
Proof.
  intros a t fuel. induction fuel as [|fuel IH]; intros s d its res o Hlen HI Hrun; [lia|].
  cbn [drain_loop] in Hrun. destruct (lookup (drained s) (items s)) as [r|] eqn:El.
  - apply (IH (s_pop s r)) in Hrun; [exact Hrun| |now apply inv_pop].
    cbn. assert (length (remove_key (drained s) (items s)) < length (items s)) by (apply remove_key_length; congruence). lia.
  - injection Hrun as <- <- <- <-. split; [now apply InvC_core with s|assumption].
Qed.

(* the fetch goroutine ends after a Drain that left nothing to drain *)
Lemma inv_RDrain : forall a t s i seq ev, nth_error (fetchers s) i = Some (mkF seq ev Added) ->
  lookup (drained s) (items s) = None -> InvC a t s ->
  InvC a t (s_drain s (del_nth i (fetchers s)) (drained s) (items s) (reserved s) (out s)).
Proof.
  intros a t s i seq ev En Hnone HI. destruct (nth_error_set_del _ _ _ En) as (f1 & f2 & Ef & _ & ->).
  pose proof (inv_f _ _ _ HI) as Hf. pose proof (inv_cover _ _ _ HI) as Hcov. rewrite Ef in Hf, Hcov.
  invc_fields HI; cbn.
  [f]: { intros f Hin. apply Hf. apply in_app_or in Hin as []; apply in_or_app; cbn; auto. }
  [cover]: { intros k Hk. destruct (Hcov k Hk) as [(f & Hin & <- & Hst)|]; [left|now right].
    exists f. split; [|auto]. apply in_app_or in Hin as [Hin|[<-|Hin]]; [|discriminate Hst|]; rewrite in_app_iff; auto. }
  [pend]: now intros.
Qed.

Lemma rstep_inv : forall a s s', rstep fetch p a s s' -> Inv s -> Inv s'.
Proof.
  unfold Inv. intros a s s' Hs.
  destruct Hs; cbn; intros HI.
  - (* RAdd *) rewrite Ea in HI. exact (inv_RAdd _ s x sc HI).
  - (* RCall *) rewrite Ea in HI. apply InvC_core with s; [reflexivity|]. revert HI. now apply InvC_idle.
  - (* RFull *) rewrite Ea in HI. apply InvC_core with s; [reflexivity|]. revert HI. apply InvC_idle; [reflexivity|]. now destruct (b_full _ _).
  - (* RAFlush *) destruct (fstep_frame _ _ _ _ _ F) as (_ & -> & _). apply InvC_core with s'; [reflexivity|]. now apply (fstep_inv _ _ _ _ _ F).
  - (* RRecv *) rewrite Et in HI. apply InvC_core with s; [reflexivity|]. apply InvC_sym. apply InvC_sym in HI. revert HI. now apply InvC_idle.
  - (* RTFlush *) destruct (fstep_frame _ _ _ _ _ F) as (-> & _). apply InvC_core with s'; [reflexivity|].
    apply InvC_sym. apply (fstep_inv _ _ _ _ _ F). now apply InvC_sym.
  - (* RFire *) now apply InvC_core with s.
  - (* RComplete *) exact (inv_RComplete _ _ s i seq ev En HI).
  - (* RDrain: the loop, then the fetcher goes; s_drain of the state after the loop is s_drain of s, by computation *)
    destruct (inv_drain _ _ _ s d its res o (Nat.lt_succ_diag_r _) HI Ed) as [HI' Hnone].
    exact (inv_RDrain _ _ (s_drain s (fetchers s) d its res o) i seq ev En Hnone HI').
Qed.

Lemma step_inv : forall a s, Inv s -> Inv (step fetch p a s).
Proof. intros a s HI. apply step_cases; eauto using rstep_inv. Qed.

Lemma run_inv : forall acts s, Inv s -> Inv (run fetch p acts s).
Proof. intros acts. unfold run. apply fold_left_inv. intros x a. apply step_inv. Qed.

(* the time-out goroutine never calls batcher.Add *)
Lemma rstep_tpc : forall a s s', rstep fetch p a s s' -> tpc s <> PAdded -> tpc s' <> PAdded.
Proof.
  destruct 1; cbn; auto; try discriminate.
  - (* RAFlush *) now destruct (fstep_frame _ _ _ _ _ F) as (_ & -> & _).
  - (* RTFlush *) now destruct F.
Qed.

Lemma max_items_pos : 0 < max_items p.
Proof. unfold max_items. destruct (N.eqb_spec (rp_buf p) 0); lia. Qed.

(* a flusher that is somewhere inside flush() can always take its next step, unless it waits for the lock or for a slot *)
Definition ready (c : pc) (s : rstate) : Prop :=
  match c with
  | PFlush => flock s = false
  | PReserve _ => reserved s < max_items p
  | PIdle | PAdded => False
  | _ => True
  end.

Lemma ready_flush : forall c s, ready c s -> flush_step p c s <> None.
Proof.
  intros [] s H; cbn [flush_step ready] in *; try easy.
  - rewrite H, andb_false_r. now destruct (is_nil _).
  - apply Nat.ltb_lt in H. now rewrite H.
Qed.

Lemma adder_enabled : forall s, ready (apc s) s \/ apc s = PAdded \/ (apc s = PIdle /\ script s <> []) ->
  step_opt fetch p AAdder s <> None.
Proof.
  intros s H. cbn. unfold adder_step. destruct H as [H|[->|[-> H]]].
  - apply ready_flush in H. destruct (apc s); try easy; now destruct (flush_step p _ s) as [[]|].
  - easy.
  - now destruct (script s) as [|[]].
Qed.

Lemma timeout_enabled : forall s, ready (tpc s) s -> step_opt fetch p ATimeout s <> None.
Proof.
  intros s H. cbn. unfold timeout_step. apply ready_flush in H.
  destruct (tpc s); try easy; now destruct (flush_step p _ s) as [[]|].
Qed.

(* slot accounting: once every numbered batch is drained, the only slots taken are those of flushers past `reserved <-`;
   a flusher that still waits for its slot while the other is outside the critical section finds reserved = 0 < max_items *)
Lemma crit_ready : forall c o s, InvC c o s -> drained s = nextseq s -> in_crit c = true -> in_crit o = false -> ready c s.
Proof.
  intros c o s [] Hd Hc Ho. apply past_nocrit in Ho. pose proof max_items_pos.
  destruct c; try easy. cbn in *. lia.
Qed.

Lemma no_deadlock_inv : forall s, Inv s -> tpc s <> PAdded -> quiescent s = false -> exists a, step_opt fetch p a s <> None.
Proof.
  intros s HI Hnt Hq.
  destruct (fetchers s) as [|[seq ev st] fs] eqn:Ef.
  2:{ (* a fetch goroutine exists: it can complete, or drain *)
      destruct st; [exists (AComplete 0)|exists (ADrain 0)]; cbn [step_opt]; unfold complete_step, drain_step; rewrite Ef; cbn [nth_error]; [easy|].
      now destruct (drain_loop _ _ _ _ _) as [[[? ?] ?] ?]. }
  pose proof (inv_all_drained _ _ _ HI Ef) as Hd. unfold Inv in HI. pose proof (inv_lock _ _ _ HI) as Hlock.
  pose proof (inv_excl _ _ _ HI) as Hexcl.
  destruct (in_crit (apc s)) eqn:Ca; [|destruct (in_crit (tpc s)) eqn:Ct].
  - (* the adder is inside the critical section *)
    exists AAdder. apply adder_enabled. left. exact (crit_ready _ _ _ HI Hd Ca Hexcl).
  - (* the time-out goroutine is *)
    exists ATimeout. apply timeout_enabled. exact (crit_ready _ _ _ (InvC_sym _ _ _ HI) Hd Ct Ca).
  - (* nobody is, so the lock is free; Ca leaves three places for the adder *)
    cbn in Hlock. destruct (apc s) eqn:Ea; try discriminate Ca.
    + (* PIdle *) destruct (script s) eqn:Es.
      * (* with no call left: Ct leaves three places for the time-out goroutine *)
        destruct (tpc s) eqn:Et; try discriminate Ct.
        -- (* PIdle: the state would be quiescent *) unfold quiescent in Hq. now rewrite Es, Ea, Et, Ef in Hq.
        -- (* PAdded *) now elim Hnt.
        -- (* PFlush *) exists ATimeout. apply timeout_enabled. now rewrite Et.
      * (* the next call *) exists AAdder. apply adder_enabled. right. right. now rewrite Es.
    + (* PAdded *) exists AAdder. apply adder_enabled. auto.
    + (* PFlush *) exists AAdder. apply adder_enabled. left. now rewrite Ea.
Qed.

Theorem no_deadlock_run : forall acts s, Inv s -> tpc s <> PAdded ->
  quiescent (run fetch p acts s) = false -> exists a, step_opt fetch p a (run fetch p acts s) <> None.
Proof.
  intros acts s HI Ht. apply no_deadlock_inv; [now apply run_inv|].
  unfold run. apply fold_left_inv; [|assumption]. intros x a H. apply step_cases; eauto using rstep_tpc.
Qed.

Lemma inv_prefix : forall s, Inv s -> prefix (out s) (concat (map fetch (flushed s))).
Proof.
  intros s HI. exists (concat (map fetch (skipn (drained s) (flushed s)))).
  rewrite (inv_out _ _ _ HI), <- concat_app, <- map_app, firstn_skipn. reflexivity.
Qed.

Lemma quiescent_idle : forall s : rstate, quiescent s = true -> apc s = PIdle /\ tpc s = PIdle /\ fetchers s = [].
Proof.
  intros s Hq. unfold quiescent in Hq. apply andb_prop in Hq as [Hq Hf]. apply andb_prop in Hq as [Hq Ht].
  apply andb_prop in Hq as [_ Ha]. apply is_nil_true in Hf.
  destruct (apc s); [|discriminate..]. now destruct (tpc s).
Qed.

Lemma inv_quiescent : forall s, Inv s -> quiescent s = true -> out s = concat (map fetch (flushed s)).
Proof.
  intros s HI Hq. destruct (quiescent_idle s Hq) as (Ea & Et & Ef).
  rewrite (inv_out _ _ _ HI), (inv_all_drained _ _ _ HI Ef). unfold Inv in HI. rewrite Ea, Et in HI.
  rewrite <- (inv_nocrit _ _ _ HI) by reflexivity. now rewrite firstn_all.
Qed.

End ReorderProofs.

Lemma inv_itemwise : forall {T R : Type} (f : T -> R) (s : rstate T R), Inv (map f) s ->
  prefix (out s) (map f (added s)) /\
  (quiescent s = true -> batch (bt s) = [] -> out s = map f (added s)).
Proof.
  intros T R f s HI. pose proof (inv_cat _ _ _ _ HI) as Hcat. pose proof (inv_prefix _ _ HI) as Hpre.
  pose proof (inv_quiescent _ _ HI) as Hq. rewrite <- concat_map in Hpre, Hq. split.
  - destruct Hpre as [c Hc]. exists (c ++ map f (batch (bt s))).
    rewrite <- Hcat, map_app, Hc, <- app_assoc. reflexivity.
  - intros H1 H2. rewrite (Hq H1), <- Hcat, H2, app_nil_r. reflexivity.
Qed.

Lemma prefix_is_prefix_of : forall (a b : list N), prefix a b -> is_prefix_of N.eqb a b = true.
Proof.
  intros a. induction a as [|x a IH]; intros b [c Hc]; cbn; [reflexivity|].
  subst b. cbn. rewrite N.eqb_refl. cbn. apply IH. now exists c.
Qed.

(* The code before commit 71bc8cf (rp_fixed = false), maximum batch size 2, time-out armed, 4 buffer slots, identity fetch.
   (i) the time-out flusher takes batch [1] and is overtaken between Flush and Reserve by the adder's batch [2;3]. *)
Definition old_params : rparams := mkRP (mkBP 2 true) 4 false.
Definition old_script : list (aop N) := [AddOp 1%N; AddOp 2%N; AddOp 3%N].
Definition old_swap_schedule : list action :=
  [AAdder; AAdder; ATimerFire; ATimeout; ATimeout;                 (* add 1; timer; time-out flusher: Flush -> [1], at the hook point *)
   AAdder; AAdder; AAdder; AAdder; AAdder; AAdder; AAdder; AAdder; AAdder;  (* add 2; add 3; full: Flush -> [2;3]; Reserve -> seq 0; go *)
   ATimeout; ATimeout; ATimeout; ATimeout;                          (* time-out flusher: Reserve -> seq 1; go *)
   AComplete 0; ADrain 0].                                          (* the fetch of [2;3] completes: emitted first *)

Definition old_swap_state : rstate N N :=
  Eval vm_compute in run (fun l : list N => l) old_params old_swap_schedule (r_init old_script).
Lemma old_swap_run : run (fun l : list N => l) old_params old_swap_schedule (r_init old_script) = old_swap_state.
Proof. vm_compute. reflexivity. Qed.
Lemma old_code_swaps : flushed old_swap_state = [[1%N]; [2%N; 3%N]] /\ out old_swap_state = [2%N; 3%N].
Proof. split; reflexivity. Qed.
Lemma old_swap_not_prefix : ~ prefix (out old_swap_state) (concat (map (fun l : list N => l) (flushed old_swap_state))).
Proof. intros H. apply prefix_is_prefix_of in H. vm_compute in H. discriminate H. Qed.

(* (ii) both flushers read the same nextSeqNum: two batches get number 0, one result overwrites the other in the map and
   the fetcher comes to rest having emitted [1] only: items 2 and 3 are lost. *)
Definition old_dup_schedule : list action :=
  [AAdder; AAdder; ATimerFire; ATimeout; ATimeout; ATimeout; ATimeout;     (* time-out flusher: Flush -> [1]; Reserve; seq := 0 *)
   AAdder; AAdder; AAdder; AAdder; AAdder; AAdder; AAdder; AAdder; AAdder;  (* adder: Flush -> [2;3]; Reserve; seq := 0; nextSeqNum = 1; go *)
   ATimeout; ATimeout;                                              (* time-out flusher: nextSeqNum = 2; go with seq 0 *)
   AComplete 0; AComplete 1; ADrain 0; ADrain 0].

Definition old_dup_state : rstate N N :=
  Eval vm_compute in run (map (fun x : N => x)) old_params old_dup_schedule (r_init old_script).
Lemma old_dup_run : run (map (fun x : N => x)) old_params old_dup_schedule (r_init old_script) = old_dup_state.
Proof. vm_compute. reflexivity. Qed.
Lemma old_code_loses :
  quiescent old_dup_state = true /\ batch (bt old_dup_state) = [] /\
  out old_dup_state <> map (fun x : N => x) (added old_dup_state).
Proof. split; [reflexivity|]. split; [reflexivity|]. vm_compute. intros H. discriminate H. Qed.
Lemma old_code_loses_values : added old_dup_state = [1%N; 2%N; 3%N] /\ out old_dup_state = [1%N].
Proof. split; reflexivity. Qed.

Section ErrorProofs.
Context {T R : Type}.
Variable fetchx : list T -> outcome R.
Variable p : rparams.

Notation rstate := (rstate T R).
Notation pc := (pc T).
Notation fetch := (fetch_of fetchx).

Definition fetching (fs : list (fetcher T)) : list (list T) :=
  flat_map (fun f => match f_stage f with Fetching => [f_ev f] | Added => [] end) fs.
Definition crit_ev (c : pc) : list (list T) :=
  match c with PReserve ev | PRead ev | PInc ev _ | PWrite ev _ _ => [ev] | _ => [] end.

(* every batch handed out is: completed, or being fetched, or with a flusher that has not started its fetch yet *)
Definition PInvC (a t : pc) (s : rstate) (done : list (list T)) : Prop :=
  Permutation (flushed s) (done ++ fetching (fetchers s) ++ crit_ev a ++ crit_ev t).

Arguments fetching : simpl never.

Lemma fetching_app : forall fs fs', fetching (fs ++ fs') = fetching fs ++ fetching fs'.
Proof. intros. apply flat_map_app. Qed.

Lemma fstep_perm : forall c (s : rstate) c' (s' : rstate), fstep p c s c' s' -> forall D O,
  Permutation (flushed s) (D ++ fetching (fetchers s) ++ crit_ev c ++ O) ->
  Permutation (flushed s') (D ++ fetching (fetchers s') ++ crit_ev c' ++ O).
Proof.
  intros c s c' s' Hs D O.
  destruct Hs; cbn; intros HP.
  - (* FEmpty *) exact HP.
  - (* FTake *) rewrite HP, <- Permutation_cons_append, !app_assoc. apply Permutation_middle.
  - (* FReserve *) exact HP.
  - (* FRead *) exact HP.
  - (* FInc *) exact HP.
  - (* FWrite *) rewrite fetching_app. cbn. now rewrite <- app_assoc.
Qed.

Lemma rstep_perm : forall a (s s' : rstate) done, rstep fetch p a s s' ->
  PInvC (apc s) (tpc s) s done ->
  PInvC (apc s') (tpc s') s' (done ++ match a with AComplete i => completing i s | _ => [] end).
Proof.
  unfold PInvC. intros a s s' done Hs.
  destruct Hs; cbn; rewrite ?app_nil_r; intros HP.
  - (* RAdd *) now rewrite Ea in HP.
  - (* RCall *) now rewrite Ea in HP.
  - (* RFull *) rewrite Ea in HP. now destruct (b_full _ _).
  - (* RAFlush *) destruct (fstep_frame _ _ _ _ _ F) as (_ & -> & _). now apply (fstep_perm _ _ _ _ F).
  - (* RRecv *) rewrite Et in HP. cbn in HP. now rewrite app_nil_r in HP.
  - (* RTFlush: the same with the two flushers exchanged *)
    destruct (fstep_frame _ _ _ _ _ F) as (-> & _).
    rewrite (Permutation_app_comm (crit_ev (apc s))) in *. now apply (fstep_perm _ _ _ _ F).
  - (* RFire *) exact HP.
  - (* RComplete *) unfold completing. rewrite En. destruct (nth_error_set_del _ _ _ En) as (f1 & f2 & Ef & -> & _).
    rewrite Ef in HP. rewrite fetching_app in *. rewrite HP, <- !app_assoc. cbn.
    apply Permutation_app_head. symmetry. apply Permutation_middle.
  - (* RDrain *) destruct (nth_error_set_del _ _ _ En) as (f1 & f2 & Ef & _ & ->).
    rewrite Ef in HP. rewrite fetching_app in *. exact HP.
Qed.

Lemma step_perm : forall a (s : rstate) done,
  PInvC (apc s) (tpc s) s done ->
  PInvC (apc (step fetch p a s)) (tpc (step fetch p a s)) (step fetch p a s)
        (done ++ match a with AComplete i => completing i s | _ => [] end).
Proof.
  intros a s done H. unfold step. destruct (step_opt fetch p a s) eqn:E.
  - apply rstep_perm; [now apply step_opt_rstep|assumption].
  - (* a disabled AComplete completes nothing *)
    destruct a; rewrite ?app_nil_r; try exact H. cbn in E. unfold completing. unfold complete_step in E.
    destruct (nth_error _ _) as [[? ? []]|]; try discriminate; now rewrite app_nil_r.
Qed.

Lemma Permutation_filter : forall {A} (f : A -> bool) (l l' : list A), Permutation l l' -> Permutation (filter f l) (filter f l').
Proof.
  intros A f l l' H. induction H; cbn [filter].
  - constructor.
  - destruct (f x); [now constructor|assumption].
  - destruct (f x), (f y); try apply Permutation_refl; apply perm_swap.
  - eapply Permutation_trans; eassumption.
Qed.

Lemma x_run_rx : forall acts xs, rx (x_run fetchx p acts xs) = run fetch p acts (rx xs).
Proof. intros acts xs. apply (fold_left_sim _ _ (fun xs s => rx xs = s)); [now intros ? ? ? <-|reflexivity]. Qed.

Definition XInv (xs : rxstate T R) : Prop := PInvC (apc (rx xs)) (tpc (rx xs)) (rx xs) (x_done xs).

Lemma XInv_init : forall sc : list (aop T), XInv (x_init sc).
Proof. constructor. Qed.

Lemma x_run_perm : forall acts xs, XInv xs -> XInv (x_run fetchx p acts xs).
Proof. intros acts. apply fold_left_inv. intros x a H. now apply step_perm. Qed.

(* every error reported belongs to a failed batch that was handed out; at rest every failed batch has reported once *)
Lemma errors_spec : forall (s : rstate) done, PInvC (apc s) (tpc s) s done ->
  (forall ev, In ev (filter (failed fetchx) done) -> failed fetchx ev = true /\ In ev (flushed s)) /\
  (quiescent s = true -> Permutation (filter (failed fetchx) done) (filter (failed fetchx) (flushed s))).
Proof.
  unfold PInvC. intros s done HX. split.
  - intros ev Hin. apply filter_In in Hin as [Hin Hf]. split; [assumption|]. rewrite HX, in_app_iff. now left.
  - intros Hq. destruct (quiescent_idle s Hq) as (Ea & Et & Ef).
    rewrite Ea, Et, Ef, !app_nil_r in HX. symmetry. now apply Permutation_filter.
Qed.

End ErrorProofs.

Section ContextProofs.
Context {T R : Type}.
Variable fetch : list T -> list R.
Variable p : rparams.

Lemma c_run_rc : forall acts cs, rc (c_run fetch p acts cs) = run fetch p acts (rc cs).
Proof. intros acts cs. apply (fold_left_sim _ _ (fun cs s => rc cs = s)); [now intros ? ? ? <-|reflexivity]. Qed.

(* a step hands out at most one batch, and the log gets one flag exactly then *)
Lemma c_run_log : forall acts cs, length (c_log cs) = length (flushed (rc cs)) ->
  length (c_log (c_run fetch p acts cs)) = length (flushed (rc (c_run fetch p acts cs))).
Proof.
  intros acts. apply (fold_left_inv _ (fun cs => length (c_log cs) = length (flushed (rc cs)))).
  intros c0 a H0. unfold c_step. cbn [rc c_log].
  destruct (step_flushed fetch p a (rc c0)) as (l & -> & Hl). rewrite !app_length, H0.
  generalize (length (flushed (rc c0))). intros n. destruct (Nat.ltb_spec n (n + length l)); cbn [length]; lia.
Qed.

End ContextProofs.

Section MarkProofs.
Context {T R : Type}.
Variable fetch : list T -> list R.
Variable p : rparams.
Hypothesis Hfixed : rp_fixed p = true.
Notation rstate := (rstate T R).

(* every expiry has been served, or is still pending with the time-out goroutine *)
Definition MInv (s : rstate) (mark : nat) : Prop :=
  mark <= length (added s) /\
  (mark <= length (concat (flushed s)) \/ 0 < inflight s \/ tpc s = PFlush).

(* actions of the other goroutines leave the time-out goroutine and the pending expiries alone, and only ever add inputs *)
Lemma MInv_mono : forall s s' mark,
  length (added s) <= length (added s') -> length (concat (flushed s)) <= length (concat (flushed s')) ->
  inflight s' = inflight s -> tpc s' = tpc s -> MInv s mark -> MInv s' mark.
Proof. unfold MInv. intros s s' mark H1 H2 -> ->. intuition lia. Qed.

(* a time-out goroutine that is not about to take the batch has no expiry of its own pending *)
Lemma MInv_inside : forall s s' mark, tpc s <> PFlush ->
  added s' = added s -> flushed s' = flushed s -> inflight s' = inflight s -> MInv s mark -> MInv s' mark.
Proof. unfold MInv. intros s s' mark Ht -> -> -> [Hle [?|[?|?]]]; auto; contradiction. Qed.

(* the time-out goroutine at PFlush waits while the lock is held; otherwise it takes the whole batch *)
Lemma minv_RTFlush : forall (s : rstate) c' s' mark, fstep p (tpc s) s c' s' -> Inv fetch s -> MInv s mark ->
  MInv (set_tpc c' s') mark.
Proof.
  intros s c' s' mark F HI HM. pose proof (inv_cat _ _ _ _ HI) as Hcat.
  remember (tpc s) as c eqn:Et.
  destruct F.
  - (* FEmpty: everything added has been handed out *)
    split; [apply HM|]. left. cbn. rewrite Eb, app_nil_r in Hcat. rewrite Hcat. apply HM.
  - (* FTake *) split; [apply HM|]. left. cbn. rewrite concat_app. cbn. rewrite app_nil_r, Hcat. apply HM.
  - (* FReserve *) apply MInv_inside with s; [now rewrite <- Et|reflexivity..|assumption].
  - (* FRead *) apply MInv_inside with s; [now rewrite <- Et|reflexivity..|assumption].
  - (* FInc *) apply MInv_inside with s; [now rewrite <- Et|reflexivity..|assumption].
  - (* FWrite *) apply MInv_inside with s; [now rewrite <- Et|reflexivity..|assumption].
Qed.

Lemma rstep_minv : forall a (s s' : rstate) mark, rstep fetch p a s s' -> Inv fetch s -> MInv s mark ->
  MInv s' (match a, armed (bt s) with ATimerFire, Some _ => length (added s) | _, _ => mark end).
Proof.
  intros a s s' mark Hs.
  destruct Hs; cbn; intros HI HM.
  - (* RAdd *) apply MInv_mono with s; cbn; auto. rewrite app_length. lia.
  - (* RCall *) now apply MInv_mono with s.
  - (* RFull *) now apply MInv_mono with s.
  - (* RAFlush *) destruct (fstep_frame _ _ _ _ _ F) as (_ & Et & _ & Ei & Ead & _). destruct (fstep_flushed _ _ _ _ _ F) as (l & El & _).
    apply MInv_mono with s; cbn; auto; rewrite ?Ead, ?El, ?concat_app, ?app_length; lia.
  - (* RRecv *) destruct HM. split; auto.
  - (* RTFlush *) exact (minv_RTFlush s c' s' mark F HI HM).
  - (* RFire *) rewrite Earm. split; cbn; [lia|right; left; lia].
  - (* RComplete *) now apply MInv_mono with s.
  - (* RDrain *) now apply MInv_mono with s.
Qed.

Lemma m_step_inv : forall a (ms : rmstate T R), Inv fetch (rm ms) -> MInv (rm ms) (m_mark ms) ->
  MInv (rm (m_step fetch p a ms)) (m_mark (m_step fetch p a ms)).
Proof.
  intros a [s mark] HI HM. cbn in *. unfold step. destruct (step_opt fetch p a s) eqn:E.
  - apply rstep_minv; [now apply step_opt_rstep|assumption..].
  - (* a disabled ATimerFire: the timer is not armed *)
    destruct a; try assumption. cbn in E. unfold timer_fire in E. now destruct (armed (bt s)).
Qed.

Lemma MInv_init : forall sc : list (aop T), MInv (r_init sc) 0.
Proof. intros sc. split; cbn; [lia|left; lia]. Qed.

Lemma m_run_rm : forall acts ms, rm (m_run fetch p acts ms) = run fetch p acts (rm ms).
Proof. intros acts ms. apply (fold_left_sim _ _ (fun ms s => rm ms = s)); [now intros ? ? ? <-|reflexivity]. Qed.

Lemma m_run_inv : forall acts ms, Inv fetch (rm ms) -> MInv (rm ms) (m_mark ms) ->
  Inv fetch (rm (m_run fetch p acts ms)) /\ MInv (rm (m_run fetch p acts ms)) (m_mark (m_run fetch p acts ms)).
Proof.
  intros acts ms HI HM.
  apply (fold_left_inv _ (fun ms => Inv fetch (rm ms) /\ MInv (rm ms) (m_mark ms))); [|now split].
  intros x a [HI' HM']. split; [now apply step_inv|now apply m_step_inv].
Qed.

(* at rest with no expiry pending, every input accepted before the last expiry has been handed out *)
Lemma MInv_rest : forall s mark, Inv fetch s -> MInv s mark -> quiescent s = true -> inflight s = 0 ->
  mark <= length (concat (flushed s)) /\ firstn mark (added s) = firstn mark (concat (flushed s)).
Proof.
  intros s mark HI [Hle HJ] Hq Hi. destruct (quiescent_idle s Hq) as (_ & Et & _).
  assert (Hm : mark <= length (concat (flushed s))) by (destruct HJ as [?|[?|?]]; [assumption|lia|congruence]).
  split; [assumption|]. rewrite <- (inv_cat _ _ _ _ HI). now apply firstn_app_le.
Qed.

End MarkProofs.
