(* C19: the binary-heap model (Model/Heap.v).  Heap order with a doubt at one position i is [heap_ok_except] together with
   [le_children] / [ge_parent], and an exchange is two overwritings.  The first puts at i an element that fits there (not
   above the children of i, not below its parent): the slice is a heap again (fits_ok).  The second changes one element of
   that heap, so the doubt moves there (upd_heap_ok_except); and as it lowers the element (sift-up) or raises it
   (sift-down), the doubt is only towards the parent, or only towards the children (up_step, down_step).
   The file opens with the laws of the model's list update [upd], which PPQ.set_part and MergeSort.pull use as well
   (hence concat_upd_perm here).  They repeat Base/Lists' laws of [set_at]: Heap.upd has the same text but binds its
   element type outside the fix, so those do not apply to it by conversion. *)
From Coq Require Import List Arith Bool Lia Permutation.
From RV Require Import Model.Heap.
From RV Require Export Base.Lists.
Import ListNotations.

Local Arguments Nat.mul : simpl never.
Local Arguments Nat.div2 : simpl never.

Section HeapProofs.
  Context {A : Type} (lt : A -> A -> bool).

  Lemma nodup_pos_inj : forall (l : list A) i j a,
      NoDup l -> nth_error l i = Some a -> nth_error l j = Some a -> i = j.
  Proof.
    intros l i j a Hnd Hi Hj.
    apply (proj1 (NoDup_nth_error l) Hnd); [exact (nth_error_lt _ _ _ Hi)|congruence].
  Qed.

  Lemma upd_length : forall i (v : A) l, length (upd i v l) = length l.
  Proof.
    intros i v l; revert i.
    induction l as [|x r IH]; intros [|i]; simpl; auto.
  Qed.

  Lemma nth_error_upd_eq : forall l i (v : A),
      i < length l -> nth_error (upd i v l) i = Some v.
  Proof.
    induction l as [|x r IH]; intros [|i] v H; simpl in *; try lia; auto.
    apply IH; lia.
  Qed.

  Lemma nth_error_upd_neq : forall l i j (v : A),
      i <> j -> nth_error (upd i v l) j = nth_error l j.
  Proof.
    induction l as [|x r IH]; intros [|i] [|j] v H; simpl; auto; lia.
  Qed.

  Lemma nth_upd_eq : forall (l : list A) i v d, i < length l -> nth i (upd i v l) d = v.
  Proof. intros l i v d H. apply nth_error_nth, nth_error_upd_eq, H. Qed.

  Lemma nth_upd_neq : forall (l : list A) i j v d, i <> j -> nth j (upd i v l) d = nth j l d.
  Proof.
    induction l as [|x r IH]; intros [|i] [|j] v d H; simpl; auto; lia.
  Qed.

  Lemma Forall_upd : forall (P : A -> Prop) l i v, Forall P l -> P v -> Forall P (upd i v l).
  Proof.
    intros P l i v Hl Hv. revert i. induction Hl; intros [|i]; simpl; auto.
  Qed.

  (* replacing the p-th list changes the concatenation by exactly the difference of the two lists *)
  Lemma concat_upd_perm : forall (ps : list (list A)) p c d e,
      p < length ps -> Permutation (d ++ c) (e ++ nth p ps []) ->
      Permutation (d ++ concat (upd p c ps)) (e ++ concat ps).
  Proof.
    induction ps as [|l ps IH]; intros [|p] c d e Hp Hc; simpl in *; try lia.
    - rewrite !app_assoc. apply Permutation_app_tail; exact Hc.
    - rewrite (Permutation_app_swap_app d), (Permutation_app_swap_app e).
      apply Permutation_app_head. apply IH; [lia|exact Hc].
  Qed.

  Lemma upd_perm : forall (l : list A) i a b,
      nth_error l i = Some a -> Permutation (b :: l) (a :: upd i b l).
  Proof.
    induction l as [|x r IH]; intros [|i] a b H; simpl in *; try discriminate.
    - injection H as ->. apply perm_swap.
    - rewrite perm_swap, (IH i a b H). apply perm_swap.
  Qed.

  Lemma upd_at : forall (l : list A) i w k x y,
      nth_error (upd i w l) i = Some x -> nth_error (upd i w l) k = Some y -> k <> i -> x = w /\ nth_error l k = Some y.
  Proof.
    intros l i w k x y Hx Hy N. rewrite nth_error_upd_neq in Hy by congruence. split; [|exact Hy].
    apply nth_error_lt in Hx as L. rewrite upd_length in L. rewrite nth_error_upd_eq in Hx by exact L. congruence.
  Qed.

  Lemma swap_eq : forall (l : list A) i j a b,
      nth_error l i = Some a -> nth_error l j = Some b -> swap i j l = upd j a (upd i b l).
  Proof. intros l i j a b Hi Hj. unfold swap. rewrite Hi, Hj. reflexivity. Qed.

  Lemma swap_perm : forall i j (l : list A), Permutation (swap i j l) l.
  Proof.
    intros i j l. unfold swap.
    destruct (nth_error l i) as [a|] eqn:Hi; [|reflexivity].
    destruct (nth_error l j) as [b|] eqn:Hj; [|reflexivity].
    (* b :: l ~ a :: upd i b l ~ b :: upd j a (upd i b l) *)
    apply Permutation_cons_inv with b.
    rewrite (upd_perm l i a b Hi). symmetry. apply upd_perm.
    destruct (Nat.eq_dec i j) as [<-|N].
    - apply nth_error_upd_eq. exact (nth_error_lt _ _ _ Hi).
    - rewrite nth_error_upd_neq by exact N. exact Hj.
  Qed.

  Lemma swap_length : forall i j (l : list A), length (swap i j l) = length l.
  Proof. intros i j l. apply Permutation_length, swap_perm. Qed.

  Definition down_child (l : list A) (i : nat) (vl : A) : nat :=
    match nth_error l (2 * i + 2) with
    | Some vr => if lt vr vl then 2 * i + 2 else 2 * i + 1
    | None => 2 * i + 1
    end.

  Lemma down_child_is_child : forall l i vl, is_child i (down_child l i vl).
  Proof.
    intros l i vl. unfold down_child, is_child.
    destruct (nth_error l (2 * i + 2)) as [vr|]; [destruct (lt vr vl)|]; auto.
  Qed.

  Lemma down_loop_S : forall f (l : list A) i,
      down_loop lt (S f) l i =
        match nth_error l (2 * i + 1) with
        | None => (l, i)
        | Some vl =>
            match nth_error l (down_child l i vl), nth_error l i with
            | Some vj, Some vi =>
                if lt vj vi then down_loop lt f (swap i (down_child l i vl) l) (down_child l i vl) else (l, i)
            | _, _ => (l, i)
            end
        end.
  Proof. reflexivity. Qed.

  Lemma is_child_lt : forall p c, is_child p c -> p < c.
  Proof. unfold is_child; intros p c H; lia. Qed.

  Lemma is_child_inj : forall p q c, is_child p c -> is_child q c -> p = q.
  Proof. unfold is_child; intros p q c H1 H2; lia. Qed.

  Lemma up_loop_perm : forall f (l : list A) i, Permutation (up_loop lt f l i) l.
  Proof.
    induction f as [|f IH]; intros l i; [reflexivity|].
    destruct i as [|i]; [reflexivity|].
    cbn [up_loop].
    destruct (nth_error l (S i)) as [vi|]; [|reflexivity].
    destruct (nth_error l (Nat.div2 (S i - 1))) as [vp|]; [|reflexivity].
    destruct (lt vi vp); [|reflexivity].
    rewrite IH. apply swap_perm.
  Qed.

  Lemma down_loop_perm_ge : forall f (l : list A) i,
      Permutation (fst (down_loop lt f l i)) l /\ i <= snd (down_loop lt f l i).
  Proof.
    induction f as [|f IH]; intros l i.
    (* every way the loop stops returns (l, i): stated once, in the shape the goal has there *)
    all: assert (Hstop : Permutation (fst (l, i)) l /\ i <= snd (l, i)) by (split; [reflexivity|apply le_n]).
    - exact Hstop.
    - rewrite down_loop_S.
      destruct (nth_error l (2 * i + 1)) as [vl|]; [|exact Hstop].
      pose proof (is_child_lt _ _ (down_child_is_child l i vl)) as Hlt.
      destruct (nth_error l (down_child l i vl)) as [vj|], (nth_error l i) as [vi|]; try exact Hstop.
      destruct (lt vj vi); [|exact Hstop].
      destruct (IH (swap i (down_child l i vl) l) (down_child l i vl)) as [P G].
      split; [rewrite P; apply swap_perm|lia].
  Qed.

  Lemma down_loop_perm : forall f (l : list A) i, Permutation (fst (down_loop lt f l i)) l.
  Proof. intros f l i. apply down_loop_perm_ge. Qed.

  Lemma down_loop_ge : forall f (l : list A) i, i <= snd (down_loop lt f l i).
  Proof. intros f l i. apply down_loop_perm_ge. Qed.

  Lemma up_loop_length : forall f (l : list A) i, length (up_loop lt f l i) = length l.
  Proof. intros f l i. apply Permutation_length, up_loop_perm. Qed.

  Lemma up_length : forall (l : list A) i, length (up lt l i) = length l.
  Proof. intros l i; apply up_loop_length. Qed.

  Lemma up_perm : forall (l : list A) i, Permutation (up lt l i) l.
  Proof. intros l i; apply up_loop_perm. Qed.

  Lemma down_loop_length : forall f (l : list A) i,
      length (fst (down_loop lt f l i)) = length l.
  Proof. intros f l i. apply Permutation_length, down_loop_perm. Qed.

  Lemma fst_down : forall (l : list A) i,
      fst (down lt l i) = fst (down_loop lt (length l) l i).
  Proof.
    intros l i; unfold down.
    destruct (down_loop lt (length l) l i) as [l' i']; reflexivity.
  Qed.

  Lemma down_length : forall (l : list A) i, length (fst (down lt l i)) = length l.
  Proof. intros l i; rewrite fst_down; apply down_loop_length. Qed.

  Lemma down_perm : forall (l : list A) i, Permutation (fst (down lt l i)) l.
  Proof. intros l i; rewrite fst_down; apply down_loop_perm. Qed.

  Theorem push_perm : forall x (l : list A), Permutation (push lt x l) (x :: l).
  Proof.
    intros x l; unfold push. rewrite up_perm.
    apply Permutation_sym, Permutation_cons_append.
  Qed.

  Lemma push_length : forall x (l : list A), length (push lt x l) = S (length l).
  Proof. intros x l. apply (Permutation_length (push_perm x l)). Qed.

  Lemma push_In : forall x (l : list A) e, In e (push lt x l) <-> In e (x :: l).
  Proof.
    intros x l e. split; apply Permutation_in; [|apply Permutation_sym]; apply push_perm.
  Qed.

  Lemma fix_unfold : forall (l : list A) i,
      fix_ lt l i =
        if i <? snd (down_loop lt (length l) l i)
        then fst (down_loop lt (length l) l i) else up lt l i.
  Proof.
    intros l i; unfold fix_, down.
    destruct (down_loop lt (length l) l i) as [l' i']; reflexivity.
  Qed.

  Theorem fix_perm : forall (l : list A) i, Permutation (fix_ lt l i) l.
  Proof.
    intros l i; rewrite fix_unfold.
    destruct (i <? _); [apply down_loop_perm|apply up_perm].
  Qed.

  Lemma fix_length : forall (l : list A) i, length (fix_ lt l i) = length l.
  Proof. intros l i. apply Permutation_length, fix_perm. Qed.

  Lemma pop_nil : pop lt [] = (None, []).
  Proof. reflexivity. Qed.

  Lemma pop_single : forall x : A, pop lt [x] = (Some x, []).
  Proof. reflexivity. Qed.

  (* popping from x :: r ++ [y]: the last index, the element there, and the slice handed to down *)
  Lemma pop_snoc_facts : forall (x : A) r y,
      length (x :: r ++ [y]) - 1 = S (length r) /\
      nth_error (x :: r ++ [y]) (S (length r)) = Some y /\
      removelast (upd 0 y (x :: r ++ [y])) = y :: r.
  Proof.
    intros x r y. split; [simpl; rewrite app_length; simpl; lia|]. split.
    - simpl. rewrite nth_error_app2, Nat.sub_diag by lia. reflexivity.
    - exact (removelast_last (y :: r) y).
  Qed.

  Lemma pop_snoc : forall (x : A) r y,
      pop lt (x :: r ++ [y]) = (Some x, fst (down lt (y :: r) 0)).
  Proof.
    intros x r y. destruct (pop_snoc_facts x r y) as (E1 & E2 & E3).
    unfold pop. rewrite E1, E2, E3. reflexivity.
  Qed.

  Theorem pop_none : forall (l l' : list A), pop lt l = (None, l') -> l = [] /\ l' = [].
  Proof.
    intros [|x r] l' H; [|discriminate H].
    rewrite pop_nil in H. inversion H; auto.
  Qed.

  Theorem pop_perm : forall (l : list A) x l',
      pop lt l = (Some x, l') -> Permutation l (x :: l').
  Proof.
    intros [|x0 r] x l' H; [discriminate H|].
    induction r as [|y r' _] using rev_ind.
    - rewrite pop_single in H. inversion H; subst. reflexivity.
    - rewrite pop_snoc in H. inversion H; subst. apply perm_skip.
      rewrite down_perm. apply Permutation_sym, Permutation_cons_append.
  Qed.

  Lemma pop_In : forall (l : list A) x l' e, pop lt l = (Some x, l') -> (In e l <-> In e (x :: l')).
  Proof.
    intros l x l' e H. split; apply Permutation_in; [|apply Permutation_sym]; apply pop_perm; exact H.
  Qed.

  Lemma parent_is_child : forall j, 0 < j -> is_child (Nat.div2 (j - 1)) j.
  Proof.
    intros j Hj. unfold is_child.
    pose proof (Nat.div2_odd (j - 1)) as H.
    destruct (Nat.odd (j - 1)); simpl Nat.b2n in H; lia.
  Qed.

  Lemma child_parent : forall p c, is_child p c -> Nat.div2 (c - 1) = p.
  Proof.
    intros p c [H|H]; subst c.
    - replace (2 * p + 1 - 1) with (2 * p) by lia. apply Nat.div2_double.
    - replace (2 * p + 2 - 1) with (S (2 * p)) by lia. apply Nat.div2_succ_double.
  Qed.

  Lemma heap_ok_nil : heap_ok lt [].
  Proof. intros p c a b _ Ha. destruct p; discriminate Ha. Qed.

  Lemma heap_okb_from_spec : forall f (l : list A) i,
      heap_okb_from lt f l i = true <->
      (forall p c a b, i <= p < i + f -> is_child p c ->
         nth_error l p = Some a -> nth_error l c = Some b -> lt b a = false).
  Proof.
    induction f as [|f IH]; intros l i.
    - simpl heap_okb_from. split; [intros _ p c a b Hp; lia | reflexivity].
    - cbn [heap_okb_from].
      destruct (nth_error l i) as [a0|] eqn:Hi.
      + rewrite !andb_true_iff, IH. split.
        * intros [[HL HR] Hrest] p c a b Hp Hc Ha Hb.
          destruct (Nat.eq_dec p i) as [->|Npi]; [|apply (Hrest p c a b); auto; lia].
          rewrite Hi in Ha; injection Ha as ->.
          destruct Hc as [-> | ->]; [rewrite Hb in HL|rewrite Hb in HR]; apply negb_true_iff; assumption.
        * intros H.
          assert (Hch : forall c, is_child i c ->
                    match nth_error l c with Some b => negb (lt b a0) | None => true end = true).
          { intros c Hc. destruct (nth_error l c) as [b|] eqn:Hb; [|reflexivity].
            apply negb_true_iff, (H i c a0 b); auto; lia. }
          split; [split; apply Hch; [left|right]; reflexivity|].
          intros p c a b Hp. apply H; lia.
      + split; [|reflexivity]. intros _ p c a b Hp Hc Ha Hb.
        apply nth_error_None in Hi. apply nth_error_lt in Ha. lia.
  Qed.

  Theorem heap_okb_spec : forall l : list A, heap_okb lt l = true <-> heap_ok lt l.
  Proof.
    intro l. unfold heap_okb. rewrite heap_okb_from_spec. split.
    - intros H p c a b Hc Ha Hb. apply (H p c a b); auto.
      apply nth_error_lt in Ha. lia.
    - intros H p c a b _ Hc Ha Hb. apply (H p c a b); auto.
  Qed.

  (* heap order around one position: [le_children l i] says that i is not above its children, [ge_parent l i] that it is
     not below its parent.  With [heap_ok_except l i] (Model/Heap.v: all the other pairs, and the parent of i against the
     children of i) the two make [heap_ok l]; sift-up keeps the first and stops on the second, sift-down the reverse. *)
  Definition le_children (l : list A) (i : nat) : Prop :=
    forall vi, nth_error l i = Some vi ->
    forall c b, is_child i c -> nth_error l c = Some b -> lt b vi = false.

  Definition ge_parent (l : list A) (i : nat) : Prop :=
    forall vi, nth_error l i = Some vi ->
    forall p a, is_child p i -> nth_error l p = Some a -> lt vi a = false.

  Lemma except_ok : forall l i, heap_ok_except lt l i -> le_children l i -> ge_parent l i -> heap_ok lt l.
  Proof.
    intros l i [E1 _] Hc Hp p c a b Hpc Ha Hb.
    destruct (Nat.eq_dec p i) as [->|Np]; [exact (Hc a Ha c b Hpc Hb)|].
    destruct (Nat.eq_dec c i) as [->|Nc]; [exact (Hp b Hb p a Hpc Ha)|exact (E1 p c a b Hpc Np Nc Ha Hb)].
  Qed.

  Lemma ge_parent_root : forall l, ge_parent l 0.
  Proof. intros l vi _ p a Hp. apply is_child_lt in Hp. lia. Qed.

  (* [heap_ok_except lt l i] reads neither position i nor what [lt] says about the element there, and speaks of the
     positions that hold an element only *)
  Lemma except_agree : forall (lt' : A -> A -> bool) l l' i,
      (forall k v, k <> i -> nth_error l' k = Some v -> nth_error l k = Some v) ->
      (forall p c a b, p <> i -> c <> i -> nth_error l p = Some a -> nth_error l c = Some b -> lt' b a = lt b a) ->
      heap_ok_except lt l i -> heap_ok_except lt' l' i.
  Proof.
    intros lt' l l' i Hl Hlt [E1 E2]. split; intros p c a b H1 H2.
    - intros Nc Ha Hb. apply Hl in Ha, Hb; try assumption.
      rewrite (Hlt p c a b) by assumption. exact (E1 p c a b H1 H2 Nc Ha Hb).
    - intros Ha Hb. apply is_child_lt in H1 as L1. apply is_child_lt in H2 as L2. apply Hl in Ha, Hb; try lia.
      rewrite (Hlt p c a b) by (assumption || lia). exact (E2 p c a b H1 H2 Ha Hb).
  Qed.

  Lemma except_upd : forall l i v, heap_ok_except lt l i -> heap_ok_except lt (upd i v l) i.
  Proof.
    intros l i v. apply except_agree; [|reflexivity].
    intros k x Nk Hk. rewrite nth_error_upd_neq in Hk by congruence. exact Hk.
  Qed.

  (* after an overwriting at i, the order of i against its children, or against its parent, is that of the new element
     against the old neighbours *)
  Lemma le_children_upd : forall l i w,
      (forall c b, is_child i c -> nth_error l c = Some b -> lt b w = false) -> le_children (upd i w l) i.
  Proof.
    intros l i w H x Hx c y Hk Hy. apply is_child_lt in Hk as Lk.
    destruct (upd_at _ _ _ _ _ _ Hx Hy) as [-> Hy']; [lia|]. exact (H c y Hk Hy').
  Qed.

  Lemma ge_parent_upd : forall l i w,
      (forall p a, is_child p i -> nth_error l p = Some a -> lt w a = false) -> ge_parent (upd i w l) i.
  Proof.
    intros l i w H x Hx p y Hk Hy. apply is_child_lt in Hk as Lk.
    destruct (upd_at _ _ _ _ _ _ Hx Hy) as [-> Hy']; [lia|]. exact (H p y Hk Hy').
  Qed.

  (* [heap_ok_except l i] and [le_children l i] in one; nothing uses it *)
  Definition up_inv (l : list A) (i : nat) : Prop :=
    (forall p c a b, is_child p c -> c <> i ->
       nth_error l p = Some a -> nth_error l c = Some b -> lt b a = false) /\
    (forall p c a b, is_child p i -> is_child i c ->
       nth_error l p = Some a -> nth_error l c = Some b -> lt b a = false).

  Lemma heap_ok_up_inv : forall l i, heap_ok lt l ->
      (forall p c a b, is_child p i -> is_child i c ->
         nth_error l p = Some a -> nth_error l c = Some b -> lt b a = false) ->
      up_inv l i.
  Proof.
    intros l i Hok H2. split; [|exact H2].
    intros p c a b Hc _. apply (Hok p c a b Hc).
  Qed.

  Section Order.
    Hypothesis Hswo : swo lt.

    Lemma hlt_asym : forall a b, lt a b = true -> lt b a = false.
    Proof. exact (proj1 Hswo). Qed.

    Lemma hnlt_trans : forall a b c, lt a b = false -> lt b c = false -> lt a c = false.
    Proof. exact (proj2 Hswo). Qed.

    Lemma hlt_irrefl : forall a, lt a a = false.
    Proof.
      intro a. destruct (lt a a) eqn:E; [|reflexivity].
      rewrite (hlt_asym a a E) in E. discriminate E.
    Qed.

    Lemma heap_root_min_idx : forall l x, heap_ok lt l -> nth_error l 0 = Some x ->
        forall j b, nth_error l j = Some b -> lt b x = false.
    Proof.
      intros l x Hok H0 j.
      induction j as [j IH] using lt_wf_ind. intros b Hb.
      destruct j as [|j']; [rewrite H0 in Hb; injection Hb as <-; apply hlt_irrefl|].
      (* b is not below its parent, which is not below the root *)
      assert (Hc : is_child (Nat.div2 (S j' - 1)) (S j')) by (apply parent_is_child; lia).
      pose proof (is_child_lt _ _ Hc) as Hp.
      destruct (nth_error l (Nat.div2 (S j' - 1))) as [a|] eqn:Ha.
      - exact (hnlt_trans _ _ _ (Hok _ _ a b Hc Ha Hb) (IH _ Hp a Ha)).
      - apply nth_error_None in Ha. apply nth_error_lt in Hb. lia.
    Qed.

    Theorem heap_root_min : forall l x r, heap_ok lt l -> l = x :: r ->
        forall y, In y l -> lt y x = false.
    Proof.
      intros l x r Hok El y Hy.
      destruct (In_nth_error _ _ Hy) as [j Hj].
      apply (heap_root_min_idx l x Hok) with (j := j); auto.
      subst l; reflexivity.
    Qed.

    Theorem pop_min : forall l x l', heap_ok lt l -> pop lt l = (Some x, l') ->
        forall y, In y l -> lt y x = false.
    Proof.
      intros [|x0 r] x l' Hok Hpop; [discriminate Hpop|].
      assert (Ex : x0 = x) by (unfold pop in Hpop; inversion Hpop; reflexivity).
      subst x0. exact (heap_root_min (x :: r) x r Hok eq_refl).
    Qed.

    Lemma ok_except : forall l i, heap_ok lt l -> heap_ok_except lt l i.
    Proof.
      intros l i Hok. split; intros p c a b Hpi Hic; [intros _; exact (Hok p c a b Hpi)|].
      intros Ha Hb. destruct (nth_error l i) as [m|] eqn:Hm.
      - (* through the element at i *) exact (hnlt_trans _ _ _ (Hok i c m b Hic Hm Hb) (Hok p i a m Hpi Ha Hm)).
      - apply nth_error_None in Hm. apply nth_error_lt in Hb. apply is_child_lt in Hic. lia.
    Qed.

    Theorem upd_heap_ok_except : forall l i v, heap_ok lt l -> heap_ok_except lt (upd i v l) i.
    Proof. intros l i v Hok. apply except_upd, ok_except, Hok. Qed.

    Lemma fits_ok : forall l i w, heap_ok_except lt l i ->
        (forall c b, is_child i c -> nth_error l c = Some b -> lt b w = false) ->
        (forall p a, is_child p i -> nth_error l p = Some a -> lt w a = false) ->
        heap_ok lt (upd i w l).
    Proof.
      intros l i w Hex Hc Hp.
      exact (except_ok _ i (except_upd l i w Hex) (le_children_upd l i w Hc) (ge_parent_upd l i w Hp)).
    Qed.

    Lemma up_step : forall l i q vi vp,
        is_child q i -> nth_error l i = Some vi -> nth_error l q = Some vp ->
        lt vi vp = true -> heap_ok_except lt l i ->
        heap_ok_except lt (swap i q l) q /\ le_children (swap i q l) q.
    Proof.
      intros l i q vi vp Hqi Hi Hq Hlt Hex. pose proof (is_child_lt _ _ Hqi) as L.
      rewrite (swap_eq l i q vi vp Hi Hq).
      assert (H1 : heap_ok lt (upd i vp l)).
      { apply fits_ok; [exact Hex|intros c b Hc Hb; exact (proj2 Hex q c vp b Hqi Hc Hq Hb)|].
        intros p a Hp Ha. rewrite (is_child_inj _ _ _ Hp Hqi), Hq in Ha. injection Ha as <-. apply hlt_irrefl. }
      split; [apply upd_heap_ok_except, H1|].
      (* a child of q is not below vp in that heap, and vp is not below vi *)
      apply le_children_upd. intros c b Hc Hb.
      refine (hnlt_trans _ _ _ (H1 q c vp b Hc _ Hb) (hlt_asym _ _ Hlt)).
      rewrite nth_error_upd_neq by lia. exact Hq.
    Qed.

    Lemma up_loop_ok : forall f l i, i <= f ->
        heap_ok_except lt l i -> le_children l i -> heap_ok lt (up_loop lt f l i).
    Proof.
      induction f as [|f IH]; intros l i Hf Hex Hch; destruct i as [|i'].
      - exact (except_ok l 0 Hex Hch (ge_parent_root l)).
      - (* S i' <= 0 *) lia.
      - exact (except_ok l 0 Hex Hch (ge_parent_root l)).
      - pose proof (except_ok l (S i') Hex Hch) as Hstop.
        cbn [up_loop].
        assert (Hqi : is_child (Nat.div2 (S i' - 1)) (S i')) by (apply parent_is_child; lia).
        remember (Nat.div2 (S i' - 1)) as q eqn:Eq. remember (S i') as i eqn:Ei.
        (* when the loop stops, i is not below its parent *)
        assert (Hpar : (forall vi vp, nth_error l i = Some vi -> nth_error l q = Some vp -> lt vi vp = false) ->
                       heap_ok lt l).
        { intros H. apply Hstop. intros vi Hi p a Hp Ha. rewrite (is_child_inj p q i Hp Hqi) in Ha. exact (H vi a Hi Ha). }
        destruct (nth_error l i) as [vi|] eqn:Hi; [|apply Hpar; discriminate].
        destruct (nth_error l q) as [vp|] eqn:Hq; [|apply Hpar; discriminate].
        destruct (lt vi vp) eqn:Hlt; [|apply Hpar; intros ? ? [= <-] [= <-]; exact Hlt].
        destruct (up_step l i q vi vp Hqi Hi Hq Hlt Hex) as [Hex' Hch'].
        apply IH; [apply is_child_lt in Hqi; lia|exact Hex'|exact Hch'].
    Qed.

    Theorem push_ok : forall x l, heap_ok lt l -> heap_ok lt (push lt x l).
    Proof.
      intros x l Hok. unfold push, up. apply up_loop_ok.
      - rewrite app_length; simpl; lia.
      - (* away from the new last position l ++ [x] is l *)
        apply (except_agree lt l); [|reflexivity|apply ok_except, Hok].
        intros k v Nk Hk. apply nth_error_lt in Hk as L. rewrite app_length in L. simpl in L.
        rewrite nth_error_app1 in Hk by lia. exact Hk.
      - (* and that position has no children *)
        intros vi _ c b Hc Hb. apply is_child_lt in Hc. apply nth_error_lt in Hb.
        rewrite app_length in Hb. simpl in Hb. lia.
    Qed.

    Lemma down_child_min : forall l i vl, nth_error l (2 * i + 1) = Some vl ->
        exists vj, nth_error l (down_child l i vl) = Some vj /\
          forall c b, is_child i c -> nth_error l c = Some b -> lt b vj = false.
    Proof.
      intros l i vl Hl. unfold down_child.
      destruct (nth_error l (2 * i + 2)) as [vr|] eqn:Hr; [destruct (lt vr vl) eqn:Hlt|].
      - (* the right child, below the left *) exists vr. split; [exact Hr|].
        intros c b [-> | ->] Hb; rewrite ?Hl, ?Hr in Hb; injection Hb as <-; [exact (hlt_asym _ _ Hlt)|apply hlt_irrefl].
      - (* the left child, not above the right *) exists vl. split; [exact Hl|].
        intros c b [-> | ->] Hb; rewrite ?Hl, ?Hr in Hb; injection Hb as <-; [apply hlt_irrefl|exact Hlt].
      - (* the only child *) exists vl. split; [exact Hl|].
        intros c b [-> | ->] Hb; rewrite ?Hl, ?Hr in Hb; [injection Hb as <-; apply hlt_irrefl|discriminate Hb].
    Qed.

    Lemma down_loop_S_cases : forall f l i,
        (down_loop lt (S f) l i = (l, i) /\ le_children l i)
        \/
        (exists j vi vj,
           is_child i j /\ nth_error l i = Some vi /\ nth_error l j = Some vj /\
           lt vj vi = true /\
           (forall c b, is_child i c -> nth_error l c = Some b -> lt b vj = false) /\
           down_loop lt (S f) l i = down_loop lt f (swap i j l) j).
    Proof.
      intros f l i. rewrite down_loop_S.
      destruct (nth_error l (2 * i + 1)) as [vl|] eqn:Hl.
      - destruct (down_child_min l i vl Hl) as (vj & Hj & Hmin). rewrite Hj.
        destruct (nth_error l i) as [vi|] eqn:Hi; [|left; split; [reflexivity|intros vi E; congruence]].
        destruct (lt vj vi) eqn:Hlt.
        + right. exists (down_child l i vl), vi, vj.
          repeat (split; [solve [auto using down_child_is_child]|]). reflexivity.
        + left. split; [reflexivity|]. intros vi' E c b Hc Hb. rewrite Hi in E. injection E as <-.
          exact (hnlt_trans _ _ _ (Hmin c b Hc Hb) Hlt).
      - left. split; [reflexivity|]. intros vi Hi c b Hc Hb. exfalso.
        apply nth_error_None in Hl. apply nth_error_lt in Hb. unfold is_child in Hc. lia.
    Qed.

    Lemma down_step : forall l i j vi vj,
        is_child i j -> nth_error l i = Some vi -> nth_error l j = Some vj ->
        lt vj vi = true ->
        (forall c b, is_child i c -> nth_error l c = Some b -> lt b vj = false) ->
        heap_ok_except lt l i ->
        heap_ok_except lt (swap i j l) j /\ ge_parent (swap i j l) j.
    Proof.
      intros l i j vi vj Hij Hi Hj Hlt Hmin Hex. pose proof (is_child_lt _ _ Hij) as L.
      rewrite (swap_eq l i j vi vj Hi Hj).
      assert (H1 : heap_ok lt (upd i vj l)).
      { apply fits_ok; [exact Hex|exact Hmin|]. intros p a Hp Ha. exact (proj2 Hex p j a vj Hp Hij Ha Hj). }
      split; [apply upd_heap_ok_except, H1|].
      (* the parent of j is i, which now holds vj *)
      apply ge_parent_upd. intros p a Hp Ha. rewrite (is_child_inj _ _ _ Hp Hij) in Ha.
      rewrite nth_error_upd_eq in Ha by exact (nth_error_lt _ _ _ Hi). injection Ha as <-.
      exact (hlt_asym _ _ Hlt).
    Qed.

    Lemma down_loop_ok : forall f l i, length l <= f + i ->
        heap_ok_except lt l i -> ge_parent l i -> heap_ok lt (fst (down_loop lt f l i)).
    Proof.
      induction f as [|f IH]; intros l i Hf Hex Hpa.
      - (* i is beyond the end *)
        apply (except_ok l i Hex); [|exact Hpa]. intros vi Hi. apply nth_error_lt in Hi. simpl in Hf. lia.
      - destruct (down_loop_S_cases f l i)
          as [[E Hch]|(j & vi & vj & Hij & Hi & Hj & Hlt & Hmin & E)]; rewrite E.
        + exact (except_ok l i Hex Hch Hpa).
        + apply is_child_lt in Hij as Hijlt.
          destruct (down_step l i j vi vj Hij Hi Hj Hlt Hmin Hex) as [Hex' Hpa'].
          apply IH; [rewrite swap_length; lia|exact Hex'|exact Hpa'].
    Qed.

    Theorem pop_ok : forall l o l', heap_ok lt l -> pop lt l = (o, l') -> heap_ok lt l'.
    Proof.
      intros [|x r] o l' Hok Hpop.
      - rewrite pop_nil in Hpop. inversion Hpop; subst. apply heap_ok_nil.
      - induction r as [|y r' _] using rev_ind.
        + rewrite pop_single in Hpop. inversion Hpop; subst. apply heap_ok_nil.
        + rewrite pop_snoc in Hpop. inversion Hpop; subst o l'. clear Hpop.
          rewrite fst_down. apply down_loop_ok; [lia| |].
          * (* away from the root, y :: r' has elements of x :: r' ++ [y] at their positions *)
            apply (except_agree lt (x :: r' ++ [y])); [|reflexivity|apply ok_except, Hok].
            intros [|k] v Nk Hk; [lia|]. simpl in Hk |- *.
            rewrite nth_error_app1 by exact (nth_error_lt _ _ _ Hk). exact Hk.
          * apply ge_parent_root.
    Qed.

    Theorem fix_restores : forall l i, i < length l -> heap_ok_except lt l i ->
        heap_ok lt (fix_ lt l i).
    Proof.
      intros l i Hil Hex. rewrite fix_unfold.
      destruct (length l) as [|f] eqn:Ef; [lia|].
      destruct (down_loop_S_cases f l i)
        as [[E Hch]|(j & vi & vj & Hij & Hi & Hj & Hlt & Hmin & E)]; rewrite E.
      - (* down does not move: i is not above its children, up takes over *)
        simpl snd. rewrite Nat.ltb_irrefl.
        unfold up. apply up_loop_ok; [lia|exact Hex|exact Hch].
      - apply is_child_lt in Hij as Hijlt.
        pose proof (down_loop_ge f (swap i j l) j) as Hge.
        replace (i <? _) with true by (symmetry; apply Nat.ltb_lt; lia).
        destruct (down_step l i j vi vj Hij Hi Hj Hlt Hmin Hex) as [Hex' Hpa'].
        apply down_loop_ok; [rewrite swap_length; lia|exact Hex'|exact Hpa'].
    Qed.

  End Order.

End HeapProofs.

(* one term over lemmas of this file, so that one Print Assumptions shows them closed under the global context *)
Definition C19_heap_audit :=
  (@push_perm, @pop_perm, @pop_none, @pop_nil, @fix_perm,
   @swap_length, @up_length, @down_loop_length, @push_length, @fix_length,
   @heap_root_min, @pop_min, @push_ok, @pop_ok, @heap_okb_spec,
   @fix_restores, @upd_heap_ok_except).
Print Assumptions C19_heap_audit.
