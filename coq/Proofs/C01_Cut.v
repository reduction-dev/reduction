(* C01 -- the alignment / cut invariant of Sys (CutInv) and, from it, publication_exact: what the job publishes when
   the last acknowledgement of the pending checkpoint arrives is exact (Sys.ckpt_exact): the premise C01_Sys.step_inv_pub
   leaves open.  Hence delivery_inv and pub_ok of every state of a run. *)
From Coq Require Import List NArith Bool Arith Lia.
From RV Require Import Model.Sys Base.Lists Proofs.C01_Sys.
Import ListNotations.
Import Sys.

Definition is_bar (it : item) : bool := match it with IBar => true | IRec _ _ => false end.
Definition nbar (q : list item) : nat := length (filter is_bar q).
Fixpoint before_bar (q : list item) : list item :=
  match q with
  | [] => []
  | IBar :: _ => []
  | IRec s r :: q' => IRec s r :: before_bar q'
  end.

Lemma nbar_app : forall q1 q2, nbar (q1 ++ q2) = nbar q1 + nbar q2.
Proof. intros; unfold nbar; rewrite filter_app, app_length; reflexivity. Qed.
Lemma nbar_cons_rec : forall s rc q, nbar (IRec s rc :: q) = nbar q.
Proof. reflexivity. Qed.
Lemma nbar_cons_bar : forall q, nbar (IBar :: q) = S (nbar q).
Proof. reflexivity. Qed.

Lemma before_bar_app_has : forall q x, 1 <= nbar q -> before_bar (q ++ x) = before_bar q.
Proof.
  induction q as [|[s r|] q IH]; intros x H; cbn in *.
  - inversion H.
  - f_equal. apply IH. exact H.
  - reflexivity.
Qed.

Lemma before_bar_app_none : forall q x, nbar q = 0 -> before_bar (q ++ x) = q ++ before_bar x.
Proof.
  induction q as [|[s r|] q IH]; intros x H; cbn in *; [reflexivity| |discriminate].
  f_equal. apply IH. exact H.
Qed.

Lemma before_bar_none : forall q, nbar q = 0 -> before_bar q = q.
Proof. intros q H. rewrite <- (app_nil_r q) at 1. rewrite (before_bar_app_none q [] H). apply app_nil_r. Qed.

Lemma before_bar_app_bar : forall q, nbar q = 0 -> before_bar (q ++ [IBar]) = q.
Proof. intros q H. rewrite (before_bar_app_none q [IBar] H). apply app_nil_r. Qed.

Lemma memn_In : forall x l, memn x l = true <-> In x l.
Proof. apply (existsb_eqb_In Nat.eqb Nat.eqb_eq). Qed.

Lemma memn_false : forall x l, memn x l = false -> ~ In x l.
Proof. intros x l H Hin. apply memn_In in Hin. congruence. Qed.

Lemma all_in_spec : forall m l, all_in m l = true -> forall r, r < m -> In r l.
Proof.
  intros m l H r Hr. unfold all_in in H. rewrite forallb_forall in H.
  apply memn_In. apply H. apply in_seq. lia.
Qed.

Lemma In_remove_nth : forall (A : Type) i (l : list A) x, In x (remove_nth i l) -> In x l.
Proof.
  intros A i; induction i as [|i IH]; intros [|a l] x H; cbn in *; try contradiction.
  - right; exact H.
  - destruct H as [->|H]; [left; reflexivity|right; apply IH; exact H].
Qed.

Lemma lookup_in : forall (A : Type) (l : list (nat * A)) o, In o (map fst l) ->
  exists v, In (o, v) l /\ find (fun x => Nat.eqb (fst x) o) l = Some (o, v).
Proof.
  intros A l o; induction l as [|[o' v'] l IH]; intros H; cbn in *; [contradiction|].
  destruct (Nat.eqb_spec o' o) as [->|Hne]; [eauto|].
  destruct H as [H|H]; [contradiction|]. destruct (IH H) as [v [Hin Hf]]. eauto.
Qed.

(* how far the barrier of the pending checkpoint has come between runner r and operator o: 0 = not emitted yet, or the
   operator has cut; 1 = in the channel, or received by o, which now holds r back (r is parked) *)
Definition mark (ch : nat -> nat -> list item) (gt : nat -> list nat) (r o : nat) : nat :=
  nbar (ch r o) + (if memn r (gt o) then 1 else 0).
(* the records of channel (r,o) ahead of that barrier; none when r is parked: the barrier has been received *)
Definition pre (ch : nat -> nat -> list item) (gt : nat -> list nat) (r o : nat) : list item :=
  if memn r (gt o) then [] else before_bar (ch r o).

Lemma mark_upd2 : forall ch gt i j v r o, nbar v = nbar (ch i j) -> mark (upd2 ch i j v) gt r o = mark ch gt r o.
Proof. intros ch gt i j v r o H. unfold mark. case_upd2; [rewrite H|]; reflexivity. Qed.

Lemma mark_other : forall ch gt r0 o0 q g r o, o <> o0 -> mark (upd2 ch r0 o0 q) (upd gt o0 g) r o = mark ch gt r o.
Proof. intros. unfold mark. rewrite upd_other, upd2_other by tauto. reflexivity. Qed.
Lemma pre_other : forall ch gt r0 o0 q g r o, o <> o0 -> pre (upd2 ch r0 o0 q) (upd gt o0 g) r o = pre ch gt r o.
Proof. intros. unfold pre. rewrite upd_other, upd2_other by tauto. reflexivity. Qed.

Definition add_ack (a : ack) (p : pending) : pending :=
  match a with
  | AckSr _ r ps => {| p_sr := (r, ps) :: p_sr p; p_op := p_op p |}
  | AckOp _ o c => {| p_sr := p_sr p; p_op := (o, c) :: p_op p |}
  end.

(* an acknowledgement is at the job (held in the pending checkpoint); current: of a pending checkpoint, at the job or still
   in flight.  The invariant speaks of the current acknowledgements that carry the pending id (cur_sr, cur_op). *)
Definition held (p : pending) (a : ack) : Prop :=
  match a with AckSr _ r ps => In (r, ps) (p_sr p) | AckOp _ o c => In (o, c) (p_op p) end.
Definition current (pd : option pending) (fl : list ack) (a : ack) : Prop :=
  exists p, pd = Some p /\ (held p a \/ In a fl).

Lemma current_incl : forall pd fl fl' a, incl fl' fl -> current pd fl' a -> current pd fl a.
Proof. intros pd fl fl' a Hi [p [Hp [H|H]]]; exists p; auto. Qed.

Lemma current_snoc : forall pd fl x a, current pd (fl ++ [x]) a -> current pd fl a \/ a = x.
Proof.
  intros pd fl x a [p [Hp [H|H]]]; [left; exists p; auto|].
  apply in_snoc in H. destruct H as [H|H]; [left; exists p|]; auto.
Qed.

Lemma held_add_ack : forall x p a, held (add_ack x p) a -> ack_id a = ack_id x -> a = x \/ held p a.
Proof.
  intros [id r ps|id o c] p [id' r' ps'|id' o' c'] H Hid; cbn in *.
  - (* both of runners: the one just added, or held before *)
    destruct H as [H|H]; [left; injection H as -> ->; subst; reflexivity|right; exact H].
  - right; exact H.
  - right; exact H.
  - destruct H as [H|H]; [left; injection H as -> ->; subst; reflexivity|right; exact H].
Qed.

Lemma current_add_ack : forall fl i x p a, nth_error fl i = Some x -> ack_id a = ack_id x ->
  current (Some (add_ack x p)) (remove_nth i fl) a -> current (Some p) fl a.
Proof.
  intros fl i x p a Hn Hid [p' [Hp [H|H]]]; exists p; (split; [reflexivity|]).
  - injection Hp as <-. destruct (held_add_ack x p a H Hid) as [->|H']; [right; apply (nth_error_In _ _ Hn)|left; exact H'].
  - right. apply (In_remove_nth _ _ _ _ H).
Qed.

Section Cut.
Variable splits : list (list rec).
Variable owner : nat -> N -> nat.
(* well-formed configuration (C05): a key is owned by one of the m operators *)
Hypothesis Hown : forall m k, 0 < m -> owner m k < m.

Notation splitl := (Sys.split splits).
Notation nspl := (Sys.nsplits splits).
Notation stepS := (Sys.step splits owner).
Notation runS := (Sys.run splits owner).
(* want ps s k: the records of key k before position ps s of split s; ownedby m o: an entry whose key operator o owns *)
Notation want ps s k := (sub k (firstn (ps s%nat) (splitl s))).
Notation ownedby m o := (fun e : entry => owner m (rkey (snd e)) = o).

Definition cur_sr (st : state) (r : nat) (ps : nat -> nat) : Prop :=
  current (pend st) (inflight st) (AckSr (started st) r ps).
Definition cur_op (st : state) (o : nat) (cut : list entry) : Prop :=
  current (pend st) (inflight st) (AckOp (started st) o cut).

(* what split s and key k see at operator o of runner r's records up to r's barrier: those applied, then those still
   in the channel before the barrier *)
Definition view (st : state) (r o s : nat) (k : N) : list rec :=
  proj s (filter (keyb k) (olog st o)) ++ in_chan s k (pre (chan st) (got st) r o).

(* a step that changes no mark and, where a barrier is under way, not what is seen up to it *)
Definition same_view (st st' : state) : Prop :=
  forall r o, mark (chan st') (got st') r o = mark (chan st) (got st) r o /\
    (mark (chan st) (got st) r o = 1 -> forall s k, runner_of (n st) s = r -> owner (n st) k = o ->
       view st' r o s k = view st r o s k).

Lemma same_view_frame : forall st st', chan st' = chan st -> got st' = got st -> olog st' = olog st -> same_view st st'.
Proof. intros st st' Ec Eg Eo r o. unfold view. rewrite Ec, Eg, Eo. auto. Qed.

Record CutInv (st : state) : Prop := {
  (* barrier bookkeeping.  mark_le1: at most one barrier between r and o, in the channel or received (r parked at o).
     mark_live: such a barrier is of the pending checkpoint, and r has emitted it.  started_le, idle_bars: a runner is at
     most one barrier behind, and not behind while nothing is pending; together they tell cut_barrier that the runner about
     to emit is exactly one behind and that a checkpoint is pending. *)
  mark_le1 : forall r o, mark (chan st) (got st) r o <= 1;
  mark_live : forall r o, mark (chan st) (got st) r o = 1 -> r < n st /\ o < n st /\ bars st r = started st /\ pend st <> None;
  started_le : forall r, r < n st -> started st <= S (bars st r);
  idle_bars : pend st = None -> forall r, r < n st -> bars st r = started st;
  (* acknowledgement bookkeeping.  sr_emitted: a runner that has acknowledged has emitted its barrier. *)
  sr_emitted : forall r ps, cur_sr st r ps -> r < n st /\ bars st r = started st;
  (* channel-content invariant: a runner whose barrier is out, seen from an operator that has not cut yet *)
  sr_view : forall r ps, cur_sr st r ps -> forall o s k, s < nspl -> runner_of (n st) s = r -> owner (n st) k = o ->
         mark (chan st) (got st) r o = 1 -> view st r o s k = want ps s k;
  (* a cut agrees with the positions every runner acknowledged *)
  cut_pos : forall r ps o cut, cur_sr st r ps -> cur_op st o cut ->
         forall s k, s < nspl -> runner_of (n st) s = r -> owner (n st) k = o -> proj s (filter (keyb k) cut) = want ps s k;
  (* op_cut: an operator that has acknowledged a cut exists, every runner had emitted by then, nothing of the checkpoint is
     left towards it (no barrier in its channels, nobody parked at it), and the cut holds only keys it owns.  ack_id_le: no
     acknowledgement in flight carries a future id, so AStart makes all of them stale.  log_owned, with the last clause of
     op_cut: publication_exact reads a key's records off its owner's cut alone (filter_key_flat_map). *)
  op_cut : forall o cut, cur_op st o cut ->
         o < n st /\ (forall r, r < n st -> bars st r = started st) /\ (forall r, mark (chan st) (got st) r o = 0) /\
         Forall (ownedby (n st) o) cut;
  ack_id_le : forall a, In a (inflight st) -> ack_id a <= started st;
  log_owned : forall o, Forall (ownedby (n st) o) (olog st o)
}.

Ltac simp_st := cbn [n pos chan olog got bars started pend inflight pub].
(* the goals of the fields of CutInv, to be selected by name *)
Ltac cutinv_fields :=
  refine {| mark_le1 := ?[mark_le1]; mark_live := ?[mark_live]; started_le := ?[started_le]; idle_bars := ?[idle_bars];
            sr_emitted := ?[sr_emitted]; sr_view := ?[sr_view]; cut_pos := ?[cut_pos]; op_cut := ?[op_cut];
            ack_id_le := ?[ack_id_le]; log_owned := ?[log_owned] |}.

(* CutInv survives a step that keeps the counters n, bars, started, leaves a pending checkpoint pending, adds no
   acknowledgement (none of the pending id becomes current, none comes in flight), is a same_view and leaves in every
   applied log only what its operator owns *)
Lemma cut_keep : forall st st',
  n st' = n st -> bars st' = bars st -> started st' = started st -> (pend st' = None -> pend st = None) ->
  (forall a, current (pend st') (inflight st') a -> ack_id a = started st -> current (pend st) (inflight st) a) ->
  incl (inflight st') (inflight st) ->
  same_view st st' ->
  (forall o, Forall (ownedby (n st) o) (olog st' o)) ->
  CutInv st -> CutInv st'.
Proof.
  intros st st' Hn Hb Hs Hp Hcur Hfl Hm Hlw [mark_le1 mark_live started_le idle_bars sr_emitted sr_view cut_pos op_cut ack_id_le log_owned].
  constructor; unfold cur_sr, cur_op; rewrite ?Hn, ?Hb, ?Hs.
  - (* mark_le1 *) intros r o. rewrite (proj1 (Hm r o)). apply mark_le1.
  - (* mark_live *) intros r o H. rewrite (proj1 (Hm r o)) in H. destruct (mark_live r o H) as (A & B & Cc & D). repeat split; try assumption.
    intros E. apply D, Hp, E.
  - (* started_le *) exact started_le.
  - (* idle_bars *) intros E. apply idle_bars, Hp, E.
  - (* sr_emitted *) intros r ps H. apply (sr_emitted r ps), (Hcur _ H eq_refl).
  - (* sr_view *) intros r ps H o s k Hs' Hr Ho Hmk. destruct (Hm r o) as [E1 E2]. rewrite E1 in Hmk.
    rewrite (E2 Hmk s k Hr Ho). apply (sr_view r ps (Hcur _ H eq_refl)); assumption.
  - (* cut_pos *) intros r ps o cut H1 H2. apply (cut_pos r ps o cut (Hcur _ H1 eq_refl) (Hcur _ H2 eq_refl)).
  - (* op_cut *) intros o cut H. destruct (op_cut o cut (Hcur _ H eq_refl)) as (A & B & Cc & D). repeat split; try assumption.
    intros r. rewrite (proj1 (Hm r o)). apply Cc.
  - (* ack_id_le *) intros a H. apply ack_id_le, Hfl, H.
  - (* log_owned *) exact Hlw.
Qed.

(* the two shapes in which the steps use it: only positions, channels, applied logs and parked runners change;
   only what the job holds and what is in flight changes *)
Lemma cut_keep_data : forall st p ch lg gt,
  let st' := {| n := n st; pos := p; chan := ch; olog := lg; got := gt; bars := bars st; started := started st;
                pend := pend st; inflight := inflight st; pub := pub st |} in
  same_view st st' -> (forall o, Forall (ownedby (n st) o) (lg o)) -> CutInv st -> CutInv st'.
Proof. intros st p ch lg gt st' Hv Ho. apply (cut_keep st); auto using incl_refl. Qed.

Lemma cut_keep_acks : forall st pd fl pb,
  let st' := {| n := n st; pos := pos st; chan := chan st; olog := olog st; got := got st; bars := bars st;
                started := started st; pend := pd; inflight := fl; pub := pb |} in
  (pd = None -> pend st = None) ->
  (forall a, current pd fl a -> ack_id a = started st -> current (pend st) (inflight st) a) ->
  incl fl (inflight st) -> CutInv st -> CutInv st'.
Proof.
  intros st pd fl pb st' Hp Hcur Hfl C. apply (cut_keep st); auto; [apply same_view_frame; reflexivity|apply (log_owned st C)].
Qed.

(* no barrier under way and no acknowledgement of the pending id anywhere: only the counters are constrained *)
Lemma cut_quiet : forall st,
  (forall r o, mark (chan st) (got st) r o <= 1) -> (forall r o, mark (chan st) (got st) r o <> 1) ->
  (forall a, current (pend st) (inflight st) a -> ack_id a <> started st) ->
  (forall r, r < n st -> started st <= S (bars st r)) ->
  (pend st = None -> forall r, r < n st -> bars st r = started st) ->
  (forall a, In a (inflight st) -> ack_id a <= started st) ->
  (forall o, Forall (ownedby (n st) o) (olog st o)) ->
  CutInv st.
Proof.
  intros st mark_le1 Hz Hno started_le idle_bars ack_id_le log_owned. cutinv_fields; try assumption; unfold cur_sr, cur_op.
  [mark_live]: { intros r o H. destruct (Hz r o H). }
  [sr_emitted]: { intros r ps H. destruct (Hno _ H eq_refl). }
  [sr_view]: { intros r ps H. destruct (Hno _ H eq_refl). }
  [cut_pos]: { intros r ps o cut H. destruct (Hno _ H eq_refl). }
  [op_cut]: { intros o cut H. destruct (Hno _ H eq_refl). }
Qed.

Lemma cut_emit : forall st s, CutInv st -> CutInv (stepS st (AEmit s)).
Proof.
  intros st s0 C. unfold Sys.step.
  destruct (Nat.ltb s0 nspl); [|exact C].
  destruct (nth_error (splitl s0) (pos st s0)) as [rc|]; [|exact C].
  apply cut_keep_data; [|apply (log_owned st C)|exact C].
  intros r o. split; simp_st.
  - apply mark_upd2. rewrite nbar_app. apply Nat.add_0_r.
  - (* a record behind the barrier is not before it *)
    intros Hm s k _ _. unfold view; simp_st. do 2 f_equal. unfold mark, pre in *.
    destruct (memn r (got st o)); [reflexivity|]. case_upd2; [|reflexivity].
    apply before_bar_app_has. lia.
Qed.

Lemma memn_cons_other : forall r x l, r <> x -> memn r (x :: l) = memn r l.
Proof. intros r x l H. cbn. rewrite (proj2 (Nat.eqb_neq r x) H). reflexivity. Qed.

(* an operator's acknowledgement adds none of a runner *)
Lemma cur_sr_snoc_op : forall st id o c r ps,
  current (pend st) (inflight st ++ [AckOp id o c]) (AckSr (started st) r ps) -> cur_sr st r ps.
Proof. intros st id o c r ps H. destruct (current_snoc _ _ _ _ H) as [H'|E]; [exact H'|discriminate]. Qed.

Lemma head_bar_alone : forall st r o q, CutInv st -> chan st r o = IBar :: q -> memn r (got st o) = false ->
  nbar q = 0 /\ mark (chan st) (got st) r o = 1.
Proof.
  intros st r o q C Hc Hm. pose proof (mark_le1 st C r o) as L. unfold mark in *. rewrite Hc, Hm in *.
  rewrite nbar_cons_bar in *. lia.
Qed.

(* Operator o0 receives from r0 the last barrier it waited for (all_in): every runner's barrier has reached o0, r0's at
   the head of its channel, the others' received before (they are parked); so nothing of any runner is left before its
   barrier, and once the cut is taken column o0 holds no mark. *)
Lemma aligned : forall st r0 o0 q, CutInv st -> chan st r0 o0 = IBar :: q -> memn r0 (got st o0) = false ->
  all_in (n st) (r0 :: got st o0) = true ->
  forall r, mark (upd2 (chan st) r0 o0 q) (upd (got st) o0 []) r o0 = 0 /\
    (r < n st -> mark (chan st) (got st) r o0 = 1 /\ forall s k, view st r o0 s k = proj s (filter (keyb k) (olog st o0))).
Proof.
  intros st r0 o0 q C Hc Hm Hall r. unfold view, pre, mark at 1. rewrite upd_same. cbn [memn existsb]. rewrite Nat.add_0_r.
  destruct (Nat.eq_dec r r0) as [->|Hnr].
  - (* r0: its barrier is the head of the channel *)
    rewrite upd2_same, Hm, Hc. destruct (head_bar_alone st r0 o0 q C Hc Hm). repeat split; auto. intros; apply app_nil_r.
  - rewrite upd2_other by tauto.
    pose proof (mark_le1 st C r o0) as L. pose proof (mark_live st C r o0) as B. unfold mark in *.
    destruct (memn r (got st o0)) eqn:Hg.
    { (* parked: no barrier in the channel, nothing before it *) repeat split; try lia. intros; apply app_nil_r. }
    (* not parked, so by all_in not below n: it has no barrier at all *)
    assert (Hr : ~ r < n st).
    { intros Hr. destruct (all_in_spec _ _ Hall r Hr) as [->|Hin]; [contradiction|]. destruct (memn_false _ _ Hg Hin). }
    split; [|contradiction]. destruct (Nat.eq_dec (nbar (chan st r o0)) 0) as [E|E]; [exact E|].
    (* a barrier in the channel would make r live, hence below n *)
    destruct B as (F & _); [lia|contradiction].
Qed.

Lemma cut_deliver : forall st r0 o0, chan_wf owner st -> CutInv st -> CutInv (stepS st (ADeliver r0 o0)).
Proof.
  intros st r0 o0 Hw C. unfold Sys.step.
  destruct (Nat.ltb r0 (n st) && Nat.ltb o0 (n st)) eqn:Hg; [|exact C].
  apply andb_true_iff in Hg. destruct Hg as [Hr0 Ho0]. apply Nat.ltb_lt in Hr0, Ho0.
  destruct (chan st r0 o0) as [|it q] eqn:Hc; [exact C|].
  destruct (memn r0 (got st o0)) eqn:Hm; [destruct it; exact C|].
  destruct it as [s0 rc|].
  - (* a record moves from before the barrier to the applied log *)
    pose proof (Hw r0 o0) as Hit. rewrite Hc in Hit. apply Forall_inv in Hit. destruct Hit as [Hrs0 Hok].
    apply cut_keep_data; [| |exact C].
    + intros r o. split; simp_st; [apply mark_upd2; rewrite Hc; reflexivity|].
      intros _ s k Hr Ho. unfold view; simp_st.
      destruct (Nat.eq_dec o o0) as [->|Hno]; [|unfold pre; rewrite upd_other, upd2_other by tauto; reflexivity].
      rewrite upd_same, (papp_entry s k), <- app_assoc. f_equal.
      destruct (Nat.eq_dec r r0) as [->|Hnr]; unfold pre.
      * rewrite Hm, upd2_same, Hc. reflexivity.
      * rewrite upd2_other by tauto. rewrite hit_nil by (left; congruence). reflexivity.
    + intros o. destruct (Nat.eq_dec o o0) as [->|Hno]; [|rewrite upd_other by auto; apply (log_owned st C)].
      rewrite upd_same. apply Forall_app; split; [apply (log_owned st C)|]. repeat constructor. exact Hok.
  - destruct (head_bar_alone st r0 o0 q C Hc Hm) as [Hq0 M].
    destruct (all_in (n st) (r0 :: got st o0)) eqn:Hall.
    + (* the last one: the cut is taken and acknowledged; column o0 is cleared, the others are as they were *)
      pose proof (fun r => proj1 (aligned st r0 o0 q C Hc Hm Hall r)) as Hz. pose proof (fun r => proj2 (aligned st r0 o0 q C Hc Hm Hall r)) as Hal.
      destruct C as [mark_le1 mark_live started_le idle_bars sr_emitted sr_view cut_pos op_cut ack_id_le log_owned].
      cutinv_fields; unfold cur_sr, cur_op, view; simp_st.
      [mark_le1]: { intros r o. destruct (Nat.eq_dec o o0) as [->|Hno]; [rewrite Hz; lia|rewrite mark_other by exact Hno; apply mark_le1]. }
      [mark_live]: { intros r o H. destruct (Nat.eq_dec o o0) as [->|Hno]; [rewrite Hz in H; discriminate|].
        rewrite mark_other in H by exact Hno. apply (mark_live r o H). }
      [started_le]: exact started_le.
      [idle_bars]: exact idle_bars.
      [sr_emitted]: { intros r ps H. apply (sr_emitted r ps (cur_sr_snoc_op _ _ _ _ _ _ H)). }
      [sr_view]: { intros r ps H o s k Hs Hr Ho Hmk. destruct (Nat.eq_dec o o0) as [->|Hno]; [rewrite Hz in Hmk; discriminate|].
        rewrite mark_other in Hmk by exact Hno. rewrite pre_other by exact Hno.
        apply (sr_view r ps (cur_sr_snoc_op _ _ _ _ _ _ H)); assumption. }
      [cut_pos]: { intros r ps o cut H1 H2 s k Hs Hr Ho. apply cur_sr_snoc_op in H1. destruct (current_snoc _ _ _ _ H2) as [H2'|E].
        -- apply (cut_pos r ps o cut H1 H2'); assumption.
        -- (* the cut just taken: what r's acknowledged positions promise up to its barrier is all applied *)
           injection E as -> ->. destruct (sr_emitted r ps H1) as [Hrn _]. destruct (Hal r Hrn) as [F1 F2].
           rewrite <- (sr_view r ps H1 o0 s k Hs Hr Ho F1). symmetry; apply F2. }
      [op_cut]: { intros o cut H. destruct (current_snoc _ _ _ _ H) as [H'|E].
        -- destruct (op_cut o cut H') as (A & B & Cc & D).
           assert (Hno : o <> o0) by (intros ->; rewrite Cc in M; discriminate).
           repeat split; try assumption. intros r. rewrite mark_other by exact Hno. apply Cc.
        -- injection E as -> ->. repeat split; [exact Ho0| |exact Hz|apply log_owned].
           intros r Hr. apply (mark_live r o0), Hal, Hr. }
      [ack_id_le]: { intros a H. apply in_snoc in H. destruct H as [H|<-]; [apply ack_id_le; exact H|apply le_n]. }
      [log_owned]: exact log_owned.
    + (* not the last one: the runner is parked; marks and records before the barrier stay as they are *)
      apply cut_keep_data; [|apply (log_owned st C)|exact C].
      intros r o. unfold view; simp_st.
      destruct (Nat.eq_dec o o0) as [->|Hno]; [|rewrite mark_other, pre_other by exact Hno; auto].
      unfold mark, pre. rewrite upd_same. destruct (Nat.eq_dec r r0) as [->|Hnr].
      * rewrite upd2_same, Hc, Hm, nbar_cons_bar, Hq0. cbn [memn existsb]. rewrite Nat.eqb_refl. auto.
      * rewrite upd2_other, memn_cons_other by tauto. auto.
Qed.

Lemma cut_barrier : forall st r0, delivery_inv splits owner st -> CutInv st -> CutInv (stepS st (ABarrier r0)).
Proof.
  intros st r0 Hd C. unfold Sys.step.
  destruct (Nat.ltb r0 (n st) && Nat.ltb (bars st r0) (started st)) eqn:Hg; [|exact C].
  apply andb_true_iff in Hg. destruct Hg as [Hr0 Hlt]. apply Nat.ltb_lt in Hr0, Hlt.
  destruct C as [mark_le1 mark_live started_le idle_bars sr_emitted sr_view cut_pos op_cut ack_id_le log_owned].
  assert (HbN : S (bars st r0) = started st) by (specialize (started_le r0 Hr0); lia).
  assert (Hpend : pend st <> None) by (intros Hp; specialize (idle_bars Hp r0 Hr0); lia).
  set (ch' := fun a b : nat => if Nat.eqb a r0 && Nat.ltb b (n st) then chan st a b ++ [IBar] else chan st a b).
  assert (Hoth : forall r o, r <> r0 -> ch' r o = chan st r o).
  { intros r o Hne. unfold ch'. rewrite (proj2 (Nat.eqb_neq r r0) Hne). reflexivity. }
  (* r0 had not emitted its barrier, so no operator had seen it: now it is the last item towards every operator *)
  assert (Hrow : forall o, mark ch' (got st) r0 o <= 1 /\
                   (mark ch' (got st) r0 o = 1 -> o < n st /\ pre ch' (got st) r0 o = chan st r0 o)).
  { intros o. pose proof (mark_le1 r0 o) as L.
    assert (Z : mark (chan st) (got st) r0 o = 0).
    { destruct (Nat.eq_dec (mark (chan st) (got st) r0 o) 1) as [E|E]; [|lia]. destruct (mark_live r0 o E) as (_ & _ & F & _). lia. }
    unfold mark, pre, ch' in *. rewrite Nat.eqb_refl. cbn [andb].
    destruct (memn r0 (got st o)); [lia|]. destruct (Nat.ltb_spec o (n st)); [|lia].
    rewrite nbar_app, before_bar_app_bar by lia. cbn. split; [lia|auto]. }
  (* the acknowledgements of the pending checkpoint: those there were, of other runners, and r0's; no operator's *)
  assert (Hsr : forall r ps, current (pend st) (inflight st ++ [AckSr (started st) r0 (pos st)]) (AckSr (started st) r ps) ->
                 cur_sr st r ps /\ r <> r0 \/ r = r0 /\ ps = pos st).
  { intros r ps H. destruct (current_snoc _ _ _ _ H) as [H'|E]; [left|right; injection E; auto].
    split; [exact H'|]. intros ->. destruct (sr_emitted r0 ps H'). lia. }
  assert (Hop : forall o cut, ~ current (pend st) (inflight st ++ [AckSr (started st) r0 (pos st)]) (AckOp (started st) o cut)).
  { intros o cut H. destruct (current_snoc _ _ _ _ H) as [H'|E]; [|discriminate].
    destruct (op_cut o cut H') as (_ & B & _). specialize (B r0 Hr0). lia. }
  cutinv_fields; unfold cur_sr, cur_op, view; simp_st.
  [mark_le1]: { intros r o. destruct (Nat.eq_dec r r0) as [->|Hne]; [apply Hrow|unfold mark; rewrite Hoth by exact Hne; apply mark_le1]. }
  [mark_live]: { intros r o H. destruct (Nat.eq_dec r r0) as [->|Hne].
    + rewrite upd_same. destruct (Hrow o) as [_ F]. destruct (F H). auto.
    + unfold mark in H. rewrite Hoth in H by exact Hne. rewrite upd_other by exact Hne. apply (mark_live r o H). }
  [started_le]: { intros r Hr. unfold upd. destruct (Nat.eqb_spec r r0); [lia|apply started_le; exact Hr]. }
  [idle_bars]: contradiction.
  [sr_emitted]: { intros r ps H. destruct (Hsr r ps H) as [[H' Hne]|[-> ->]].
    + rewrite upd_other by exact Hne. apply (sr_emitted r ps H').
    + rewrite upd_same. auto. }
  [sr_view]: { intros r ps H o s k Hs Hr Hk. destruct (Hsr r ps H) as [[H' Hne]|[-> ->]].
    + unfold mark, pre. rewrite Hoth by exact Hne. apply (sr_view r ps H' o s k Hs Hr Hk).
    + (* the new acknowledgement: the whole channel is before the barrier, and the view is delivery_inv at this moment *)
      intros Hmk. destruct (Hrow o) as [_ F]. destruct (F Hmk) as [_ E].
      rewrite E, <- Hr, <- Hk, <- (papp_eq owner). apply (Hd s k Hs). }
  [cut_pos]: { intros r ps o cut _ H. destruct (Hop o cut H). }
  [op_cut]: { intros o cut H. destruct (Hop o cut H). }
  [ack_id_le]: { intros a H. apply in_snoc in H. destruct H as [H|<-]; [apply ack_id_le; exact H|apply le_n]. }
  [log_owned]: exact log_owned.
Qed.

Lemma cut_start : forall st, CutInv st -> CutInv (stepS st AStart).
Proof.
  intros st C. unfold Sys.step. destruct (pend st) as [p|] eqn:Hp; [exact C|].
  destruct C as [mark_le1 mark_live started_le idle_bars sr_emitted sr_view cut_pos op_cut ack_id_le log_owned]. apply cut_quiet; simp_st.
  - exact mark_le1.
  - intros r o E. destruct (mark_live r o E) as (_ & _ & _ & F). exact (F Hp).
  - (* whatever is in flight belongs to an earlier checkpoint *)
    intros a [p [Hpe [H|H]]].
    + injection Hpe as <-. destruct a; destruct H.
    + specialize (ack_id_le _ H). lia.
  - intros r Hr. rewrite (idle_bars Hp r Hr). auto.
  - discriminate.
  - intros a H. specialize (ack_id_le a H). lia.
  - exact log_owned.
Qed.

(* the acknowledgements the job holds after AAck took [a] (of the pending id) were all current before *)
Lemma add_ack_current : forall st i a p b, nth_error (inflight st) i = Some a -> pend st = Some p -> ack_id a = started st ->
  ack_id b = started st -> held (add_ack a p) b -> current (pend st) (inflight st) b.
Proof.
  intros st i a p b Hn Hp Hid Hb H. rewrite Hp. apply (current_add_ack _ i a); [exact Hn|congruence|]. exists (add_ack a p). auto.
Qed.
Lemma add_ack_sr : forall st i a p r ps, nth_error (inflight st) i = Some a -> pend st = Some p -> ack_id a = started st ->
  In (r, ps) (p_sr (add_ack a p)) -> cur_sr st r ps.
Proof. intros st i a p r ps Hn Hp Hid. exact (add_ack_current st i a p (AckSr _ r ps) Hn Hp Hid eq_refl). Qed.
Lemma add_ack_op : forall st i a p o c, nth_error (inflight st) i = Some a -> pend st = Some p -> ack_id a = started st ->
  In (o, c) (p_op (add_ack a p)) -> cur_op st o c.
Proof. intros st i a p o c Hn Hp Hid. exact (add_ack_current st i a p (AckOp _ o c) Hn Hp Hid eq_refl). Qed.

Lemma complete_all : forall st i a p, nth_error (inflight st) i = Some a -> pend st = Some p -> ack_id a = started st ->
  complete (n st) (add_ack a p) = true ->
  (forall r, r < n st -> cur_sr st r (lookup_sr (p_sr (add_ack a p)) r)) /\
  (forall o, o < n st -> cur_op st o (lookup_op (p_op (add_ack a p)) o)).
Proof.
  intros st i a p Hn Hp Hid Hc. apply andb_true_iff in Hc. destruct Hc as [Hsr Hop].
  split; intros x Hx.
  - destruct (lookup_in _ _ x (all_in_spec _ _ Hsr x Hx)) as [ps [Hin Hf]]. unfold lookup_sr. rewrite Hf.
    exact (add_ack_sr st i a p x ps Hn Hp Hid Hin).
  - destruct (lookup_in _ _ x (all_in_spec _ _ Hop x Hx)) as [c [Hin Hf]]. unfold lookup_op. rewrite Hf.
    exact (add_ack_op st i a p x c Hn Hp Hid Hin).
Qed.

(* Sys.step builds the new pending checkpoint by a match on the acknowledgement written in place; this is step at AAck
   with that match read as add_ack, so that cut_ack and publication_exact can take cases on [complete (n st) (add_ack a p)] *)
Lemma step_ack_shape : forall st i,
  stepS st (AAck i) =
  match nth_error (inflight st) i, pend st with
  | Some a, Some p =>
      let rest := remove_nth i (inflight st) in
      if negb (Nat.eqb (ack_id a) (started st)) then
        {| n := n st; pos := pos st; chan := chan st; olog := olog st; got := got st; bars := bars st;
           started := started st; pend := pend st; inflight := rest; pub := pub st |}
      else if complete (n st) (add_ack a p) then
        {| n := n st; pos := pos st; chan := chan st; olog := olog st; got := got st; bars := bars st;
           started := started st; pend := None; inflight := rest; pub := Some (publish (n st) (add_ack a p)) |}
      else
        {| n := n st; pos := pos st; chan := chan st; olog := olog st; got := got st; bars := bars st;
           started := started st; pend := Some (add_ack a p); inflight := rest; pub := pub st |}
  | _, _ => st
  end.
Proof.
  intros st i. unfold Sys.step. destruct (nth_error (inflight st) i) as [a|]; [|reflexivity].
  destruct (pend st) as [p|]; [|reflexivity]. destruct a; reflexivity.
Qed.

Lemma cut_ack : forall st i, CutInv st -> CutInv (stepS st (AAck i)).
Proof.
  intros st i C. rewrite step_ack_shape.
  destruct (nth_error (inflight st) i) as [a|] eqn:Hn; [|exact C].
  destruct (pend st) as [p|] eqn:Hp; [|exact C].
  cbv zeta.
  assert (Hfl : incl (remove_nth i (inflight st)) (inflight st)) by (intros x; apply In_remove_nth).
  destruct (negb (Nat.eqb (ack_id a) (started st))) eqn:Hid.
  - (* rejected: not the pending id *)
    apply cut_keep_acks; [discriminate|rewrite Hp|exact Hfl|exact C].
    intros b H _. apply (current_incl _ _ _ _ Hfl H).
  - apply negb_false_iff, Nat.eqb_eq in Hid.
    destruct (complete (n st) (add_ack a p)) eqn:Hcomp.
    + (* the last acknowledgement: published, nothing pending any more *)
      destruct (complete_all st i a p Hn Hp Hid Hcomp) as [Hsr Hop].
      destruct C as [mark_le1 mark_live started_le idle_bars sr_emitted sr_view cut_pos op_cut ack_id_le log_owned]. apply cut_quiet; simp_st.
      * exact mark_le1.
      * intros r o E. destruct (mark_live r o E) as (_ & Ho & _).
        destruct (op_cut o _ (Hop o Ho)) as (_ & _ & Cc & _). rewrite Cc in E. discriminate.
      * intros b [p0 [Hd _]]; discriminate.
      * exact started_le.
      * intros _ r Hr. apply (sr_emitted r _ (Hsr r Hr)).
      * intros x Hin. apply ack_id_le, Hfl, Hin.
      * exact log_owned.
    + (* recorded, still pending *)
      apply cut_keep_acks; [discriminate|rewrite Hp|exact Hfl|exact C].
      intros b H Hb. apply (current_add_ack _ i a); [exact Hn|congruence|exact H].
Qed.

Lemma cut_restart : forall m pb, CutInv (restart owner m pb).
Proof.
  intros m pb.
  assert (H : forall p cuts, (forall o, Forall (ownedby m o) (cuts o)) -> CutInv (fresh m p cuts pb)).
  { intros p cuts Hc. apply cut_quiet; cbn; try reflexivity; try (intros; lia); [|exact Hc].
    intros a [p0 [E _]]; discriminate. }
  destruct pb as [c|]; apply H; intros o; [|constructor].
  apply Forall_forall. intros e He. apply filter_In in He. apply Nat.eqb_eq, He.
Qed.

Lemma filter_foreign : forall (own : N -> nat) k o (l : list entry),
  Forall (fun e : entry => own (rkey (snd e)) = o) l -> own k <> o ->
  filter (fun e : entry => N.eqb (rkey (snd e)) k) l = [].
Proof.
  intros own k o l H Hne. induction H as [|e l He _ IH]; cbn; [reflexivity|].
  destruct (N.eqb_spec (rkey (snd e)) k) as [E|E]; [exfalso; apply Hne; rewrite <- E; exact He|exact IH].
Qed.

Lemma filter_key_flat_map : forall (f : nat -> list entry) (own : N -> nat) k m,
  (forall o, o < m -> Forall (fun e : entry => own (rkey (snd e)) = o) (f o)) ->
  filter (fun e : entry => N.eqb (rkey (snd e)) k) (flat_map f (seq 0 m)) =
  if Nat.ltb (own k) m then filter (fun e : entry => N.eqb (rkey (snd e)) k) (f (own k)) else [].
Proof.
  intros f own k m. induction m as [|m IH]; intros H; [reflexivity|].
  rewrite seq_S, flat_map_snoc, filter_app. cbn [plus].
  rewrite IH by (intros o Ho; apply H; lia).
  destruct (Nat.ltb_spec (own k) m) as [L|L]; destruct (Nat.ltb_spec (own k) (S m)) as [L'|L']; try lia.
  - rewrite (filter_foreign own k m (f m)) by (try apply H; lia). apply app_nil_r.
  - assert (E : own k = m) by lia. rewrite E. reflexivity.
  - rewrite (filter_foreign own k m (f m)) by (try apply H; lia). reflexivity.
Qed.

Lemma publication_exact : forall st i, CutInv st -> pub_ok splits st -> pub_ok splits (stepS st (AAck i)).
Proof.
  intros st i C Hpub. rewrite step_ack_shape.
  destruct (nth_error (inflight st) i) as [a|] eqn:Hn; [|exact Hpub].
  destruct (pend st) as [p|] eqn:Hp; [|exact Hpub].
  cbv zeta.
  destruct (negb (Nat.eqb (ack_id a) (started st))) eqn:Hid; [exact Hpub|].
  apply negb_false_iff, Nat.eqb_eq in Hid.
  destruct (complete (n st) (add_ack a p)) eqn:Hcomp; [|exact Hpub].
  destruct (complete_all st i a p Hn Hp Hid Hcomp) as [Hsr Hop].
  destruct C as [mark_le1 mark_live started_le idle_bars sr_emitted sr_view cut_pos op_cut ack_id_le log_owned].
  assert (Hm : 0 < n st).
  { assert (Hc : current (pend st) (inflight st) a) by (exists p; split; [exact Hp|right; apply (nth_error_In _ _ Hn)]).
    destruct a as [id r0 ps0|id o0 c0]; cbn in Hid; subst id; [destruct (sr_emitted r0 ps0 Hc)|destruct (op_cut o0 c0 Hc)]; lia. }
  intros k s Hs. unfold all_cut, publish; cbn [c_n c_cut c_pos].
  pose proof (Hown (n st) k Hm) as Ho.
  assert (Hr : runner_of (n st) s < n st) by (apply Nat.mod_upper_bound; lia).
  rewrite (filter_key_flat_map _ (owner (n st)) k (n st)).
  - rewrite (proj2 (Nat.ltb_lt _ _) Ho). apply (cut_pos _ _ _ _ (Hsr _ Hr) (Hop _ Ho) s k Hs eq_refl eq_refl).
  - intros o Hlt. apply (op_cut o _ (Hop o Hlt)).
Qed.

Definition Full (st : state) : Prop := Inv splits owner st /\ CutInv st.

Lemma init_full : forall m, Full (init m).
Proof. intros m. split; [apply init_inv|apply (cut_restart m None)]. Qed.

Lemma step_full : forall st a, Full st -> Full (stepS st a).
Proof.
  intros st a [H C]. split.
  - apply step_inv_pub; [|exact H]. intros i ->. apply publication_exact; [exact C|apply H].
  - destruct H as [Hd [Hw _]]. destruct a as [s|r|r o| |i|w m].
    + apply cut_emit, C.
    + apply cut_barrier; assumption.
    + apply cut_deliver; assumption.
    + apply cut_start, C.
    + apply cut_ack, C.
    + unfold Sys.step. destruct (Nat.ltb 0 m); [apply cut_restart|exact C].
Qed.

Lemma run_full : forall sched st, Full st -> Full (runS st sched).
Proof. intros sched st. apply fold_left_inv. intros st' a. apply step_full. Qed.

Lemma run_delivery : forall m sched, delivery_inv splits owner (runS (init m) sched).
Proof. intros m sched. apply (run_full sched (init m) (init_full m)). Qed.

Theorem published_checkpoints_are_exact : forall m sched, pub_ok splits (runS (init m) sched).
Proof. intros m sched. apply (run_full sched (init m) (init_full m)). Qed.

Theorem given_state_is_applied_prefix_full : forall m sched s k, s < nspl ->
  let st := runS (init m) sched in
  exists rest, papp owner st s k ++ rest = sub k (firstn (pos st s) (splitl s)).
Proof. intros m sched s k Hs st. eexists. apply (run_delivery m sched s k Hs). Qed.

Theorem exactly_once_full : forall m sched s k, s < nspl ->
  let st := runS (init m) sched in
  drained splits st -> papp owner st s k = sub k (splitl s).
Proof. intros m sched s k Hs st Hdr. apply drained_exact; [apply run_delivery|exact Hdr|exact Hs]. Qed.

End Cut.
