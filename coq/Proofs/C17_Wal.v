(* dkv/wal: what the reader replays from the file saved by a checkpoint is exactly the suffix of the appended
   records that follows the requested sequence number -- for every history of Put/Delete/Cut/Truncate/Rotate.

   Invariant over the history (A = records appended so far): A = dropped ++ L with L what the writer holds, see Inv.
   Rotate with carry = true is Cut (w_rotate_cut); without the carried latest numbers a later Truncate drops
   records that are still needed (Props.C17.old_rotate_loses_entries_refuted). *)
From RV Require Import Model.WalCodec Proofs.C17_Codec.
From Coq Require Import ZifyN ZifyNat ZifyBool.
Open Scope N_scope.

Definition wop_ok (op : wop) : Prop :=
  match op with
  | WPut k v => blen k < 4294967296 /\ blen v < 4294967296
  | WDel k => blen k < 4294967296
  | _ => True
  end.

Local Notation len l := (N.of_nat (length l)).

(* a record is an entry as produced by [op_entry]: sequence number 0, a delete has no value *)
Definition rec_ok (e : entry) : Prop :=
  blen (e_key e) < 4294967296 /\ blen (e_val e) < 4294967296 /\ e_seq e = 0 /\ (e_del e = true -> e_val e = []).

Definition rec_bytes (e : entry) (s : N) : bytes :=
  if e_del e then wal_del_bytes (e_key e) s else wal_put_bytes (e_key e) (e_val e) s.

(* records numbered f, f+1, ... *)
Fixpoint ser_wal (f : N) (l : list entry) : bytes :=
  match l with
  | [] => []
  | e :: r => rec_bytes e f ++ ser_wal (f + 1) r
  end.

(* what the reader makes of record e numbered s *)
Definition dec (e : entry) (s : N) : entry :=
  if e_del e then mkE (e_key e) [] 0 true else mkE (e_key e) (e_val e) s false.
Fixpoint decs (f : N) (l : list entry) : list entry :=
  match l with
  | [] => []
  | e :: r => dec e f :: decs (f + 1) r
  end.

Lemma op_entry_ok op : wop_ok op -> Forall rec_ok (op_entry op).
Proof.
  destruct op as [k v|k| |s| ]; cbn [wop_ok op_entry]; intros H; [| |constructor..]; (constructor; [|constructor]).
  - (* Put *) repeat split; [apply H|apply H|discriminate].
  - (* Delete *) repeat split. exact H.
Qed.

Lemma appended_ok pre : Forall wop_ok pre -> Forall rec_ok (appended pre).
Proof. intros H. apply Forall_flat_map. eapply Forall_impl; [|exact H]. exact op_entry_ok. Qed.

Lemma ser_wal_app : forall a f b, ser_wal f (a ++ b) = ser_wal f a ++ ser_wal (f + len a) b.
Proof.
  induction a as [|e a IH]; intros f b; cbn [app ser_wal length]; [rewrite N.add_0_r; reflexivity|].
  rewrite IH, <- app_assoc. do 3 f_equal. lia.
Qed.

(* a record starts with the eight bytes of its number *)
Lemma rec_bytes_nonempty e s r : rec_bytes e s ++ r <> [].
Proof. unfold rec_bytes. destruct (e_del e); discriminate. Qed.

Lemma ser_wal_len : forall l f, (length l <= length (ser_wal f l))%nat.
Proof.
  induction l as [|e l IH]; intros f; [apply Nat.le_refl|]. cbn [ser_wal]. rewrite app_length. specialize (IH (f + 1)).
  destruct (rec_bytes e f) eqn:E; [destruct (rec_bytes_nonempty e f [])|]; [rewrite E; reflexivity|cbn [length]; lia].
Qed.

Lemma rd_u64_rec e s r : exists r', rd_u64 (rec_bytes e s ++ r) = Some (u64 s, r').
Proof.
  unfold rec_bytes, wal_put_bytes, wal_del_bytes. destruct (e_del e); rewrite <- !app_assoc, rd_u64_wu64; eexists; reflexivity.
Qed.

Lemma skip1_rec e s r : rec_ok e -> wal_skip1 (rec_bytes e s ++ r) = Some r.
Proof.
  intros (Hk & Hv & _ & _). unfold wal_skip1, rec_bytes, wal_put_bytes, wal_del_bytes.
  destruct (e_del e); rewrite <- !app_assoc, rd_u64_wu64, (rd_var_w _ _ Hk), rd_tomb_w; [|rewrite (rd_var_w _ _ Hv)]; reflexivity.
Qed.

Lemma read1_rec e s r : rec_ok e -> s < 18446744073709551616 -> wal_read1 (rec_bytes e s ++ r) = Some (dec e s, r).
Proof.
  intros (Hk & Hv & _ & _) Hs. unfold wal_read1, rec_bytes, dec, wal_put_bytes, wal_del_bytes.
  destruct (e_del e); rewrite <- !app_assoc, rd_u64_wu64, (rd_var_w _ _ Hk), rd_tomb_w;
    [|rewrite (rd_var_w _ _ Hv), (u64_small _ Hs)]; reflexivity.
Qed.

Lemma map_strip_decs : forall l f, Forall rec_ok l -> map strip_seq (decs f l) = l.
Proof.
  induction l as [|e l IH]; intros f H; [reflexivity|]. inversion H as [|? ? (_ & _ & Hq & Hd) Hl]; subst.
  cbn [decs map]. rewrite (IH _ Hl). f_equal. destruct e as [k v q []]; cbn in *; subst q; [rewrite Hd|]; reflexivity.
Qed.

Lemma wal_skip_ser : forall n l fuel f,
  Forall rec_ok l -> (n <= length l)%nat -> (n <= fuel)%nat ->
  wal_skip fuel (N.of_nat n) (ser_wal f l) = Some (ser_wal (f + N.of_nat n) (skipn n l)).
Proof.
  induction n as [|n IH]; intros l fuel f Hok Hl Hf.
  - cbn [skipn N.of_nat]. rewrite N.add_0_r. destruct fuel; reflexivity.
  - destruct fuel as [|fuel]; [lia|]. destruct Hok as [|e l He Hl']; cbn [length] in Hl; [lia|].
    cbn [wal_skip]. replace (N.of_nat (S n) =? 0) with false by lia.
    cbn [ser_wal skipn]. rewrite (skip1_rec _ _ _ He). replace (N.of_nat (S n) - 1) with (N.of_nat n) by lia.
    rewrite (IH l fuel (f + 1) Hl') by lia. do 2 f_equal. lia.
Qed.

Lemma wal_read_ser : forall l fuel f acc,
  Forall rec_ok l -> f + len l <= 18446744073709551616 -> (length l <= fuel)%nat ->
  wal_read fuel (ser_wal f l) acc = WOk (rev acc ++ decs f l).
Proof.
  induction l as [|e l IH]; intros fuel f acc Hok Hb Hf; cbn [ser_wal decs length] in *.
  - rewrite app_nil_r. destruct fuel; reflexivity.
  - destruct fuel as [|fuel]; [lia|]. inversion Hok as [|? ? He Hl]; subst. cbn [wal_read].
    destruct (rec_bytes e f ++ ser_wal (f + 1) l) eqn:E; [destruct (rec_bytes_nonempty _ _ _ E)|].
    rewrite <- E, (read1_rec _ _ _ He), (IH fuel (f + 1) (dec e f :: acc) Hl) by lia.
    cbn [rev]. rewrite <- app_assoc. reflexivity.
Qed.

Lemma wal_read_all_nonempty file after : file <> [] ->
  wal_read_all file after =
  match rd_u64 file with
  | None => WErr []
  | Some (first, _) =>
      if u64 (after + 1) <? first then WPanic
      else match wal_skip (length file) (u64 (after + 2 ^ 64 - first + 1)) file with
           | None => WErr []
           | Some d => wal_read (length d) d []
           end
  end.
Proof. destruct file; [congruence|reflexivity]. Qed.

(* the uint64 subtraction startAfter - firstSeqNum + 1 does not wrap *)
Lemma u64_wrapped_diff a f :
  f <= a + 1 -> a + 1 < 18446744073709551616 -> u64 (a + 2 ^ 64 - f + 1) = a + 1 - f.
Proof.
  intros H1 H2. unfold u64. rewrite wrap_mod. change (2 ^ 64) with 18446744073709551616.
  replace (a + 18446744073709551616 - f + 1) with ((a + 1 - f) + 1 * 18446744073709551616) by lia.
  rewrite N.mod_add by discriminate. apply N.mod_small. lia.
Qed.

(* Reader.All on a file of records numbered f, f+1, ...: the records numbered after+1 and later *)
Lemma wal_read_all_ser f L after :
  Forall rec_ok L -> f + len L <= 18446744073709551616 -> after + 1 < 18446744073709551616 ->
  f <= after + 1 -> after + 1 <= f + len L ->
  wal_read_all (ser_wal f L) after = WOk (decs (after + 1) (skipn (N.to_nat (after + 1 - f)) L)).
Proof.
  intros Hok Hb Ha Hlo Hhi. destruct L as [|e L']; [rewrite skipn_nil; reflexivity|].
  assert (Hf : f < 18446744073709551616) by (cbn [length] in Hb; lia).
  rewrite wal_read_all_nonempty by apply rec_bytes_nonempty.
  destruct (rd_u64_rec e f (ser_wal (f + 1) L')) as [r' Hrd].
  change (rec_bytes e f ++ ser_wal (f + 1) L') with (ser_wal f (e :: L')) in Hrd. rewrite Hrd. set (L := e :: L') in *.
  rewrite (u64_small f Hf), (u64_small _ Ha), (u64_wrapped_diff _ _ Hlo Ha).
  replace (after + 1 <? f) with false by lia.
  set (n := N.to_nat (after + 1 - f)). replace (after + 1 - f) with (N.of_nat n) by lia.
  pose proof (ser_wal_len L f). pose proof (ser_wal_len (skipn n L) (f + N.of_nat n)).
  pose proof (skipn_length n L).
  rewrite (wal_skip_ser n L _ f Hok), (wal_read_ser _ _ _ [] (Forall_skipn _ n L Hok)) by lia.
  replace (f + N.of_nat n) with (after + 1) by lia. reflexivity.
Qed.

(* sealed segments holding the records L, numbered from f on: every record of a segment is numbered <= the
   segment's latest *)
Inductive sealed : N -> list seg -> list entry -> Prop :=
| sealed_nil f : sealed f [] []
| sealed_cons f a l gs L :
    len a = 0 \/ f + len a <= l + 1 -> sealed (f + len a) gs L -> sealed f (mkSeg (ser_wal f a) l :: gs) (a ++ L).

Lemma sealed_file f gs L : sealed f gs L -> flat_map sg_buf gs = ser_wal f L.
Proof.
  induction 1 as [|f a l gs L _ _ IH]; [reflexivity|]. cbn [flat_map sg_buf]. rewrite IH, ser_wal_app. reflexivity.
Qed.

Lemma sealed_snoc f gs L a l : sealed f gs L -> len a = 0 \/ f + len L + len a <= l + 1 ->
  sealed f (gs ++ [mkSeg (ser_wal (f + len L) a) l]) (L ++ a).
Proof.
  induction 1 as [f|f a' l' gs L Ha' _ IH]; intros Ha; cbn [app length N.of_nat] in *.
  - rewrite N.add_0_r in *. rewrite <- (app_nil_r a) at 2. constructor; [exact Ha|constructor].
  - rewrite app_length, Nat2N.inj_add, N.add_assoc in *. rewrite <- app_assoc. constructor; [exact Ha'|apply IH, Ha].
Qed.

(* Truncate removes whole leading segments, hence only records numbered <= s *)
Lemma sealed_drop s f gs L : sealed f gs L ->
  exists L1 L2, L = L1 ++ L2 /\ (len L1 = 0 \/ f + len L1 <= s + 1) /\ sealed (f + len L1) (drop_upto s gs) L2.
Proof.
  induction 1 as [f|f a l gs L Ha Hs IH].
  - exists [], []. repeat split; [left; reflexivity|]. cbn. rewrite N.add_0_r. constructor.
  - cbn [drop_upto sg_latest]. destruct (s <? l) eqn:E.
    + exists [], (a ++ L). repeat split; [left; reflexivity|]. cbn [length N.of_nat]. rewrite N.add_0_r. constructor; assumption.
    + destruct IH as (L1 & L2 & -> & Hb & Hd). exists (a ++ L1), L2.
      rewrite app_assoc, app_length, Nat2N.inj_add, N.add_assoc. repeat split; [lia|exact Hd].
Qed.

Lemma w_rotate_cut w : w_rotate_gen true w = w_cut w.
Proof.
  unfold w_rotate_gen, w_cut. do 2 f_equal. rewrite <- (map_id (w_sealed w)) at 2. apply map_ext. intros []; reflexivity.
Qed.

(* the writer holds the records L, numbered from f on: first in the sealed segments, then in the active buffer *)
Definition holds (f : N) (st : wstate) (L : list entry) : Prop :=
  exists Ls act, L = Ls ++ act /\ sealed f (w_sealed (ws_w st)) Ls /\
                 w_active (ws_w st) = ser_wal (f + len Ls) act /\
                 (* the number Cut stamps on the segment is that of the last record in the active buffer *)
                 (len act = 0 \/ w_latest (ws_w st) = ws_seq st) /\
                 (* the numbers handed out are contiguous *)
                 ws_seq st + 1 = f + len L.

Lemma holds_file f st L : holds f st L -> w_file (ws_w st) = ser_wal f L.
Proof.
  intros (Ls & act & -> & Hs & Ha & _). unfold w_file. rewrite (sealed_file _ _ _ Hs), Ha, ser_wal_app. reflexivity.
Qed.

(* Put / Delete: one more record in the active buffer *)
Lemma holds_append f st L e sv :
  holds f st L ->
  holds f (mkWS (mkW (w_sealed (ws_w st)) (w_active (ws_w st) ++ rec_bytes e (ws_seq st + 1)) (ws_seq st + 1))
                (ws_seq st + 1) sv) (L ++ [e]).
Proof.
  intros (Ls & act & -> & Hs & Ha & Hl & Hq). exists Ls, (act ++ [e]). cbn [ws_w ws_seq w_sealed w_active w_latest].
  rewrite !app_length in *. cbn [length]. repeat split; [symmetry; apply app_assoc|exact Hs| |right; reflexivity|lia].
  rewrite Ha, ser_wal_app. cbn [ser_wal]. rewrite app_nil_r. do 2 f_equal. lia.
Qed.

(* Cut (and Rotate): the active buffer becomes a sealed segment *)
Lemma holds_cut f st L sv : holds f st L -> holds f (mkWS (w_cut (ws_w st)) (ws_seq st) sv) L.
Proof.
  intros (Ls & act & -> & Hs & Ha & Hl & Hq). exists (Ls ++ act), []. cbn [ws_w ws_seq w_cut w_sealed w_active w_latest].
  rewrite app_nil_r, Ha. repeat split; [|left; reflexivity|exact Hq].
  apply sealed_snoc; [exact Hs|]. rewrite app_length in Hq. destruct Hl as [Hl| ->]; lia.
Qed.

Lemma holds_trunc f st L s sv : holds f st L ->
  exists L1 L2, L = L1 ++ L2 /\ (len L1 = 0 \/ f + len L1 <= s + 1) /\
                holds (f + len L1) (mkWS (w_truncate (ws_w st) s) (ws_seq st) sv) L2.
Proof.
  intros (Ls & act & -> & Hs & Ha & Hl & Hq). destruct (sealed_drop s _ _ _ Hs) as (L1 & L2 & -> & Hb & Hd).
  exists L1, (L2 ++ act). rewrite <- app_assoc. repeat split; [exact Hb|]. exists L2, act.
  cbn [ws_w ws_seq w_truncate w_sealed w_active w_latest]. rewrite !app_length, !Nat2N.inj_add, ?N.add_assoc in *.
  repeat split; assumption.
Qed.

(* A = the records appended so far, numbered s0+1, s0+2, ...: the writer holds all of them but a prefix D that
   Truncate has dropped, and only records numbered <= after have been dropped *)
Definition Inv (s0 after : N) (A : list entry) (st : wstate) : Prop :=
  exists D L, A = D ++ L /\ s0 + len D <= after /\ holds (s0 + 1 + len D) st L.

Lemma inv_step s0 after A st op :
  Inv s0 after A st -> (forall s, op = WTrunc s -> s <= after) ->
  Inv s0 after (A ++ op_entry op) (wstep st op).
Proof.
  intros (D & L & -> & HD & H) Ht. destruct op as [k v|k| |s| ]; cbn [op_entry]; rewrite ?app_nil_r.
  - (* Put *) exists D, (L ++ [mkE k v 0 false]). rewrite app_assoc. repeat split; [exact HD|]. apply (holds_append _ _ _ (mkE k v 0 false)), H.
  - (* Delete *) exists D, (L ++ [mkE k [] 0 true]). rewrite app_assoc. repeat split; [exact HD|]. apply (holds_append _ _ _ (mkE k [] 0 true)), H.
  - (* Cut *) exists D, L. repeat split; [exact HD|apply holds_cut, H].
  - (* Truncate: what it drops joins the dropped prefix *)
    destruct (holds_trunc _ _ _ s (ws_saved st) H) as (L1 & L2 & -> & Hb & H'). specialize (Ht s eq_refl).
    exists (D ++ L1), L2. rewrite app_assoc, app_length, Nat2N.inj_add, !N.add_assoc. repeat split; [lia|exact H'].
  - (* Rotate *) exists D, L. repeat split; [exact HD|]. unfold wstep. cbn [wstep_gen]. rewrite w_rotate_cut. apply holds_cut, H.
Qed.

Lemma inv_run s0 after : forall ops A st,
  Inv s0 after A st -> (forall s, In (WTrunc s) ops -> s <= after) ->
  Inv s0 after (A ++ appended ops) (fold_left wstep ops st).
Proof.
  unfold appended. induction ops as [|op ops IH]; intros A st HI Ht; cbn [flat_map fold_left].
  - rewrite app_nil_r. exact HI.
  - rewrite app_assoc. apply IH.
    + apply inv_step; [exact HI|]. intros s ->. apply Ht. left. reflexivity.
    + intros s Hin. apply Ht. right. exact Hin.
Qed.

(* [after + 1 < 2^64] is needed: with after = 2^64 - 1 the reader's uint64 [startAfter + 1] wraps to 0 and a
   non-empty file makes it panic (wal_reader_panics_at_uint64_max below). *)
Theorem wal_replays_suffix : forall s0 pre after,
  Forall wop_ok pre ->
  s0 + N.of_nat (length (appended pre)) < 18446744073709551616 ->
  after + 1 < 18446744073709551616 ->
  (forall s, In (WTrunc s) pre -> s <= after) ->
  s0 <= after -> after <= s0 + N.of_nat (length (appended pre)) ->
  exists es, wal_read_all (w_file (ws_w (wrun s0 pre))) after = WOk es /\
             map strip_seq es = skipn (N.to_nat (after - s0)) (appended pre).
Proof.
  intros s0 pre after Hok Hb Hab Ht Hlo Hhi.
  destruct (inv_run s0 after pre [] (mkWS new_writer s0 [])) as (D & L & EA & HD & H); [|exact Ht|].
  { exists [], []. repeat split; [cbn; lia|]. exists [], []. repeat split; [constructor|left; reflexivity|cbn; lia]. }
  cbn [app] in EA. pose proof (appended_ok pre Hok) as HA. rewrite EA, ?app_length in *.
  apply Forall_app in HA as [_ HL]. change (fold_left wstep pre _) with (wrun s0 pre) in H. rewrite (holds_file _ _ _ H).
  eexists. split; [apply wal_read_all_ser; [exact HL|lia..]|].
  rewrite (map_strip_decs _ _ (Forall_skipn _ _ _ HL)), skipn_app, (skipn_all2 D) by lia. cbn [app]. f_equal. lia.
Qed.

Corollary wal_replays_suffix' : forall s0 pre after,
  Forall wop_ok pre ->
  s0 + N.of_nat (length (appended pre)) < 18446744073709551615 ->
  (forall s, In (WTrunc s) pre -> s <= after) ->
  s0 <= after -> after <= s0 + N.of_nat (length (appended pre)) ->
  exists es, wal_read_all (w_file (ws_w (wrun s0 pre))) after = WOk es /\
             map strip_seq es = skipn (N.to_nat (after - s0)) (appended pre).
Proof.
  intros s0 pre after Hok Hb Ht Hlo Hhi. apply wal_replays_suffix; try assumption; lia.
Qed.

(* the boundary excluded by [after + 1 < 2^64] is real *)
Lemma wal_reader_panics_at_uint64_max :
  wal_read_all (w_file (ws_w (wrun 18446744073709551614 [WPut [] []]))) 18446744073709551615 = WPanic.
Proof. vm_compute. reflexivity. Qed.
