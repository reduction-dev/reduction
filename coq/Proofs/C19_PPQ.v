(* C19: proofs about the partitioned priority queue model (Model/PPQ.v) on top of the heap proofs (C19_Heap.v).
   Invariant [ppq_inv]: the heap slice holds every partition number exactly once, is heap-ordered by the
   partitions' current minimum ([part_lt], empty partitions last), and every partition is sorted. *)
From Coq Require Import List Arith NArith Bool Lia Permutation Sorted.
From Coq Require Import ZifyN ZifyNat ZifyBool.
From RV Require Import Base.Bytes Model.Heap Model.PPQ Proofs.C19_Heap.
Import ListNotations.
Local Open Scope nat_scope.

(* a partition is a sorted multiset of priorities *)
Definition sortedN (l : list N) : Prop := StronglySorted N.le l.

Definition ppq_inv (q : ppq) : Prop :=
  Permutation (heap q) (seq 0 (length (parts q))) /\
  heap_ok (part_lt (parts q)) (heap q) /\
  Forall sortedN (parts q).

Lemma part_lt_swo : forall ps, swo (part_lt ps).
Proof.
  intro ps. unfold swo, part_lt. split.
  - intros a b. destruct (part_peek ps a), (part_peek ps b); intros H;
      try reflexivity; try discriminate. lia.
  - intros a b c. destruct (part_peek ps a), (part_peek ps b), (part_peek ps c);
      intros H1 H2; try reflexivity; try discriminate; lia.
Qed.

Lemma nth_upd_eq : forall {A} (l : list A) i v d, i < length l -> nth i (upd i v l) d = v.
Proof. exact @C19_Heap.nth_upd_eq. Qed.

Lemma upd_nth_same : forall {A} (l : list A) i d, upd i (nth i l d) l = l.
Proof.
  intros A l. induction l as [|x l IH]; intros i d.
  - destruct i; reflexivity.
  - destruct i as [|i]; simpl; [reflexivity|]. rewrite IH; reflexivity.
Qed.

Lemma index_of_nth : forall p l i, index_of p l = Some i -> nth_error l i = Some p.
Proof.
  intros p l. induction l as [|q l IH]; intros i H; simpl in H; [discriminate|].
  destruct (Nat.eqb p q) eqn:E.
  - apply Nat.eqb_eq in E. inversion H; subst. reflexivity.
  - destruct (index_of p l) as [k|]; simpl in H; [|discriminate].
    inversion H; subst. simpl. apply IH; reflexivity.
Qed.

Lemma index_of_In : forall p l, In p l -> exists i, index_of p l = Some i.
Proof.
  intros p l. induction l as [|q l IH]; intros H; [contradiction|].
  simpl. destruct (Nat.eqb p q) eqn:E; [exists 0; reflexivity|].
  destruct H as [H|H]; [subst q; rewrite Nat.eqb_refl in E; discriminate|].
  destruct (IH H) as [k Hk]. rewrite Hk. exists (S k); reflexivity.
Qed.

Lemma part_peek_set_neq : forall ps p c a, a <> p -> part_peek (set_part ps p c) a = part_peek ps a.
Proof.
  intros ps p c a Ha. unfold part_peek, set_part. rewrite nth_upd_neq by lia. reflexivity.
Qed.

Lemma part_lt_set_neq : forall ps p c a b, a <> p -> b <> p ->
    part_lt (set_part ps p c) a b = part_lt ps a b.
Proof.
  intros ps p c a b Ha Hb. unfold part_lt. rewrite !part_peek_set_neq by assumption. reflexivity.
Qed.

(* changing partition p changes only the comparisons that involve p, so the old heap is ordered under the new
   comparator except at the position of p: ppq_fix then restores the order (C19_Heap.fix_restores) *)
Lemma set_part_except : forall ps p c h i,
    heap_ok (part_lt ps) h -> NoDup h -> nth_error h i = Some p ->
    heap_ok_except (part_lt (set_part ps p c)) h i.
Proof.
  intros ps p c h i Hok Hnd Hi.
  apply (except_agree (part_lt ps)) with (l := h); [auto| |apply ok_except; [apply part_lt_swo|exact Hok]].
  (* p stands at i only *)
  intros pp cc a b Np Nc Ha Hb.
  apply part_lt_set_neq; intros ->; [exact (Nc (nodup_pos_inj h cc i p Hnd Hb Hi))|exact (Np (nodup_pos_inj h pp i p Hnd Ha Hi))].
Qed.

Lemma ins_sorted_sorted : forall x l, sortedN l -> sortedN (ins_sorted x l).
Proof.
  intros x l. unfold sortedN. induction l as [|y l IH]; intro Hs; simpl.
  - constructor; constructor.
  - inversion Hs as [|y' l' Hs' Hall]; subst.
    destruct (x <=? y)%N eqn:E.
    + constructor; [exact Hs|]. constructor; [lia|].
      eapply Forall_impl; [|exact Hall]. intros z Hz; simpl in Hz. lia.
    + constructor; [apply IH; exact Hs'|].
      apply (Permutation_Forall (Permutation_sym (insert_by_perm N.leb x l))).
      constructor; [lia|exact Hall].
Qed.

Lemma del_first_incl : forall x l z, In z (del_first x l) -> In z l.
Proof.
  intros x l. induction l as [|y l IH]; intros z Hz; simpl in Hz; [contradiction|].
  destruct (x =? y)%N; [right; exact Hz|].
  destruct Hz as [Hz|Hz]; [left; exact Hz|right; apply IH; exact Hz].
Qed.

Lemma del_first_sorted : forall x l, sortedN l -> sortedN (del_first x l).
Proof.
  intros x l. unfold sortedN. induction l as [|y l IH]; intro Hs; simpl; [constructor|].
  inversion Hs as [|y' l' Hs' Hall]; subst.
  destruct (x =? y)%N; [exact Hs'|].
  constructor; [apply IH; exact Hs'|].
  rewrite Forall_forall in *. intros z Hz. apply Hall. eapply del_first_incl; exact Hz.
Qed.

Lemma del_first_perm : forall x l, In x l -> Permutation (x :: del_first x l) l.
Proof.
  intros x l. induction l as [|y l IH]; intro Hin; [contradiction|]. simpl.
  destruct (x =? y)%N eqn:E.
  - assert (x = y) by lia. subst y. apply Permutation_refl.
  - destruct Hin as [Hin|Hin]; [lia|].
    eapply Permutation_trans; [apply perm_swap|]. apply perm_skip. apply IH; exact Hin.
Qed.

Lemma del_first_absent : forall x l, ~ In x l -> del_first x l = l.
Proof.
  intros x l. induction l as [|y l IH]; intro Hn; [reflexivity|]. simpl.
  destruct (x =? y)%N eqn:E.
  - exfalso. apply Hn. left. lia.
  - rewrite IH; [reflexivity|]. intro H; apply Hn; right; exact H.
Qed.

Lemma sortedN_hd : forall l y, sortedN l -> In y l -> exists z, hd_error l = Some z /\ (z <= y)%N.
Proof.
  intros [|z l] y Hs Hy; [destruct Hy|]. exists z. split; [reflexivity|].
  inversion Hs as [|? ? _ Hall]; subst. destruct Hy as [->|Hy]; [lia|].
  rewrite Forall_forall in Hall. exact (Hall y Hy).
Qed.

Lemma ppq_fix_parts : forall q ps' p, parts (ppq_fix q ps' p) = ps'.
Proof. intros q ps' p. unfold ppq_fix. destruct (index_of p (heap q)); reflexivity. Qed.

Lemma ppq_inv_In : forall q p, ppq_inv q -> (In p (heap q) <-> p < length (parts q)).
Proof.
  intros q p [HP _]. split; intro H.
  - apply (Permutation_in _ HP) in H. apply in_seq in H. lia.
  - apply (Permutation_in _ (Permutation_sym HP)). apply in_seq. lia.
Qed.

Lemma ppq_fix_inv : forall q p c, ppq_inv q -> p < length (parts q) -> sortedN c ->
    ppq_inv (ppq_fix q (set_part (parts q) p c) p).
Proof.
  intros q p c Hinv Hp Hc.
  assert (Hin : In p (heap q)) by (apply ppq_inv_In; assumption).
  destruct Hinv as [HP [HO HS]].
  destruct (index_of_In p (heap q) Hin) as [i Hi].
  unfold ppq_fix. rewrite Hi. unfold ppq_inv. simpl.
  pose proof (index_of_nth _ _ _ Hi) as Hnth.
  assert (Hnd : NoDup (heap q)).
  { apply (Permutation_NoDup (Permutation_sym HP)). apply seq_NoDup. }
  split; [|split].
  - unfold set_part. rewrite upd_length.
    eapply Permutation_trans; [apply fix_perm|exact HP].
  - apply (fix_restores _ (part_lt_swo _)).
    + exact (nth_error_lt _ _ _ Hnth).
    + apply set_part_except; assumption.
  - unfold set_part. apply Forall_upd; assumption.
Qed.

Lemma ppq_inv_nth_sorted : forall q p, ppq_inv q -> sortedN (nth p (parts q) []).
Proof.
  intros q p [_ [_ HS]].
  destruct (Nat.lt_ge_cases p (length (parts q))) as [H|H].
  - rewrite Forall_forall in HS. apply HS. apply nth_In; exact H.
  - rewrite nth_overflow by exact H. constructor.
Qed.

Lemma fold_push : forall {A} (lt : A -> A -> bool), swo lt -> forall l h,
    heap_ok lt h ->
    heap_ok lt (fold_left (fun h p => push lt p h) l h) /\
    Permutation (fold_left (fun h p => push lt p h) l h) (h ++ l).
Proof.
  intros A lt Hswo l. induction l as [|a l IH]; intros h Hh; simpl.
  - split; [exact Hh|]. rewrite app_nil_r. apply Permutation_refl.
  - destruct (IH (push lt a h) (push_ok lt Hswo a h Hh)) as [H1 H2]. split; [exact H1|].
    rewrite H2, push_perm. apply Permutation_middle.
Qed.

Theorem ppq_new_inv : forall ps, Forall sortedN ps -> ppq_inv (ppq_new ps).
Proof.
  intros ps HS. unfold ppq_inv, ppq_new. simpl.
  destruct (fold_push (part_lt ps) (part_lt_swo ps) (seq 0 (length ps)) [] (heap_ok_nil _))
    as [H1 H2].
  split; [exact H2|split; [exact H1|exact HS]].
Qed.

Lemma peek_In : forall {A} (l : list A) p, peek l = Some p -> In p l.
Proof. intros A [|a l] p H; [discriminate H|]. injection H as ->. left; reflexivity. Qed.

(* Peek bounds every element from below: the root partition is not above the partition of y, whose head is not above y *)
Lemma ppq_peek_low : forall q y, ppq_inv q -> In y (ppq_contents q) -> exists x, ppq_peek q = Some x /\ (x <= y)%N.
Proof.
  intros q y Hinv Hy. pose proof Hinv as [_ [HO _]].
  apply in_concat in Hy. destruct Hy as (l & Hl & Hy).
  apply (In_nth _ _ []) in Hl. destruct Hl as (k & Hk & <-).
  destruct (sortedN_hd _ y (ppq_inv_nth_sorted q k Hinv) Hy) as (z & Ez & Hzy).
  apply (ppq_inv_In q k Hinv) in Hk. unfold ppq_peek.
  destruct (heap q) as [|r rest] eqn:Eh; [destruct Hk|]. simpl.
  pose proof (heap_root_min _ (part_lt_swo _) _ r rest HO eq_refl k Hk) as Hmin.
  unfold part_lt in Hmin. unfold part_peek at 1 in Hmin. rewrite Ez in Hmin.
  destruct (part_peek (parts q) r) as [x|]; [|discriminate Hmin].
  exists x. split; [reflexivity|lia].
Qed.

Theorem ppq_peek_min : forall q, ppq_inv q ->
    match ppq_peek q with
    | Some x => In x (ppq_contents q) /\ (forall y, In y (ppq_contents q) -> (x <= y)%N)
    | None => ppq_contents q = []
    end.
Proof.
  intros q Hinv. pose proof (fun y => ppq_peek_low q y Hinv) as Hlow.
  destruct (ppq_peek q) as [x|] eqn:Ex.
  - split; [|intros y Hy; destruct (Hlow y Hy) as (x' & [= <-] & H); exact H].
    (* x is the head of the root partition *)
    unfold ppq_peek in Ex. destruct (peek (heap q)) as [r|] eqn:Er; [|discriminate Ex].
    apply in_concat. exists (nth r (parts q) []). split; [apply nth_In, ppq_inv_In, peek_In; assumption|].
    unfold part_peek in Ex. destruct (nth r (parts q) []); [discriminate Ex|].
    injection Ex as ->. left; reflexivity.
  - destruct (ppq_contents q) as [|y c]; [reflexivity|].
    destruct (Hlow y (or_introl eq_refl)) as (x & E & _). discriminate E.
Qed.

Theorem ppq_is_empty_spec : forall q, ppq_inv q -> (ppq_is_empty q = true <-> ppq_contents q = []).
Proof.
  intros q Hinv. pose proof (ppq_peek_min q Hinv) as Hpk. unfold ppq_is_empty.
  destruct (ppq_peek q) as [x|].
  - destruct Hpk as [Hin _]. split; [discriminate|]. intro E. rewrite E in Hin. contradiction.
  - split; [intros _; exact Hpk|reflexivity].
Qed.

Theorem ppq_push_inv : forall x p q, ppq_inv q -> p < length (parts q) -> ppq_inv (ppq_push x p q).
Proof.
  intros x p q Hinv Hp. unfold ppq_push. apply ppq_fix_inv; [exact Hinv|exact Hp|].
  apply ins_sorted_sorted. apply ppq_inv_nth_sorted; exact Hinv.
Qed.

Theorem ppq_delete_inv : forall x p q, ppq_inv q -> p < length (parts q) -> ppq_inv (ppq_delete x p q).
Proof.
  intros x p q Hinv Hp. unfold ppq_delete. apply ppq_fix_inv; [exact Hinv|exact Hp|].
  apply del_first_sorted. apply ppq_inv_nth_sorted; exact Hinv.
Qed.

Lemma ppq_pop_cases : forall q,
    (ppq_peek q = None /\ ppq_pop q = (None, q)) \/
    (exists x p rest, ppq_peek q = Some x /\ peek (heap q) = Some p /\ nth p (parts q) [] = x :: rest /\
       ppq_pop q = (Some (x, p), ppq_fix q (set_part (parts q) p rest) p)).
Proof.
  intros q. unfold ppq_pop, ppq_peek, part_peek.
  destruct (peek (heap q)) as [p|]; [|left; split; reflexivity].
  destruct (nth p (parts q) []) as [|x rest] eqn:En; [left; split; reflexivity|].
  right. exists x, p, rest. repeat split. exact En.
Qed.

Theorem ppq_pop_inv : forall q o q', ppq_inv q -> ppq_pop q = (o, q') -> ppq_inv q'.
Proof.
  intros q o q' Hinv Hpop.
  destruct (ppq_pop_cases q) as [[_ E]|(x & p & rest & _ & Epk & En & E)];
    rewrite E in Hpop; inversion Hpop; subst; [exact Hinv|].
  apply ppq_fix_inv; [exact Hinv|apply ppq_inv_In, peek_In; assumption|].
  pose proof (ppq_inv_nth_sorted q p Hinv) as Hs. rewrite En in Hs. inversion Hs; assumption.
Qed.

Theorem ppq_pop_global_min : forall q x p q', ppq_inv q -> ppq_pop q = (Some (x, p), q') ->
    In x (ppq_contents q) /\ (forall y, In y (ppq_contents q) -> (x <= y)%N) /\
    Permutation (ppq_contents q) (x :: ppq_contents q') /\ p < length (parts q).
Proof.
  intros q x p q' Hinv Hpop.
  pose proof (ppq_peek_min q Hinv) as Hpk.
  destruct (ppq_pop_cases q) as [[_ E]|(x' & p' & rest & Ex & Epk & En & E)];
    rewrite E in Hpop; inversion Hpop; subst; clear Hpop.
  rewrite Ex in Hpk. destruct Hpk as [H1 H2].
  assert (Hp : p < length (parts q)) by (apply ppq_inv_In, peek_In; assumption).
  split; [exact H1|split; [exact H2|split; [|exact Hp]]].
  unfold ppq_contents. rewrite ppq_fix_parts. symmetry.
  apply (concat_upd_perm (parts q) p rest [x] []); [exact Hp|]. rewrite En. reflexivity.
Qed.

Theorem ppq_pop_none : forall q q', ppq_inv q -> ppq_pop q = (None, q') ->
    ppq_contents q = [] /\ q' = q.
Proof.
  intros q q' Hinv Hpop.
  pose proof (ppq_peek_min q Hinv) as Hpk.
  destruct (ppq_pop_cases q) as [[Ex E]|(x & p & rest & _ & _ & _ & E)];
    rewrite E in Hpop; inversion Hpop; subst.
  rewrite Ex in Hpk. split; [exact Hpk|reflexivity].
Qed.

Theorem ppq_push_contents : forall x p q, p < length (parts q) ->
    Permutation (ppq_contents (ppq_push x p q)) (x :: ppq_contents q).
Proof.
  intros x p q Hp. unfold ppq_contents, ppq_push. rewrite ppq_fix_parts.
  apply (concat_upd_perm (parts q) p _ [] [x] Hp). apply (insert_by_perm N.leb).
Qed.

Theorem ppq_delete_contents : forall x p q, p < length (parts q) -> In x (nth p (parts q) []) ->
    Permutation (x :: ppq_contents (ppq_delete x p q)) (ppq_contents q).
Proof.
  intros x p q Hp Hin. unfold ppq_contents, ppq_delete. rewrite ppq_fix_parts.
  apply (concat_upd_perm (parts q) p _ [x] [] Hp). apply del_first_perm; exact Hin.
Qed.

Theorem ppq_delete_absent : forall x p q, ~ In x (nth p (parts q) []) ->
    ppq_contents (ppq_delete x p q) = ppq_contents q.
Proof.
  intros x p q Hn. unfold ppq_contents, ppq_delete. rewrite ppq_fix_parts. unfold set_part.
  rewrite del_first_absent by exact Hn. rewrite upd_nth_same. reflexivity.
Qed.

(* one term over lemmas of this file, so that one Print Assumptions shows them closed under the global context *)
Definition C19_ppq_audit :=
  (part_lt_swo, set_part_except, ppq_fix_inv,
   ppq_new_inv, ppq_push_inv, ppq_delete_inv, ppq_pop_inv,
   ppq_peek_min, ppq_pop_global_min, ppq_pop_none,
   ppq_push_contents, ppq_delete_contents, ppq_delete_absent, ppq_is_empty_spec).
Print Assumptions C19_ppq_audit.
