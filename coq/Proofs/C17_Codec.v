(* Field codecs (fields.go) and the entry layout of tables: every reader inverts its writer on ALL byte strings.
   At the end, what the other files need of the specification functions find_key / scan_spec / keys_sorted. *)
From RV Require Import Base.Lists Base.KeySorted Model.SstTable.
From Coq Require Import ZifyN ZifyNat ZifyBool.
Open Scope N_scope.

Lemma blen_app a b : blen (a ++ b) = blen a + blen b.
Proof. unfold blen. rewrite app_length. lia. Qed.

Lemma u32_lt x : u32 x < 4294967296.
Proof. exact (wrap_lt 32 x). Qed.
Lemma u64_lt x : u64 x < 18446744073709551616.
Proof. exact (wrap_lt 64 x). Qed.
Lemma u64_small x : x < 18446744073709551616 -> u64 x = x.
Proof. exact (wrap_small 64 x). Qed.

(* the little-endian readers compute the big-endian decoding of the reversed bytes in Horner form *)
Lemma rd_u32_w x r : x < 4294967296 -> rd_u32 (le32 x ++ r) = Some (x, r).
Proof.
  intros H. rewrite <- (be32_decode x H) at 2. cbn [le32 be32 rev app rd_u32 be_decode fold_left].
  do 2 f_equal. ring.
Qed.

Lemma rd_u64_w x r : x < 18446744073709551616 -> rd_u64 (le64 x ++ r) = Some (x, r).
Proof.
  intros H. rewrite <- (be64_decode x H) at 2. cbn [le64 be64 rev app rd_u64 be_decode fold_left].
  do 2 f_equal. ring.
Qed.

Lemma rd_u32_wu32 x r : rd_u32 (w_u32 x ++ r) = Some (u32 x, r).
Proof. apply rd_u32_w, u32_lt. Qed.
Lemma rd_u64_wu64 x r : rd_u64 (w_u64 x ++ r) = Some (u64 x, r).
Proof. apply rd_u64_w, u64_lt. Qed.

Lemma w_u32_len x : length (w_u32 x) = 4%nat. Proof. reflexivity. Qed.
Lemma w_u64_len x : length (w_u64 x) = 8%nat. Proof. reflexivity. Qed.

Lemma flat_map_length_const {A} (f : A -> bytes) k :
  (forall x, length (f x) = k) -> forall l, length (flat_map f l) = (k * length l)%nat.
Proof. intros Hf. induction l as [|x l IH]; cbn [flat_map length]; [|rewrite app_length, Hf, IH]; lia. Qed.

Lemma Forall_skipn {A} (P : A -> Prop) n l : Forall P l -> Forall P (skipn n l).
Proof. intros H. rewrite <- (firstn_skipn n l) in H. apply Forall_app in H. apply H. Qed.

Lemma firstn_blen (b r : bytes) : firstn (N.to_nat (blen b)) (b ++ r) = b.
Proof. apply firstn_app_exact, Nat2N.id. Qed.
Lemma skipn_blen (b r : bytes) : skipn (N.to_nat (blen b)) (b ++ r) = r.
Proof. apply skipn_app_exact, Nat2N.id. Qed.

Lemma rd_var_w b r : blen b < 4294967296 -> rd_var (w_var b ++ r) = Some (b, r).
Proof.
  intros H. unfold rd_var, w_var. rewrite <- app_assoc, rd_u32_wu32, (u32_small _ H), blen_app.
  replace (blen b <=? blen b + blen r) with true by lia.
  rewrite firstn_blen, skipn_blen. reflexivity.
Qed.

Lemma rd_tomb_w d r : rd_tomb (w_tomb d ++ r) = Some (d, r).
Proof. destruct d; reflexivity. Qed.

(* well-formedness of an entry for the on-disk format: the lengths fit the 32-bit length fields, the sequence
   number fits 64 bits. No condition on the bytes themselves. *)
Definition entry_ok (e : entry) : Prop :=
  blen (e_key e) < 4294967296 /\ blen (e_val e) < 4294967296 /\ e_seq e < 18446744073709551616.

Lemma rd_entry_ser e r : entry_ok e -> rd_entry (ser_entry e ++ r) = Some (norm e, r).
Proof.
  intros (Hk & Hv & Hs). unfold rd_entry, ser_entry, norm. rewrite <- !app_assoc.
  rewrite (rd_var_w _ _ Hk), rd_u64_wu64, (u64_small _ Hs), rd_tomb_w.
  destruct e as [k v s []]; cbn [e_key e_val e_seq e_del] in *; [|rewrite (rd_var_w _ _ Hv)]; reflexivity.
Qed.

(* an entry starts with the four bytes of its key length *)
Lemma ser_entry_nonempty e r : ser_entry e ++ r <> [].
Proof. discriminate. Qed.

Lemma ser_entry_len e : (13 <= length (ser_entry e))%nat.
Proof.
  unfold ser_entry, w_var. rewrite !app_length, w_u32_len, w_u64_len. destruct (e_del e); cbn [length w_tomb]; lia.
Qed.

Lemma ser_entries_cons e es : ser_entries (e :: es) = ser_entry e ++ ser_entries es.
Proof. reflexivity. Qed.
Lemma ser_entries_app a b : ser_entries (a ++ b) = ser_entries a ++ ser_entries b.
Proof. apply flat_map_app. Qed.

Lemma ser_entries_len es : (length es <= length (ser_entries es))%nat.
Proof.
  induction es as [|e es IH]; [apply Nat.le_refl|].
  rewrite ser_entries_cons, app_length. pose proof (ser_entry_len e). cbn [length]. lia.
Qed.

Lemma parse_entries_ser : forall es fuel,
  Forall entry_ok es -> (length es <= fuel)%nat ->
  parse_entries fuel (ser_entries es) = Some (map norm es).
Proof.
  induction es as [|e es IH]; intros fuel Hok Hf; [destruct fuel; reflexivity|].
  inversion Hok as [|? ? He Hes]; subst.
  destruct fuel as [|f]; cbn [length] in Hf; [lia|].
  rewrite ser_entries_cons. cbn [parse_entries].
  destruct (ser_entry e ++ ser_entries es) eqn:E; [destruct (ser_entry_nonempty _ _ E)|].
  rewrite <- E, (rd_entry_ser _ _ He), (IH f Hes) by lia. reflexivity.
Qed.

(* up to the value of a tombstone, which the format does not store *)
Theorem parse_serialize es : Forall entry_ok es -> parse_body (ser_entries es) = Some (map norm es).
Proof. intros H. unfold parse_body. apply parse_entries_ser; [exact H|apply ser_entries_len]. Qed.

Lemma norm_id e : (e_del e = true -> e_val e = []) -> norm e = e.
Proof. destruct e as [k v s []]; unfold norm; cbn; [intros ->|]; reflexivity. Qed.

Lemma map_norm_id es : Forall (fun e => e_del e = true -> e_val e = []) es -> map norm es = es.
Proof.
  intros H. rewrite <- (map_id es) at 2. apply map_ext_in. intros e He. rewrite Forall_forall in H. apply norm_id, H, He.
Qed.

Lemma norm_key e : e_key (norm e) = e_key e.
Proof. unfold norm. destruct (e_del e); reflexivity. Qed.

Lemma scan_spec_app a b p : scan_spec (a ++ b) p = scan_spec a p ++ scan_spec b p.
Proof. unfold scan_spec. rewrite filter_app, map_app. reflexivity. Qed.

(* [find_key] is the lookup [kget] of Base/KeySorted.v by the key of an entry *)
Lemma find_key_kget key es : find_key key es = kget e_key key es.
Proof. induction es as [|e r IH]; [reflexivity|]. cbn [find_key]. rewrite kget_cons, IH. reflexivity. Qed.

Lemma find_key_app key a b :
  find_key key (a ++ b) = match find_key key a with Some e => Some e | None => find_key key b end.
Proof. rewrite !find_key_kget. apply find_app. Qed.

Lemma find_key_none key l : (forall e, In e l -> e_key e <> key) -> find_key key l = None.
Proof. rewrite find_key_kget. apply kget_none. Qed.

(* [keys_sorted] compares neighbours; it is the strict ascent of Base/KeySorted.v by the key of an entry *)
Lemma keys_sorted_asc es : keys_sorted es = true <-> asc e_key es.
Proof.
  induction es as [|e [|e' r] IH]; [easy|split; [split; [intros y []|exact I]|reflexivity]|].
  change (keys_sorted (e :: e' :: r)) with (bltb (e_key e) (e_key e') && keys_sorted (e' :: r)).
  rewrite andb_true_iff, bltb_lt, IH. split.
  - intros (H1 & H2 & H3). split; [exact (above_cons e_key _ _ _ H1 H2)|split; assumption].
  - intros (H1 & H2). split; [apply H1; left; reflexivity|exact H2].
Qed.

Lemma keys_sorted_app a b : keys_sorted (a ++ b) = true ->
  keys_sorted a = true /\ keys_sorted b = true /\
  forall x y, In x a -> In y b -> bltb (e_key x) (e_key y) = true.
Proof.
  rewrite !keys_sorted_asc, asc_app. intros (Ha & Hb & H). split; [exact Ha|split; [exact Hb|]].
  intros x y Hx Hy. apply bltb_lt, H; assumption.
Qed.
