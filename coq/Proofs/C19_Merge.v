(* C19: k-way merge (Model/MergeSort.v) over the priority-queue facts of Proofs/C19_Heap.v (push / pop keep heap_ok and the
   contents, pop yields a minimum).  Merge = dedup o MergeSorted; the survivor of a key group is an R-upper bound of the
   group for every R that [pick] respects. *)
From Coq Require Import List Arith Bool Lia Permutation Sorted.
From RV Require Import Model.Heap Model.MergeSort Proofs.C19_Heap.
Import ListNotations.

Section Vocabulary.
  Context {T : Type} (cmp : T -> T -> comparison).

  (* [cmp] is a total preorder given three-way: antisymmetric, <= transitive *)
  Definition cmp_ok : Prop :=
    (forall a b, cmp b a = CompOpp (cmp a b)) /\
    (forall a b c, cmp a b <> Gt -> cmp b c <> Gt -> cmp a c <> Gt).

  Definition ltT (a b : T) : bool := match cmp a b with Lt => true | _ => false end.

  (* non-decreasing / strictly increasing *)
  Definition sortedT (l : list T) : Prop := StronglySorted (fun a b => cmp a b <> Gt) l.
  Definition ssortedT (l : list T) : Prop := StronglySorted (fun a b => cmp a b = Lt) l.

  Context (pick : T -> T -> T) (eqT : T -> T -> bool).

  (* the sequential group-fold that Merge applies to the popped sequence *)
  Fixpoint dedup_from (prev : T) (l : list T) : option (list T) :=
    match l with
    | [] => Some [prev]
    | x :: r =>
        match cmp prev x with
        | Eq =>
            let pk := pick prev x in
            if eqT pk prev then dedup_from prev r
            else if eqT pk x then dedup_from x r
            else None
        | _ => option_map (cons prev) (dedup_from x r)
        end
    end.

  Definition dedup (l : list T) : option (list T) :=
    match l with
    | [] => Some []
    | x :: r => dedup_from x r
    end.
End Vocabulary.

Section CmpFacts.
  Context {T : Type} (cmp : T -> T -> comparison).
  Hypothesis Hok : cmp_ok cmp.

  Lemma cmp_opp : forall a b, cmp b a = CompOpp (cmp a b).
  Proof. exact (proj1 Hok). Qed.

  Lemma cmp_le_trans : forall a b c, cmp a b <> Gt -> cmp b c <> Gt -> cmp a c <> Gt.
  Proof. exact (proj2 Hok). Qed.

  Lemma cmp_refl : forall a, cmp a a = Eq.
  Proof. intros a. pose proof (cmp_opp a a) as H. destruct (cmp a a); simpl in H; congruence. Qed.

  Lemma cmp_eq_sym : forall a b, cmp a b = Eq -> cmp b a = Eq.
  Proof. intros a b H. rewrite cmp_opp, H. reflexivity. Qed.

  Lemma cmp_nlt_nge : forall a b, cmp a b <> Lt -> cmp b a <> Gt.
  Proof. intros a b H. rewrite cmp_opp. destruct (cmp a b); simpl; congruence. Qed.

  Lemma cmp_eq_trans : forall a b c, cmp a b = Eq -> cmp b c = Eq -> cmp a c = Eq.
  Proof.
    intros a b c Hab Hbc.
    assert (H1 : cmp a c <> Gt) by (apply cmp_le_trans with b; congruence).
    assert (H2 : cmp c a <> Gt)
      by (apply cmp_le_trans with b; rewrite cmp_opp; [rewrite Hbc|rewrite Hab]; discriminate).
    rewrite cmp_opp in H2. destruct (cmp a c); simpl in H2; congruence.
  Qed.

  Lemma cmp_lt_le_trans : forall a b c, cmp a b = Lt -> cmp b c <> Gt -> cmp a c = Lt.
  Proof.
    intros a b c Hab Hbc.
    assert (H1 : cmp a c <> Gt) by (apply cmp_le_trans with b; congruence).
    destruct (cmp a c) eqn:Hac; try congruence.
    (* c <= a would give b <= a *)
    exfalso. apply (cmp_le_trans b c a Hbc); rewrite cmp_opp, ?Hac, ?Hab; [discriminate|reflexivity].
  Qed.

  Lemma cmp_le_lt_trans : forall a b c, cmp a b <> Gt -> cmp b c = Lt -> cmp a c = Lt.
  Proof.
    intros a b c Hab Hbc.
    assert (H1 : cmp a c <> Gt) by (apply cmp_le_trans with b; congruence).
    destruct (cmp a c) eqn:Hac; try congruence.
    (* c <= a would give c <= b *)
    exfalso. apply (cmp_le_trans c a b); [| exact Hab |]; rewrite cmp_opp, ?Hac, ?Hbc; [discriminate|reflexivity].
  Qed.

  Lemma cmp_lt_trans : forall a b c, cmp a b = Lt -> cmp b c = Lt -> cmp a c = Lt.
  Proof. intros a b c Hab Hbc. apply cmp_lt_le_trans with b; congruence. Qed.

  Lemma cmp_eq_compat_r : forall a b b', cmp b b' = Eq -> cmp a b = cmp a b'.
  Proof.
    intros a b b' He. pose proof (cmp_eq_sym _ _ He) as He'.
    destruct (cmp a b) eqn:Hab; symmetry.
    - apply cmp_eq_trans with b; assumption.
    - apply cmp_lt_le_trans with b; congruence.
    - rewrite cmp_opp, (cmp_le_lt_trans b' b a); [reflexivity|congruence|].
      rewrite cmp_opp, Hab. reflexivity.
  Qed.

  Lemma ltT_swo : swo (ltT cmp).
  Proof.
    unfold ltT. split.
    - intros a b. rewrite (cmp_opp a b). destruct (cmp a b); simpl; congruence.
    - intros a b c Hab Hbc.
      (* c <= b <= a *)
      assert (H : cmp c a <> Gt).
      { apply cmp_le_trans with b; apply cmp_nlt_nge; [destruct (cmp b c)|destruct (cmp a b)]; congruence. }
      rewrite cmp_opp in H. destruct (cmp a c); simpl in H; congruence.
  Qed.

  Lemma ilt_swo : swo (ilt cmp).
  Proof.
    destruct ltT_swo as [Ha Ht]. split.
    - intros a b. apply (Ha (snd a) (snd b)).
    - intros a b c. apply (Ht (snd a) (snd b) (snd c)).
  Qed.

  Lemma cmp_eq_iff_ltT : forall a b, cmp a b = Eq <-> (ltT cmp a b = false /\ ltT cmp b a = false).
  Proof.
    intros a b. unfold ltT. rewrite (cmp_opp a b).
    destruct (cmp a b); simpl; intuition congruence.
  Qed.

  Lemma ilt_false_le : forall (a b : nat * T), ilt cmp a b = false -> cmp (snd b) (snd a) <> Gt.
  Proof.
    intros a b H. apply cmp_nlt_nge. unfold ilt in H.
    destruct (cmp (snd a) (snd b)); congruence.
  Qed.
End CmpFacts.

Section ListFacts.
  Context {A : Type}.

  Lemma upd_length : forall (l : list A) i v, length (upd i v l) = length l.
  Proof. intros l i v. apply C19_Heap.upd_length. Qed.

  Lemma nth_ne_default_lt : forall {B : Type} (l : list B) i d, nth i l d <> d -> i < length l.
  Proof.
    intros B l i d H. destruct (lt_dec i (length l)) as [Hlt|Hge]; [exact Hlt|].
    exfalso. apply H. apply nth_overflow. lia.
  Qed.
End ListFacts.

Section DedupFacts.
  Context {T : Type} (cmp : T -> T -> comparison) (pick : T -> T -> T) (eqT : T -> T -> bool).
  Hypothesis Hok : cmp_ok cmp.
  Hypothesis HeqT : forall a b, eqT a b = true <-> a = b.
  Hypothesis Hpick : forall a b, pick a b = a \/ pick a b = b.

  Lemma dedup_from_eq : forall prev x r, cmp prev x = Eq ->
      dedup_from cmp pick eqT prev (x :: r) = dedup_from cmp pick eqT (pick prev x) r.
  Proof.
    intros prev x r Ec. cbn [dedup_from]. rewrite Ec. cbv zeta.
    destruct (eqT (pick prev x) prev) eqn:E1; [apply HeqT in E1; rewrite E1; reflexivity|].
    destruct (Hpick prev x) as [E|E]; rewrite E in *.
    - rewrite (proj2 (HeqT prev prev) eq_refl) in E1. discriminate E1.
    - rewrite (proj2 (HeqT x x) eq_refl). reflexivity.
  Qed.

  Lemma pick_eq : forall a b, cmp a b = Eq -> cmp (pick a b) a = Eq /\ cmp (pick a b) b = Eq.
  Proof.
    intros a b E. destruct (Hpick a b) as [-> | ->]; rewrite (cmp_refl cmp Hok); split;
      auto using (cmp_eq_sym cmp Hok).
  Qed.

  (* [R y x] reads "x may stand for y": [pick] returns an R-upper bound of its arguments, so the survivor of a
     key group is an R-upper bound of the whole group *)
  Section Survivor.
    Variable R : T -> T -> Prop.
    Hypothesis R_refl : forall a, R a a.
    Hypothesis R_trans : forall a b c, R a b -> R b c -> R a c.
    Hypothesis R_pick : forall a b, cmp a b = Eq -> R a (pick a b) /\ R b (pick a b).

    Lemma dedup_from_spec : forall l prev, sortedT cmp (prev :: l) ->
        exists out, dedup_from cmp pick eqT prev l = Some out /\ ssortedT cmp out /\
                    (forall x, In x out -> In x (prev :: l)) /\
                    (forall y, In y (prev :: l) -> exists x, In x out /\ cmp x y = Eq /\ R y x).
    Proof.
      induction l as [|x0 r IH]; intros prev Hs.
      - exists [prev]. split; [reflexivity|]. split; [repeat constructor|]. split; [auto|].
        intros y [<-|[]]. exists prev. auto using (cmp_refl cmp Hok) with datatypes.
      - apply StronglySorted_inv in Hs. destruct Hs as [Hs2 Hf].
        inversion Hf as [|? ? Hle Hf1]; subst.
        destruct (StronglySorted_inv Hs2) as [Hsr Hf2].
        destruct (cmp prev x0) eqn:Ec; [| |congruence].
        + (* same key: the group goes on with pk, which stands for both prev and x0 *)
          rewrite (dedup_from_eq _ _ _ Ec).
          destruct (pick_eq _ _ Ec) as [E1 E2]. destruct (R_pick _ _ Ec) as [R1 R2].
          remember (pick prev x0) as pk eqn:Epk.
          assert (Hpk : pk = prev \/ pk = x0) by (subst pk; apply Hpick).
          destruct (IH pk) as (out & Hd & Hss & Hsub & Hcov).
          { destruct Hpk as [-> | ->]; [constructor|]; assumption. }
          exists out. split; [exact Hd|]. split; [exact Hss|]. split.
          * intros x Hx. destruct (Hsub x Hx) as [<-|Hin]; [|right; right; exact Hin].
            destruct Hpk as [-> | ->]; [left|right; left]; reflexivity.
          * destruct (Hcov pk (or_introl eq_refl)) as (x & Hx & Ex & Rx).
            assert (Hrep : forall y, cmp pk y = Eq -> R y pk -> exists x, In x out /\ cmp x y = Eq /\ R y x).
            { intros y Ey Ry. exists x. split; [exact Hx|].
              split; [exact (cmp_eq_trans cmp Hok _ _ _ Ex Ey)|exact (R_trans _ _ _ Ry Rx)]. }
            intros y [<-|[<-|Hy]]; [apply Hrep; assumption|apply Hrep; assumption|].
            apply Hcov. right; exact Hy.
        + (* new key: prev is emitted; it is strictly below everything that follows *)
          destruct (IH x0 Hs2) as (out & Hd & Hss & Hsub & Hcov).
          exists (prev :: out). cbn [dedup_from]. rewrite Ec, Hd.
          split; [reflexivity|]. split; [|split].
          * constructor; [exact Hss|]. apply Forall_forall. intros z Hz.
            apply (cmp_lt_le_trans cmp Hok) with x0; [exact Ec|].
            destruct (Hsub z Hz) as [<-|Hin]; [rewrite (cmp_refl cmp Hok); discriminate|].
            rewrite Forall_forall in Hf2. exact (Hf2 z Hin).
          * intros x [<-|Hx]; [left; reflexivity|right; exact (Hsub x Hx)].
          * intros y [<-|Hy].
            -- exists prev. auto using (cmp_refl cmp Hok) with datatypes.
            -- destruct (Hcov y Hy) as (x & Hx & H). exists x. split; [right; exact Hx|exact H].
    Qed.

    Lemma dedup_spec : forall l, sortedT cmp l ->
        exists out, dedup cmp pick eqT l = Some out /\ ssortedT cmp out /\
                    (forall x, In x out -> In x l) /\
                    (forall y, In y l -> exists x, In x out /\ cmp x y = Eq /\ R y x).
    Proof.
      intros [|a l] Hs; [|exact (dedup_from_spec l a Hs)].
      exists []. split; [reflexivity|]. split; [constructor|]. split; intros x [].
    Qed.
  End Survivor.

  Lemma ssortedT_eq_unique : forall out, ssortedT cmp out ->
      forall x x', In x out -> In x' out -> cmp x x' = Eq -> x = x'.
  Proof.
    induction 1 as [|a o Hs IH Hf]; intros x x' Hx Hx' E; [destruct Hx|].
    rewrite Forall_forall in Hf.
    destruct Hx as [<-|Hx], Hx' as [<-|Hx']; [reflexivity| | |exact (IH x x' Hx Hx' E)].
    - rewrite (Hf x' Hx') in E. discriminate E.
    - apply (cmp_eq_sym cmp Hok) in E. rewrite (Hf x Hx) in E. discriminate E.
  Qed.
End DedupFacts.

Section MergeProofs.
  Context {T : Type} (cmp : T -> T -> comparison).
  Implicit Types (h : list (nat * T)) (its : list (list T)).

  Definition pending h its : list T := map snd h ++ concat its.

  Lemma pull_cases : forall idx its,
      (nth idx its [] = [] /\ pull idx its = (None, its)) \/
      (exists y r, nth idx its [] = y :: r /\ pull idx its = (Some y, upd idx r its)).
  Proof.
    intros idx its. unfold pull.
    destruct (nth idx its []) as [|y r]; [left|right; exists y, r]; split; reflexivity.
  Qed.

  Lemma refill_cases : forall idx h its,
      (nth idx its [] = [] /\ refill cmp idx h its = (h, its)) \/
      (exists y r, nth idx its [] = y :: r /\
                   refill cmp idx h its = (push (ilt cmp) (idx, y) h, upd idx r its)).
  Proof.
    intros idx h its. unfold refill.
    destruct (pull_cases idx its) as [[E ->]|(y & r & E & ->)]; [left|right; exists y, r]; split; auto.
  Qed.

  Lemma merge_init_cons : forall i rest h its,
      merge_init cmp (i :: rest) h its =
      let '(h1, its1) := refill cmp i h its in merge_init cmp rest h1 its1.
  Proof.
    intros i rest h its. simpl. unfold refill.
    destruct (pull i its) as [[y|] its1]; reflexivity.
  Qed.

  (* merge_init is refill folded over the indices: what every refill keeps (P may speak of the indices still to come)
     holds when they are used up *)
  Lemma merge_init_ind : forall (P : list nat -> list (nat * T) -> list (list T) -> Prop),
      (forall i rest h its h1 its1, P (i :: rest) h its -> refill cmp i h its = (h1, its1) -> P rest h1 its1) ->
      forall idxs h its h' its', P idxs h its -> merge_init cmp idxs h its = (h', its') -> P [] h' its'.
  Proof.
    intros P Hstep. induction idxs as [|i rest IH]; intros h its h' its' HP H.
    - simpl in H. inversion H; subst. exact HP.
    - rewrite merge_init_cons in H. destruct (refill cmp i h its) as [h1 its1] eqn:E.
      exact (IH _ _ _ _ (Hstep _ _ _ _ _ _ HP E) H).
  Qed.

  Lemma refill_perm : forall idx h its h2 its',
      refill cmp idx h its = (h2, its') -> Permutation (pending h2 its') (pending h its).
  Proof.
    intros idx h its h2 its' H.
    destruct (refill_cases idx h its) as [[_ E]|(y & r & E1 & E)]; rewrite E in H; inversion H; subst;
      [reflexivity|].
    unfold pending. rewrite (push_perm (ilt cmp) (idx, y) h).
    apply (concat_upd_perm its idx r (y :: map snd h) (map snd h)).
    - apply nth_ne_default_lt with (d := []). rewrite E1. discriminate.
    - rewrite E1. apply Permutation_middle.
  Qed.

  (* invariant A (all iterators accounted for): every iterator (outside the not-yet-visited set S) that still has elements
     has an entry on the heap; so an empty heap ends the loop with nothing left behind *)
  Definition InvA (S : list nat) h its : Prop :=
    forall i, ~ In i S -> nth i its [] <> [] -> exists x, In (i, x) h.

  Lemma refill_invA : forall i rest h its h1 its1,
      InvA (i :: rest) h its -> refill cmp i h its = (h1, its1) -> InvA rest h1 its1.
  Proof.
    intros i rest h its h1 its1 HA H j Hj Hne.
    assert (Hj' : j <> i -> ~ In j (i :: rest)) by (intros Hn [E|Hin]; [congruence|exact (Hj Hin)]).
    destruct (refill_cases i h its) as [[E1 E]|(y & r & E1 & E)]; rewrite E in H; inversion H; subst.
    - apply HA; [|exact Hne]. apply Hj'. congruence.
    - destruct (Nat.eq_dec j i) as [->|Hneq].
      + exists y. apply push_In. left; reflexivity.
      + rewrite nth_upd_neq in Hne by congruence.
        destruct (HA j (Hj' Hneq) Hne) as [x Hx]. exists x. apply push_In. right; exact Hx.
  Qed.

  Section Round.
    Context h its idx item h1 h2 its'
      (Hp : pop (ilt cmp) h = (Some (idx, item), h1)) (Hr : refill cmp idx h1 its = (h2, its')).

    Lemma step_perm : Permutation (pending h its) (item :: pending h2 its').
    Proof.
      rewrite (refill_perm _ _ _ _ _ Hr). unfold pending.
      rewrite (pop_perm _ _ _ _ Hp). reflexivity.
    Qed.

    Lemma step_invA : InvA [] h its -> InvA [] h2 its'.
    Proof.
      intros HA. apply (refill_invA _ _ _ _ _ _) with (2 := Hr).
      intros j Hj Hne. destruct (HA j (fun F => F) Hne) as [x Hx]. exists x.
      apply (pop_In _ _ _ _ _ Hp) in Hx. destruct Hx as [E|Hx]; [|exact Hx].
      exfalso. apply Hj. left. congruence.
    Qed.
  End Round.

  Lemma invA_start : forall its, InvA (seq 0 (length its)) [] its.
  Proof.
    intros its i Hi Hne. exfalso.
    apply nth_ne_default_lt in Hne. apply Hi. apply in_seq. lia.
  Qed.

  Lemma invA_empty : forall its, InvA [] [] its -> concat its = [].
  Proof.
    intros its HA. apply concat_nil_Forall, Forall_forall. intros it Hit.
    destruct (In_nth _ _ [] Hit) as (j & _ & <-).
    destruct (nth j its []) as [|z r] eqn:E; [reflexivity|].
    destruct (HA j (fun F => F)) as [x []]. rewrite E. discriminate.
  Qed.

  Lemma merge_init_spec : forall its h its',
      merge_init cmp (seq 0 (length its)) [] its = (h, its') ->
      Permutation (pending h its') (concat its) /\ InvA [] h its'.
  Proof.
    intros its h its' Hi. split.
    - apply (merge_init_ind (fun _ h its' => Permutation (pending h its') (concat its))) with (3 := Hi);
        [|reflexivity].
      intros i rest h0 its0 h1 its1 HP E. rewrite (refill_perm _ _ _ _ _ E). exact HP.
    - exact (merge_init_ind InvA refill_invA _ _ _ _ _ (invA_start its) Hi).
  Qed.

  Lemma loop_perm : forall fuel h its,
      InvA [] h its -> length (pending h its) < fuel ->
      Permutation (merge_sorted_loop cmp fuel h its) (pending h its).
  Proof.
    induction fuel as [|f IH]; intros h its HA Hf; [lia|].
    simpl. destruct (pop (ilt cmp) h) as [[[idx item]|] h1] eqn:Hp.
    - destruct (refill cmp idx h1 its) as [h2 its'] eqn:Hr.
      pose proof (step_perm _ _ _ _ _ _ _ Hp Hr) as P.
      rewrite P. apply perm_skip. apply IH; [exact (step_invA _ _ _ _ _ _ _ Hp Hr HA)|].
      apply Permutation_length in P. simpl in P. lia.
    - destruct (pop_none _ _ _ Hp) as [-> _].
      unfold pending. rewrite (invA_empty _ HA). reflexivity.
  Qed.

  Theorem merge_sorted_perm : forall its, Permutation (merge_sorted cmp its) (concat its).
  Proof.
    intros its. unfold merge_sorted.
    destruct (merge_init cmp (seq 0 (length its)) [] its) as [h its'] eqn:Hi.
    destruct (merge_init_spec _ _ _ Hi) as [P HA].
    rewrite <- P. apply loop_perm; [exact HA|].
    apply Permutation_length in P. unfold total. lia.
  Qed.

  (* invariant S (sorted): heap order; iterators sorted; a heap entry (i, x) is <= everything left in iterator i.
     The order of the output rests on it alone. *)
  Definition InvS h its : Prop :=
    heap_ok (ilt cmp) h /\ Forall (sortedT cmp) its /\
    (forall i x, In (i, x) h -> forall y, In y (nth i its []) -> cmp x y <> Gt).

  Section Sorted.
    Hypothesis Hok : cmp_ok cmp.

    Lemma refill_invS : forall i h its h1 its1,
        InvS h its -> refill cmp i h its = (h1, its1) -> InvS h1 its1.
    Proof.
      intros i h its h1 its1 [Hh [Hs Hb]] H.
      destruct (refill_cases i h its) as [[E1 E]|(y & r & E1 & E)]; rewrite E in H; inversion H; subst.
      - repeat split; assumption.
      - assert (Hi : i < length its).
        { apply nth_ne_default_lt with (d := []). rewrite E1. discriminate. }
        assert (Hsi : sortedT cmp (y :: r)).
        { rewrite <- E1. rewrite Forall_forall in Hs. apply Hs, nth_In, Hi. }
        apply StronglySorted_inv in Hsi. destruct Hsi as [Hsr Hyr].
        rewrite Forall_forall in Hyr.
        assert (Hleft : forall k z, In z (nth k (upd i r its) []) -> In z (nth k its [])).
        { intros k z Hz. destruct (Nat.eq_dec k i) as [->|Hneq].
          - rewrite nth_upd_eq in Hz by exact Hi. rewrite E1. right; exact Hz.
          - rewrite nth_upd_neq in Hz by congruence. exact Hz. }
        split; [|split].
        + apply push_ok; [apply ilt_swo|]; assumption.
        + apply Forall_upd; assumption.
        + intros k x Hin z Hz. apply push_In in Hin. destruct Hin as [Heq|Hin].
          * inversion Heq; subst k x. rewrite nth_upd_eq in Hz by exact Hi. exact (Hyr z Hz).
          * exact (Hb k x Hin z (Hleft k z Hz)).
    Qed.

    Lemma step_invS : forall h its e h1 h2 its',
        InvS h its -> pop (ilt cmp) h = (Some e, h1) ->
        refill cmp (fst e) h1 its = (h2, its') -> InvS h2 its'.
    Proof.
      intros h its e h1 h2 its' [Hh [Hs Hb]] Hp. apply refill_invS.
      split; [|split].
      - exact (pop_ok _ (ilt_swo cmp Hok) _ _ _ Hh Hp).
      - exact Hs.
      - intros i x Hin. apply Hb. apply (pop_In _ _ _ _ _ Hp). right. exact Hin.
    Qed.

    Lemma invS_start : forall its, (forall it, In it its -> sortedT cmp it) -> InvS [] its.
    Proof.
      intros its Hs. split; [apply heap_ok_nil|split; [apply Forall_forall; exact Hs|intros i x []]].
    Qed.

    (* the item popped next was on the heap with this one, or is its successor in its own iterator: so no item is above
       the next one, however far the loop runs *)
    Lemma loop_sorted : forall fuel h its, InvS h its ->
        Sorted (fun a b => cmp a b <> Gt) (merge_sorted_loop cmp fuel h its) /\
        forall m, (forall e, In e h -> cmp m (snd e) <> Gt) ->
                  HdRel (fun a b => cmp a b <> Gt) m (merge_sorted_loop cmp fuel h its).
    Proof.
      induction fuel as [|f IH]; intros h its HS; [split; constructor|].
      simpl. destruct (pop (ilt cmp) h) as [[[idx item]|] h1] eqn:Hp; [|split; constructor].
      destruct (refill cmp idx h1 its) as [h2 its'] eqn:Hr.
      destruct (IH h2 its' (step_invS _ _ _ _ _ _ HS Hp Hr)) as [Hs Hlow].
      destruct HS as [Hh [_ Hb]].
      assert (Hin : In (idx, item) h) by (apply (pop_In _ _ _ _ _ Hp); left; reflexivity).
      split; [|intros m Hm; constructor; exact (Hm _ Hin)].
      constructor; [exact Hs|]. apply Hlow. intros e He.
      assert (Hh1 : forall e, In e h1 -> cmp item (snd e) <> Gt).
      { intros e' He'. apply (ilt_false_le cmp Hok e' (idx, item)), (pop_min _ (ilt_swo cmp Hok) _ _ _ Hh Hp).
        apply (pop_In _ _ _ _ _ Hp). right; exact He'. }
      destruct (refill_cases idx h1 its) as [[_ E]|(y & r & E1 & E)]; rewrite E in Hr; injection Hr as <- <-;
        [exact (Hh1 e He)|].
      apply push_In in He. destruct He as [<-|He]; [|exact (Hh1 e He)].
      apply (Hb idx item Hin). rewrite E1. left; reflexivity.
    Qed.

    Theorem merge_sorted_sorted : forall its,
        (forall it, In it its -> sortedT cmp it) -> sortedT cmp (merge_sorted cmp its).
    Proof.
      intros its Hs. unfold merge_sorted.
      destruct (merge_init cmp (seq 0 (length its)) [] its) as [h its'] eqn:Hi.
      apply Sorted_StronglySorted; [exact (cmp_le_trans cmp Hok)|]. apply loop_sorted.
      exact (merge_init_ind (fun _ => InvS) (fun i _ => refill_invS i) _ _ _ _ _ (invS_start its Hs) Hi).
    Qed.
  End Sorted.

  Lemma loop_dedup : forall pick eqT fuel h its,
      length (pending h its) < fuel ->
      (forall p, merge_loop cmp pick eqT fuel h its (Some p) =
                 dedup_from cmp pick eqT p (merge_sorted_loop cmp fuel h its)) /\
      merge_loop cmp pick eqT fuel h its None = dedup cmp pick eqT (merge_sorted_loop cmp fuel h its).
  Proof.
    intros pick eqT. induction fuel as [|f IH]; intros h its Hf; [lia|].
    simpl. destruct (pop (ilt cmp) h) as [[[idx item]|] h1] eqn:Hp; [|split; reflexivity].
    destruct (refill cmp idx h1 its) as [h2 its'] eqn:Hr.
    pose proof (Permutation_length (step_perm _ _ _ _ _ _ _ Hp Hr)) as L. simpl in L.
    destruct (IH h2 its') as [IHs _]; [lia|].
    split; [intros p|]; simpl; rewrite ?IHs; reflexivity.
  Qed.

  Theorem merge_is_dedup : forall pick eqT its,
      merge cmp pick eqT its = dedup cmp pick eqT (merge_sorted cmp its).
  Proof.
    intros pick eqT its. unfold merge, merge_sorted.
    destruct (merge_init cmp (seq 0 (length its)) [] its) as [h its'] eqn:Hi.
    destruct (merge_init_spec _ _ _ Hi) as [P _].
    apply loop_dedup. apply Permutation_length in P. unfold total. lia.
  Qed.

  (* Merge of non-decreasing inputs: strictly increasing output, one representative per key, and the
     representative is an R-upper bound of its key group whenever [pick] returns R-upper bounds *)
  Theorem merge_survivor : forall pick eqT (R : T -> T -> Prop),
      cmp_ok cmp ->
      (forall a b, eqT a b = true <-> a = b) ->
      (forall a b, pick a b = a \/ pick a b = b) ->
      (forall a, R a a) -> (forall a b c, R a b -> R b c -> R a c) ->
      (forall a b, cmp a b = Eq -> R a (pick a b) /\ R b (pick a b)) ->
      forall its, (forall it, In it its -> sortedT cmp it) ->
      exists out, merge cmp pick eqT its = Some out /\ ssortedT cmp out /\
                  (forall x, In x out -> In x (concat its)) /\
                  (forall y, In y (concat its) -> exists x, In x out /\ cmp x y = Eq /\ R y x).
  Proof.
    intros pick eqT R Hok HeqT Hpick Rr Rt Rp its Hs.
    pose proof (merge_sorted_perm its) as Hperm.
    destruct (dedup_spec cmp pick eqT Hok HeqT Hpick R Rr Rt Rp _ (merge_sorted_sorted Hok its Hs))
      as (out & Hd & Hss & Hsub & Hcov).
    exists out. rewrite merge_is_dedup. split; [exact Hd|]. split; [exact Hss|]. split.
    - intros x Hx. exact (Permutation_in _ Hperm (Hsub x Hx)).
    - intros y Hy. exact (Hcov y (Permutation_in _ (Permutation_sym Hperm) Hy)).
  Qed.

  (* with pick = "the newer of the two", the survivor of a key group is a newest element of the group
     (keepNewest of the LSM) *)
  Theorem merge_keeps_newest : forall pick eqT,
      cmp_ok cmp ->
      (forall a b, eqT a b = true <-> a = b) ->
      forall (newer : T -> T -> bool), swo newer ->
      (forall a b, pick a b = if newer a b then a else b) ->
      forall its out, (forall it, In it its -> sortedT cmp it) ->
      merge cmp pick eqT its = Some out ->
      forall x y, In x out -> In y (concat its) -> cmp x y = Eq -> newer y x = false.
  Proof.
    intros pick eqT Hok HeqT newer [Hasym Htrans] Hnewer its out Hs Hm x y Hx Hy Exy.
    assert (Hpick : forall a b, pick a b = a \/ pick a b = b)
      by (intros a b; rewrite Hnewer; destruct (newer a b); auto).
    pose proof (hlt_irrefl newer (conj Hasym Htrans)) as Hirr.
    assert (Rp : forall a b, cmp a b = Eq -> newer a (pick a b) = false /\ newer b (pick a b) = false)
      by (intros a b _; rewrite Hnewer; destruct (newer a b) eqn:E; auto).
    destruct (merge_survivor pick eqT (fun y x => newer y x = false) Hok HeqT Hpick Hirr Htrans Rp its Hs)
      as (out' & Hm' & Hss & _ & Hcov).
    rewrite Hm in Hm'. inversion Hm'; subst out'.
    destruct (Hcov y Hy) as (x' & Hx' & E' & Rx').
    (* x and x' are both the representative of y's key *)
    rewrite (ssortedT_eq_unique cmp Hok out Hss x x' Hx Hx'); [exact Rx'|].
    exact (cmp_eq_trans cmp Hok _ _ _ Exy (cmp_eq_sym cmp Hok _ _ E')).
  Qed.
End MergeProofs.
