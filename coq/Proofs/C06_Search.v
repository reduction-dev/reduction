(* The level search of AllTablesForPrefix (slices.BinarySearchFunc with Table.RangePrefixCompare, then the forward
   scan while RangeContainsPrefix) on a chain of disjoint key ranges returns exactly the tables whose range contains the
   prefix, hence every table that holds an entry with it; with that, rescale_exact_clean for the handles that a rescale
   picks, and a non-vacuity instance. *)
From Coq Require Import List NArith Lia Bool Arith Sorting.Sorted.
From RV Require Import Base.Lists Proofs.C07_Sorted Proofs.C18_Layout.
From RV Require Import Model.Rescale Proofs.C06_Assign Proofs.C06_Rescale Proofs.C06_Clean.
Import ListNotations.
Open Scope N_scope.

(* RangePrefixCompare = 0  <->  RangeContainsPrefix *)
Lemma cmp_eq_rcp t p : range_prefix_compare t p = Eq <-> range_contains_prefix t p = true.
Proof.
  unfold range_prefix_compare, range_contains_prefix, bleb.
  destruct (is_prefix p (t_start t)), (is_prefix p (t_end t)); cbn [orb]; rewrite ?orb_true_r; try (split; reflexivity).
  rewrite !orb_false_r. rewrite (bcmp_antisym (t_end t) p).
  destruct (bcmp (t_start t) p), (bcmp (t_end t) p); cbn; split; intros H; try reflexivity; try discriminate.
Qed.

Lemma cmp_lt_iff t p : startle t -> (range_prefix_compare t p = Lt <-> klt (t_end t) p).
Proof.
  intros Hs. unfold range_prefix_compare. split.
  - destruct (is_prefix p (t_start t)), (is_prefix p (t_end t)); cbn [orb]; try discriminate.
    destruct (bcmp (t_start t) p); try discriminate; destruct (bcmp (t_end t) p) eqn:E; try discriminate; auto.
  - intros He. pose proof (kle_lt_trans _ _ _ Hs He) as Hsp.
    destruct (is_prefix p (t_start t)) eqn:P0; [exfalso; exact (klt_irrefl _ (kle_lt_trans _ _ _ (prefix_le _ _ P0) Hsp))|].
    destruct (is_prefix p (t_end t)) eqn:P1; [exfalso; exact (klt_irrefl _ (kle_lt_trans _ _ _ (prefix_le _ _ P1) He))|].
    cbn [orb]. unfold klt in Hsp, He. rewrite Hsp, He. reflexivity.
Qed.

Lemma cmp_gt_iff t p : startle t ->
  (range_prefix_compare t p = Gt <-> klt p (t_start t) /\ is_prefix p (t_start t) = false).
Proof.
  intros Hs. unfold range_prefix_compare. split.
  - destruct (is_prefix p (t_start t)), (is_prefix p (t_end t)); cbn [orb]; try discriminate.
    destruct (bcmp (t_start t) p) eqn:E; [destruct (bcmp (t_end t) p); discriminate|destruct (bcmp (t_end t) p); discriminate|].
    intros _. split; [apply bcmp_gt_lt; exact E|reflexivity].
  - intros [Hp P0]. rewrite P0.
    destruct (is_prefix p (t_end t)) eqn:P1; [rewrite (prefix_between p _ _ Hp Hs P1) in P0; discriminate|].
    cbn [orb]. unfold klt in Hp. rewrite (bcmp_antisym p (t_start t)), Hp. reflexivity.
Qed.

Section Chain.
  Variables (lvl : list table) (p : bytes).
  Hypothesis Hst : Forall startle lvl.
  Hypothesis Hch : chain lvl.

  (* along the chain the comparisons read Lt ... Lt Eq ... Eq Gt ... Gt *)
  Lemma cmp_mono : StronglySorted (fun a b => (range_prefix_compare b p = Lt -> range_prefix_compare a p = Lt) /\
                                              (range_prefix_compare a p = Gt -> range_prefix_compare b p = Gt)) lvl.
  Proof.
    rewrite Forall_forall in Hst. eapply StronglySorted_impl; [|exact Hch]. cbv beta. intros a b Ha Hb Hab.
    pose proof (Hst a Ha) as Sa. pose proof (Hst b Hb) as Sb. split.
    - rewrite !cmp_lt_iff by assumption. intros H. exact (klt_trans _ _ _ Hab (kle_lt_trans _ _ _ Sb H)).
    - rewrite !cmp_gt_iff by assumption. intros [H P0]. pose proof (klt_trans _ _ _ (klt_le_trans _ _ _ H Sa) Hab) as Hb'. split; [exact Hb'|].
      destruct (is_prefix p (t_start b)) eqn:P1; [|reflexivity].
      rewrite (prefix_between p _ _ H (or_intror (kle_lt_trans _ _ _ Sa Hab)) P1) in P0. discriminate.
  Qed.

  (* the bisection skips the tables that are "less"; the forward scan takes the run of tables that contain the prefix and
     stops at the first that is "greater": together they are the filter *)
  Theorem select_level_filter : select_level lvl p = filter (fun t => range_contains_prefix t p) lvl.
  Proof.
    pose proof cmp_mono as Hm.
    destruct (bisect_list (fun t => range_prefix_compare t p) dummy_table lvl) as [Hlo Hhi].
    { eapply StronglySorted_impl; [|exact Hm]. intros a b _ _ H. apply H. }
    unfold select_level. cbv zeta. change bsearch with bisect. set (r := bisect _ _ _ _) in *.
    assert (Hne : forall l, Forall (fun t => range_prefix_compare t p <> Eq) l -> filter (fun t => range_contains_prefix t p) l = []).
    { intros l H. apply filter_nil. rewrite Forall_forall in H. intros t Ht. apply not_true_is_false. rewrite <- cmp_eq_rcp. exact (H t Ht). }
    (* the tables before the bisection's result r are "less" and contain no prefix; x, the one at r, is not "less" *)
    assert (Hskip : filter (fun t => range_contains_prefix t p) lvl = filter (fun t => range_contains_prefix t p) (skipn r lvl)).
    { rewrite <- (firstn_skipn r lvl) at 1. rewrite filter_app, (Hne (firstn r lvl)); [reflexivity|].
      eapply Forall_impl; [|exact Hlo]. cbv beta. congruence. }
    rewrite Hskip. clear Hskip.
    apply (StronglySorted_skipn _ r) in Hm.
    destruct (Nat.ltb_spec r (length lvl)) as [Hr|Hr]; [|rewrite skipn_all2 by exact Hr; reflexivity].
    rewrite (skipn_nth_cons dummy_table lvl r Hr) in *. set (x := nth r lvl dummy_table) in *.
    apply Forall_cons_iff in Hhi as [Hx Hhi]. apply StronglySorted_inv in Hm as [Hm Hxm].
    destruct (range_prefix_compare x p) eqn:Cx; [|congruence|].
    - (* x contains the prefix: a later table that does not is "greater", and so is every table after it *)
      apply take_while_filter. constructor.
      + eapply StronglySorted_impl; [|exact Hm]. cbv beta. rewrite Forall_forall in Hhi. intros a b Ha Hb [_ H]. rewrite <- !not_true_iff_false, <- !cmp_eq_rcp.
        intros Na. specialize (Hhi a Ha). destruct (range_prefix_compare a p) eqn:Ca; try congruence. rewrite (H eq_refl). discriminate.
      + rewrite cmp_eq_rcp in Cx. rewrite Cx. apply Forall_forall. discriminate.
    - (* x is "greater": nothing is scanned, and nothing from x on contains the prefix *)
      symmetry. apply Hne. constructor; [congruence|]. eapply Forall_impl; [|exact Hxm]. cbv beta. intros b [_ H]. rewrite (H eq_refl). discriminate.
  Qed.
End Chain.

Theorem select_complete_proved : forall lvl p t e,
  level_ok lvl -> In t lvl -> In e (t_entries t) -> is_prefix p (e_key e) = true -> In t (select_level lvl p).
Proof.
  intros lvl p t e (Hc & Hs & Hch) Ht He Hp. rewrite select_level_filter by assumption. apply filter_In. split; [exact Ht|].
  rewrite Forall_forall in Hc. exact (rcp_in p t e (Hc t Ht) He Hp).
Qed.

Definition rescale_exact_clean_handles_proved := rescale_exact_clean_handles select_complete_proved.

Theorem rescale_exact_clean_proved : forall count n recorded i j rj dj p st stj,
  pairdisj (map fst recorded) -> (forall rd, In rd recorded -> docwf rd) ->
  (i < N.to_nat n)%nat -> nth_error recorded j = Some (rj, dj) -> LLInv (trl dj) ->
  (forall k, is_prefix p k = true -> key_in rj k = true /\ key_in (nth i (kg_ranges count n) (0, 0)) k = true) ->
  restore_new true count n recorded i = Some st -> restore true rj [dj] = Some stj ->
  scan_prefix st p = scan_prefix stj p.
Proof.
  intros count n recorded i j rj dj p st stj Hd Hw Hi Hj Hll Hp Hst Hstj.
  rewrite restore_new_filter in Hst by exact Hi.
  apply (rescale_exact_clean_handles_proved _ _ rj dj p st stj) in Hst; try assumption.
  - (* old operator j, whose range shares the key group of p with new operator i, is among the handles *)
    apply filter_In. split; [exact (nth_error_In _ _ Hj)|]. cbn [fst].
    destruct (Hp p (is_prefix_refl p)) as [A B]. apply key_in_kg in A as (g & Eg & Ig), B as (g' & Eg' & Ig').
    assert (g' = g) by congruence. subst g'. apply (includes_overlaps _ _ g); assumption.
  - apply pairdisj_filter, Hd.
  - intros rd Hrd. apply filter_In in Hrd as [Hrd _]. exact (Hw rd Hrd).
Qed.

(* a write after the restore is what the merged view returns for its key (the memtable's newest entry of a key wins);
   the candidate set is [Scand p (new :: m) Tb] of C06_Clean.v *)
Lemma write_visible p m (Tb : entry -> Prop) R new :
  Mx (fun x => exists e, x = tr e /\ is_prefix p (e_key e) = true /\ (In e (new :: m) \/ Tb e)) R ->
  uniq (fun x => exists e, x = tr e /\ is_prefix p (e_key e) = true /\ (In e (new :: m) \/ Tb e)) ->
  decr (new :: m) -> (forall e e', In e (new :: m) -> Tb e' -> (e_seq e' < e_seq e)%N) ->
  is_prefix p (e_key new) = true -> LsmBase.tbl_get (e_key new) R = Some (tr new).
Proof.
  intros HM Hu Hd Hab Hp.
  apply (newest_get _ R _ _ HM Hu). split; [exists new; cbn [In]; auto|]. split; [reflexivity|].
  apply StronglySorted_inv in Hd as [_ Hd]. rewrite Forall_forall in Hd.
  intros x (e & -> & _ & He) _. change (e_seq e <= e_seq new).
  destruct He as [[<-|He]|He]; [lia|specialize (Hd e He); lia|specialize (Hab new e (or_introl eq_refl) He); lia].
Qed.

(* the shape of the witness documents: nothing in level 0, one table in level 1 *)
Lemma one_table_LLInv (t : LsmBase.table) : sorted t -> t <> [] -> LLInv [[]; [t]].
Proof.
  intros Hs Hne. constructor.
  - intros l t' [<-|[<-|[]]]; [intros []|intros [<-|[]]; exact Hs].
  - intros i l H. cbn [nth_error] in H. apply nth_error_In in H as [<-|[]]. split.
    + cbn. rewrite app_nil_r. exact Hs.
    + intros t' [<-|[]]. exact Hne.
  - intros l [= <-]. exact I.
  - (* level 1 is the last, so the upper of two levels is level 0, which is empty *)
    intros i j li lj t' t'' e e' Hij Hi Hj Ht. assert (j < 2)%nat by (apply (nth_error_Some [[]; [t]]); congruence).
    assert (i = 0)%nat by lia. subst i. injection Hi as <-. destruct Ht.
Qed.

Lemma docA_LLInv : LLInv (trl docA).
Proof. apply one_table_LLInv; [apply sortedb_sorted; vm_compute; reflexivity|discriminate]. Qed.

(* ... whose table holds two entries, at its bounds *)
Lemma two_entry_docwf r id k1 k2 d1 v1 d2 v2 wal :
  let t := mkT id k1 k2 2 [mkE k1 1 d1 v1; mkE k2 2 d2 v2] in
  doc_clean (r, mkD [[]; [t]] wal) = true -> klt k1 k2 -> twf2 r t -> docwf (r, mkD [[]; [t]] wal).
Proof.
  intros t Hc Hlt Hw. split; [exact Hc|]. split.
  - intros t' [<-|[]]. split; [|split; [|split]].
    + intros e [<-|[<-|[]]]; cbn; split; try (left; reflexivity); right; exact Hlt.
    + right. exact Hlt.
    + exact Hw.
    + intros e [<-|[<-|[]]]; cbn; lia.
  - intros [|[|k]]; repeat constructor.
Qed.

Lemma d21_docwf : forall rd, In rd d21_recorded -> docwf rd.
Proof.
  intros rd [<-|[<-|[]]]; (apply two_entry_docwf; [reflexivity|reflexivity|repeat split; cbn; lia]).
Qed.

Example clean_instance :
  pairdisj (map fst d21_recorded) /\ (forall rd, In rd d21_recorded -> docwf rd) /\ LLInv (trl docA) /\
  (forall k, is_prefix [0;0] k = true -> key_in (0, 1) k = true /\ key_in (nth 0 (kg_ranges 2 1) (0, 0)) k = true) /\
  exists st stA, restore_new true 2 1 d21_recorded 0 = Some st /\ restore true (0, 1) [docA] = Some stA /\
                 scan_prefix st [0;0] = scan_prefix stA [0;0] /\ scan_prefix stA [0;0] = [(kA1, 11); (kA2, 12)].
Proof.
  assert (Hd : pairdisj (map fst d21_recorded)).
  { cbn. split; [|split; [intros ? []|exact I]]. intros r' [<-|[]] kg [A B]. unfold includes_kg in *. cbn in *. lia. }
  assert (Hp : forall k, is_prefix [0;0] k = true -> key_in (0, 1) k = true /\ key_in (nth 0 (kg_ranges 2 1) (0, 0)) k = true).
  { intros k H. split; exact (key_in_prefix _ 0 0 [] k H). }
  split; [exact Hd|]. split; [exact d21_docwf|]. split; [exact docA_LLInv|]. split; [exact Hp|].
  destruct (restore_new true 2 1 d21_recorded 0) as [st|] eqn:E1; [|vm_compute in E1; discriminate].
  destruct (restore true (0, 1) [docA]) as [stA|] eqn:E2; [|vm_compute in E2; discriminate].
  exists st, stA. split; [reflexivity|]. split; [reflexivity|]. split.
  - apply (rescale_exact_clean_proved 2 1 d21_recorded 0%nat 1%nat (0, 1) docA [0;0] st stA Hd d21_docwf); auto using docA_LLInv.
  - vm_compute in E2. inversion E2; subst. vm_compute. reflexivity.
Qed.
