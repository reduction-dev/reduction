(* C03, byte level: the stored-key codecs of the keyed state store, for any key-group function.  The order on
   (namespace, entry key) is [bcmp] of [ekey_enc], the length as ONE element, so it needs no guard; the 256 guard enters
   only with the one-byte length of the stored key, in [enc_db_order]. *)
From Coq Require Import ZifyN ZifyNat ZifyBool.
From RV Require Import Base.Lists Model.StateStore.
From RV Require Model.TimerStore.
Open Scope N_scope.

Lemma is_prefix_app_inv p q b : is_prefix (p ++ q) b = true -> is_prefix p b = true.
Proof.
  rewrite !is_prefix_spec. intros [s ->]. exists (q ++ s). now rewrite app_assoc.
Qed.

Lemma is_prefix_same_len_app p q a b :
  length p = length q -> is_prefix (p ++ a) (q ++ b) = is_prefix p q && is_prefix a b.
Proof.
  revert q; induction p as [|x p IH]; intros [|y q] Hl; cbn in *; try discriminate; [reflexivity|].
  rewrite IH by lia. now rewrite andb_assoc.
Qed.

Lemma is_prefix_same_len_eq p q : length p = length q -> is_prefix p q = true -> p = q.
Proof.
  intros Hl [[|x s] ->]%is_prefix_spec; [now rewrite app_nil_r|]. rewrite app_length in Hl. cbn in Hl. lia.
Qed.

Lemma is_prefix_refl p : is_prefix p p = true.
Proof. apply Bytes.is_prefix_refl. Qed.

Lemma be16_length x : length (be16 x) = 2%nat.
Proof. reflexivity. Qed.
Lemma be32_length x : length (be32 x) = 4%nat.
Proof. reflexivity. Qed.
Lemma be64_length x : length (be64 x) = 8%nat.
Proof. reflexivity. Qed.

Lemma u8_small x : x < 2 ^ 8 -> u8 x = x.
Proof. apply wrap_small. Qed.

Lemma blen_app a b : blen (a ++ b) = blen a + blen b.
Proof. unfold blen. rewrite app_length. lia. Qed.

Definition hdr (kgf : bytes -> N) (k : bytes) : bytes := be16 (kgf k) ++ [0] ++ be32 (u32 (blen k)).

Lemma hdr_length kgf k : length (hdr kgf k) = 7%nat.
Proof. reflexivity. Qed.

Lemma enc_subject_eq kgf k : enc_subject kgf k = hdr kgf k ++ k.
Proof. unfold enc_subject, hdr. now rewrite <- !app_assoc. Qed.

Lemma enc_db_eq kgf k ns e : enc_db kgf k ns e = enc_subject kgf k ++ u8 (blen ns) :: ns ++ e.
Proof. unfold enc_db, enc_subject. now rewrite <- !app_assoc. Qed.

(* the parametrised encoders are the encoders of Model/KeyCodec.v *)
Lemma enc_db_is_encode_db_key count k ns e : enc_db (key_group count) k ns e = encode_db_key count k ns e.
Proof. reflexivity. Qed.
Lemma enc_subject_is_encode_subject_key count k : enc_subject (key_group count) k = encode_subject_key count k.
Proof. reflexivity. Qed.
Lemma enc_timer_is_encode_timer_key count k t : enc_timer (key_group count) k t = encode_timer_key count k t.
Proof. reflexivity. Qed.
(* ... and the timer keys and the scanned prefix of a key-group queue of Model/TimerStore.v (C10) *)
Lemma enc_timer_is_timer_key kgf k t : enc_timer kgf k t = TimerStore.timer_key (kgf k) t k.
Proof. reflexivity. Qed.
Lemma timer_scan_prefix_is_k_prefix kg mx : timer_scan_prefix kg = TimerStore.k_prefix (TimerStore.kgq_new kg mx).
Proof. reflexivity. Qed.

(* the layout of encodeDBKey:
   <key group: 2><schema byte><length of the subject: 4><subject><length of the namespace: 1><namespace><entry key> *)
Lemma decode_key_layout (h l k ns e : bytes) (n : N) :
  length h = 3%nat -> length l = 4%nat -> be_decode l = blen k -> N.to_nat n = length ns ->
  decode_key (h ++ l ++ k ++ n :: ns ++ e) = Some (ns, e).
Proof.
  intros Hh Hl Hk Hn. unfold decode_key. rewrite (skipn_app_exact h) by auto.
  replace (length _ <? 4)%nat with false by (symmetry; apply Nat.ltb_ge; rewrite app_length; lia).
  rewrite (firstn_app_exact l), (skipn_app_exact l), Hk, (skipn_app_exact k), Hn by (unfold blen; lia).
  replace (length _ <? length ns)%nat with false by (symmetry; apply Nat.ltb_ge; rewrite app_length; lia).
  now rewrite firstn_app_exact, skipn_app_exact.
Qed.

Theorem decode_encode_g kgf k ns e :
  blen ns < 256 -> blen k < 2 ^ 32 -> decode_key (enc_db kgf k ns e) = Some (ns, e).
Proof.
  intros Hns Hk. apply (decode_key_layout (be16 (kgf k) ++ [0]) (be32 (u32 (blen k))) k ns e (u8 (blen ns))); try reflexivity.
  - now rewrite u32_small, be32_decode.
  - rewrite u8_small by exact Hns. apply Nat2N.id.
Qed.

(* the one-byte namespace length wraps: a 256-byte namespace is read back as the empty namespace *)
Lemma ns_len_wrap_refuted_g kgf :
  exists k ns e, blen ns = 256 /\ decode_key (enc_db kgf k ns e) <> Some (ns, e).
Proof.
  exists [], (repeat 0 256), []. split; [reflexivity|].
  intros H. vm_compute in H. discriminate.
Qed.

Theorem subject_prefix_free_g kgf k k' ns e :
  blen k < 2 ^ 32 -> blen k' < 2 ^ 32 ->
  (is_prefix (enc_subject kgf k) (enc_db kgf k' ns e) = true <-> k = k').
Proof.
  intros Hk Hk'. split; [|intros <-; rewrite enc_db_eq; apply is_prefix_app].
  (* equal headers carry equal subject lengths; prefix at equal length is equality *)
  rewrite enc_db_eq, !enc_subject_eq, <- app_assoc, is_prefix_same_len_app by reflexivity.
  intros [H1 H2]%andb_true_iff. apply is_prefix_same_len_eq in H1; [|reflexivity].
  apply (f_equal (skipn 3)) in H1. cbn [skipn hdr be16 app] in H1. rewrite !u32_small in H1 by assumption.
  apply (decode_inj be32 (fun x => x < 2 ^ 32) be32_decode) in H1; [|assumption..].
  rewrite <- (app_nil_r k), is_prefix_same_len_app in H2 by (unfold blen in H1; lia).
  apply andb_true_iff in H2 as [H2 _]. apply is_prefix_same_len_eq; [unfold blen in H1; lia|exact H2].
Qed.

Lemma is_prefix_third_byte (a b : N) (g1 g2 : N) r1 r2 :
  a <> b -> is_prefix (be16 g1 ++ [a] ++ r1) (be16 g2 ++ [b] ++ r2) = false.
Proof.
  intros Hab. rewrite is_prefix_same_len_app by reflexivity.
  cbn [app is_prefix]. apply N.eqb_neq in Hab. rewrite Hab. cbn. apply andb_false_r.
Qed.

(* no timer key lies under a subject-key prefix (so GetState never sees one; these are the keys C10's store writes and
   the prefixes it scans: [enc_timer_is_timer_key], [timer_scan_prefix_is_k_prefix]) ... *)
Theorem timer_not_under_subject kgf k k' t : is_prefix (enc_subject kgf k) (enc_timer kgf k' t) = false.
Proof. unfold enc_subject, enc_timer. apply is_prefix_third_byte. discriminate. Qed.

(* ... and no state key lies under a timer scan prefix (so the timer queue never loads one) *)
Theorem state_not_under_timer_scan kgf g k ns e : is_prefix (timer_scan_prefix g) (enc_db kgf k ns e) = false.
Proof.
  unfold timer_scan_prefix, enc_db. rewrite <- (app_nil_r [1]). apply (is_prefix_third_byte 1 0). discriminate.
Qed.

Lemma enc_timer_ne_enc_db kgf k t k' ns e : enc_timer kgf k t <> enc_db kgf k' ns e.
Proof.
  intros E. pose proof (timer_not_under_subject kgf k' k t) as H.
  rewrite E, enc_db_eq, is_prefix_app in H. discriminate.
Qed.

Lemma ns_cmp_eq a b : ns_cmp a b = Eq <-> a = b.
Proof.
  unfold ns_cmp. destruct (Nat.compare (length a) (length b)) eqn:E; [apply bcmp_eq|..];
    (split; [discriminate|intros ->; now rewrite Nat.compare_refl in E]).
Qed.

Lemma ekey_cmp_eq x y : ekey_cmp x y = Eq <-> x = y.
Proof.
  destruct x as [a b], y as [c d]. unfold ekey_cmp. cbn [fst snd].
  destruct (ns_cmp a c) eqn:E; [apply ns_cmp_eq in E as <-; rewrite bcmp_eq; split; congruence|..];
    (split; [discriminate|intros [= <- <-]; now rewrite (proj2 (ns_cmp_eq a a)) in E]).
Qed.

(* The order on (namespace, entry key) - namespace by length, then by bytes, then the entry key - is the byte order of
   <length of the namespace><namespace><entry key> with the length as ONE element: a byte string is a list of numbers, so
   nothing wraps and the equation needs no guard.  Every order law of [ekey_cmp] and [ns_cmp] is thus a law of [bcmp]. *)
Definition ekey_enc (x : ekey) : bytes := blen (fst x) :: fst x ++ snd x.

Lemma ekey_cmp_enc x y : ekey_cmp x y = bcmp (ekey_enc x) (ekey_enc y).
Proof.
  destruct x as [ns e], y as [ns' e']. unfold ekey_cmp, ns_cmp, ekey_enc, blen. cbn [fst snd bcmp].
  rewrite <- Nat2N.inj_compare. destruct (Nat.compare_spec (length ns) (length ns')) as [E| |]; try reflexivity.
  now rewrite bcmp_app_len.
Qed.

Lemma ekey_gt_lt x y : ekey_cmp x y = Gt -> ekey_cmp y x = Lt.
Proof. rewrite !ekey_cmp_enc. apply bcmp_gt_lt. Qed.

Lemma ns_cmp_ekey a b : ns_cmp a b = ekey_cmp (a, []) (b, []).
Proof. unfold ekey_cmp. cbn [fst snd bcmp]. now destruct (ns_cmp a b). Qed.

Lemma ns_lt_trans a b c : ns_cmp a b = Lt -> ns_cmp b c = Lt -> ns_cmp a c = Lt.
Proof. rewrite !ns_cmp_ekey, !ekey_cmp_enc. apply bcmp_lt_trans. Qed.

Lemma enc_db_ekey kgf k ns e : blen ns < 256 -> enc_db kgf k ns e = enc_subject kgf k ++ ekey_enc (ns, e).
Proof. intros H. rewrite enc_db_eq. unfold ekey_enc. cbn [fst snd]. now rewrite u8_small. Qed.

Theorem enc_db_order kgf k ns e ns' e' :
  blen ns < 256 -> blen ns' < 256 ->
  bcmp (enc_db kgf k ns e) (enc_db kgf k ns' e') = ekey_cmp (ns, e) (ns', e').
Proof. intros H H'. now rewrite !enc_db_ekey, bcmp_app_same, ekey_cmp_enc. Qed.

Lemma enc_db_inj kgf k ns e ns' e' :
  blen ns < 256 -> blen ns' < 256 -> enc_db kgf k ns e = enc_db kgf k ns' e' -> (ns, e) = (ns', e').
Proof.
  intros H H' E. apply ekey_cmp_eq. rewrite <- (enc_db_order kgf k) by assumption. now apply bcmp_eq.
Qed.
