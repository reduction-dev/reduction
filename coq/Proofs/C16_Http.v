(* C16, httpapi reader: the checkpointed cursor always stands exactly behind the records emitted so far. *)
From Coq Require Import List NArith Bool Lia ZifyN ZifyNat ZifyBool.
From RV Require Import Model.HttpReader.
Import ListNotations.
Open Scope N_scope.

Lemma h_range_app : forall k1 k2 from, h_range from (k1 + k2) = h_range from k1 ++ h_range (from + N.of_nat k1) k2.
Proof.
  induction k1 as [|k1 IH]; intros k2 from; cbn [h_range Nat.add app].
  - replace (from + N.of_nat 0) with from by lia. reflexivity.
  - rewrite IH. replace (from + 1 + N.of_nat k1) with (from + N.of_nat (S k1)) by lia. reflexivity.
Qed.

Lemma h_range_length : forall k from, length (h_range from k) = k.
Proof. induction k; intro from; cbn [h_range length]; auto. Qed.

(* after any number of reads from cursor c0 the emitted records are the consecutive topic records from c0 and
   the cursor (= the position Checkpoint() reports) is c0 + their number; nothing beyond the topic is emitted;
   whether end of input was already seen makes no difference *)
Theorem http_cursor_matches_emitted : forall n b k e c0, c0 <= n ->
  let '(r, evs) := h_reads n b k (mkH c0 e) in
  evs = h_range c0 (length evs) /\ h_checkpoint r = c0 + N.of_nat (length evs) /\ h_checkpoint r <= n.
Proof.
  intros n b k. induction k as [|k IH]; intros e c0 Hc; cbn [h_reads].
  - cbn [length h_range h_checkpoint h_cursor]. split; [reflexivity|]. lia.
  - unfold h_read, h_serve. cbn [h_cursor h_eoi].
    set (lastp := (b =? 0) || (n <=? c0 + b)). set (stop := if lastp then n else c0 + b).
    assert (Hstop : c0 <= stop /\ stop <= n) by (unfold stop, lastp; destruct (b =? 0) eqn:E1, (n <=? c0 + b) eqn:E2; cbn [orb]; lia).
    set (m := N.to_nat (stop - c0)).
    specialize (IH (e || lastp) (c0 + N.of_nat m) ltac:(unfold m; lia)).
    destruct (h_reads n b k {| h_cursor := c0 + N.of_nat m; h_eoi := e || lastp |}) as [r2 evs2].
    destruct IH as [H1 [H2 H3]]. rewrite app_length, h_range_length. split; [|split].
    + rewrite h_range_app. f_equal. exact H1.
    + rewrite H2. lia.
    + exact H3.
Qed.
