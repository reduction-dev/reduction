(* C10: the timer key encoding <key group:2 BE><0x01><uint64(UnixNano):8 BE><subject key>: decoding inverts encoding and
   the byte order of keys of one group refines the order of their timestamps, for timestamps in [0, 2^63). *)
From RV Require Import Base.Bytes Model.TimerStore.
From Coq Require Import ZifyN ZifyNat ZifyBool.
Open Scope N_scope.

Definition bstep (acc b : N) : N := acc * 256 + b.

Lemma be_decode_acc l : forall acc, fold_left bstep l acc = acc * 256 ^ N.of_nat (length l) + fold_left bstep l 0.
Proof.
  induction l as [|x l IH]; intros acc; cbn [fold_left length].
  - cbn. lia.
  - rewrite (IH (bstep acc x)), (IH (bstep 0 x)). unfold bstep.
    rewrite Nat2N.inj_succ, N.pow_succ_r'. lia.
Qed.

Lemma be_decode_cons x l : be_decode (x :: l) = x * 256 ^ N.of_nat (length l) + be_decode l.
Proof. unfold be_decode. cbn [fold_left]. change (fun acc b : N => acc * 256 + b) with bstep. rewrite be_decode_acc. unfold bstep. lia. Qed.

Lemma be_decode_bound l : wf_bytes l -> be_decode l < 256 ^ N.of_nat (length l).
Proof.
  induction l as [|x l IH]; intros H.
  - cbn. lia.
  - inversion H as [|? ? Hx Hl]; subst. specialize (IH Hl). rewrite be_decode_cons.
    cbn [length]. rewrite Nat2N.inj_succ, N.pow_succ_r'.
    assert (x * 256 ^ N.of_nat (length l) <= 255 * 256 ^ N.of_nat (length l)) by (apply N.mul_le_mono_r; lia).
    lia.
Qed.

(* A smaller leading digit decides: the lower digit stays below one unit of the leading one. *)
Lemma digits_lt P x y a b : a < P -> x < y -> x * P + a < y * P + b.
Proof.
  intros Ha Hxy.
  assert (x * P + a < (x + 1) * P) by lia.
  assert ((x + 1) * P <= y * P) by (apply N.mul_le_mono_r; lia).
  lia.
Qed.

Lemma compare_digits P x y a b : a < P -> b < P ->
  (x * P + a ?= y * P + b) = match x ?= y with Eq => a ?= b | c => c end.
Proof.
  intros Ha Hb. destruct (N.compare_spec x y) as [->|E|E].
  - (* x = y *) destruct (N.compare_spec a b) as [->|F|F];
      [apply N.compare_refl|apply N.compare_lt_iff; lia|apply N.compare_gt_iff; lia].
  - (* x < y *) apply N.compare_lt_iff, digits_lt; assumption.
  - (* x > y *) apply N.compare_gt_iff, digits_lt; assumption.
Qed.

Lemma bcmp_be_decode a : forall b, length a = length b -> wf_bytes a -> wf_bytes b -> bcmp a b = (be_decode a ?= be_decode b).
Proof.
  induction a as [|x a IH]; intros [|y b] Hl Ha Hb; try discriminate; [reflexivity|].
  inversion Ha as [|? ? Hx Ha']; inversion Hb as [|? ? Hy Hb']; subst. injection Hl as Hl.
  cbn [bcmp]. rewrite !be_decode_cons, <- Hl, compare_digits, (IH b Hl Ha' Hb'); [reflexivity| |rewrite Hl]; apply be_decode_bound; assumption.
Qed.

Lemma be64_length x : length (be64 x) = 8%nat.
Proof. reflexivity. Qed.

Lemma be64_wf x : wf_bytes (be64 x).
Proof. unfold be64. repeat constructor; apply N.mod_lt; discriminate. Qed.

Lemma be16_wf x : wf_bytes (be16 x).
Proof. unfold be16. repeat constructor; apply N.mod_lt; discriminate. Qed.

Lemma bcmp_be64 x y : x < 2 ^ 64 -> y < 2 ^ 64 -> bcmp (be64 x) (be64 y) = (x ?= y).
Proof.
  intros Hx Hy. rewrite bcmp_be_decode by (auto using be64_wf). rewrite !be64_decode by assumption. reflexivity.
Qed.

Definition t_in (t : Z) : Prop := (0 <= t < 2 ^ 63)%Z.

Lemma time_u64_in t : t_in t -> time_u64 t = Z.to_N t /\ Z.to_N t < 2 ^ 63.
Proof.
  intros [H0 H1]. unfold time_u64. rewrite Z.mod_small by (split; [lia|]; change (2 ^ 64)%Z with (2 * 2 ^ 63)%Z; lia).
  split; [reflexivity|]. change (2 ^ 63) with (Z.to_N (2 ^ 63)). lia.
Qed.

Definition pfx (kg : N) : bytes := be16 kg ++ [1].

Lemma timer_key_shape kg t key : timer_key kg t key = pfx kg ++ be64 (time_u64 t) ++ key.
Proof. unfold timer_key, pfx. rewrite <- app_assoc. reflexivity. Qed.

Lemma timer_key_prefix kg t key : is_prefix (pfx kg) (timer_key kg t key) = true.
Proof. rewrite timer_key_shape. apply is_prefix_app. Qed.

Lemma key_ts_bytes_timer kg t key : key_ts_bytes (timer_key kg t key) = be64 (time_u64 t).
Proof. reflexivity. Qed.

Lemma key_subject_timer kg t key : key_subject (timer_key kg t key) = key.
Proof. reflexivity. Qed.

Lemma key_time_timer kg t key : t_in t -> key_time (timer_key kg t key) = t.
Proof.
  intros Ht. unfold key_time. rewrite key_ts_bytes_timer.
  destruct (time_u64_in t Ht) as [-> Hb].
  rewrite be64_decode by (change (2 ^ 64) with (2 * 2 ^ 63); lia).
  unfold u64_time. destruct (Z.to_N t <? 2 ^ 63) eqn:E; [|lia]. destruct Ht. lia.
Qed.

Lemma key_kg_timer kg t key : kg < 65536 -> key_kg (timer_key kg t key) = kg.
Proof. intros H. unfold key_kg. change (firstn 2 (timer_key kg t key)) with (be16 kg). apply be16_decode. exact H. Qed.

Lemma is_prefix_pfx kg kg' t key : kg < 65536 -> kg' < 65536 -> is_prefix (pfx kg) (timer_key kg' t key) = (kg =? kg').
Proof.
  intros H H'. destruct (N.eqb_spec kg kg') as [->|Hne]; [apply timer_key_prefix|].
  destruct (is_prefix (pfx kg) (timer_key kg' t key)) eqn:E; [|reflexivity].
  exfalso. apply Hne. apply (decode_inj be16 (fun x => x < 65536) be16_decode); auto.
  unfold pfx, timer_key, be16 in *. cbn [app is_prefix] in E.
  apply andb_true_iff in E as [E1%N.eqb_eq E]. apply andb_true_iff in E as [E2%N.eqb_eq _]. congruence.
Qed.

Lemma bcmp_time t1 t2 : t_in t1 -> t_in t2 -> bcmp (be64 (time_u64 t1)) (be64 (time_u64 t2)) = (t1 ?= t2)%Z.
Proof.
  intros H1 H2. destruct (time_u64_in t1 H1) as [-> B1]. destruct (time_u64_in t2 H2) as [-> B2].
  rewrite bcmp_be64 by (change (2 ^ 64) with (2 * 2 ^ 63); lia). apply Z2N.inj_compare; [apply H1|apply H2].
Qed.

Lemma ts_bytes_lt kg1 t1 key1 kg2 t2 key2 : t_in t1 -> t_in t2 ->
  bltb (key_ts_bytes (timer_key kg1 t1 key1)) (key_ts_bytes (timer_key kg2 t2 key2)) = (t1 <? t2)%Z.
Proof. intros H1 H2. rewrite !key_ts_bytes_timer. unfold bltb. rewrite bcmp_time by assumption. reflexivity. Qed.

Lemma same_group_order kg t1 key1 t2 key2 : t_in t1 -> t_in t2 ->
  bcmp (timer_key kg t1 key1) (timer_key kg t2 key2) <> Gt -> (t1 <= t2)%Z.
Proof.
  intros H1 H2. rewrite !timer_key_shape, bcmp_app_same, bcmp_app_len, bcmp_time by auto.
  unfold Z.le. intros C E. rewrite E in C. congruence.
Qed.

Lemma timer_key_inj kg t1 key1 t2 key2 : t_in t1 -> t_in t2 ->
  timer_key kg t1 key1 = timer_key kg t2 key2 -> t1 = t2 /\ key1 = key2.
Proof.
  intros H1 H2 E. split.
  - rewrite <- (key_time_timer kg t1 key1 H1), <- (key_time_timer kg t2 key2 H2), E. reflexivity.
  - rewrite <- (key_subject_timer kg t1 key1), <- (key_subject_timer kg t2 key2), E. reflexivity.
Qed.
