(* C02: the sender sets as lists, and what a handler call (flush) does to the log, the batch and the applied set of the
   event-loop-owned data, independent of sizes, tokens and timers. *)
From RV Require Import Model.Align.
From RV Require Import Base.Lists.
From Coq Require Import List NArith Bool Arith Lia.
Import ListNotations.
Open Scope N_scope.

Lemma in_remove_nat s s' l : In s' (remove_nat s l) <-> In s' l /\ s' <> s.
Proof.
  induction l as [|y l IH]; cbn; [tauto|].
  destruct (Nat.eqb_spec s y) as [->|E]; cbn; rewrite IH; intuition congruence.
Qed.

Lemma mem_nat_In s l : mem_nat s l = true <-> In s l.
Proof.
  induction l as [|y l IH]; cbn; [split; [discriminate|tauto]|].
  rewrite orb_true_iff, IH, Nat.eqb_eq. split; intros [H|H]; auto.
Qed.

(* a field onto which apply_item pushes an entry (applied, log) *)
Lemma fold_apply_push {A} (g : dat -> list A) (h : bitem -> A) : (forall x b, g (apply_item x b) = h b :: g x) ->
  forall l x, g (fold_left apply_item l x) = rev (map h l) ++ g x.
Proof.
  intros G l. induction l as [|b l IH]; intros x; cbn; [reflexivity|]. rewrite IH, G, <- app_assoc. reflexivity.
Qed.

Lemma flush_cases tok x :
  flush tok x = x \/
  (batch (flush tok x) = [] /\ log (flush tok x) = rev (map LApp (batch x)) ++ LCall (wm x) :: log x
   /\ applied (flush tok x) = rev (batch x) ++ applied x).
Proof.
  unfold flush. destruct (batch x) as [|b l] eqn:E; auto.
  destruct (match tok with None => true | Some t => t =? btoken x end); auto.
  right. cbn [set_fault batch log applied]. rewrite (fold_left_keeps apply_item batch), (fold_apply_push log LApp), (fold_apply_push applied (fun b => b)), map_id by reflexivity.
  cbn. auto.
Qed.

Lemma flush_none_batch x : batch (flush None x) = [].
Proof.
  unfold flush. destruct (batch x) as [|b l] eqn:E; auto. cbn [set_fault batch]. now rewrite (fold_left_keeps apply_item batch).
Qed.

Lemma active_flush tok y : active (flush tok y) = active y.
Proof.
  unfold flush. destruct (batch y); auto.
  destruct (match tok with None => true | Some t => t =? btoken y end); auto.
  cbn [set_fault active]. now rewrite (fold_left_keeps apply_item active).
Qed.

(* a handler call logs its marker and applications only: no checkpoint record *)
Lemma flush_no_ckpt tok x cid snap : In (LCkpt cid snap) (log (flush tok x)) -> In (LCkpt cid snap) (log x).
Proof.
  intros Hin. destruct (flush_cases tok x) as [E|(_ & E & _)]; rewrite E in Hin; [exact Hin|].
  apply in_app_or in Hin. destruct Hin as [Hin|[Hin|Hin]]; [|discriminate|exact Hin].
  apply in_rev, in_map_iff in Hin. destruct Hin as (? & ? & _). discriminate.
Qed.
