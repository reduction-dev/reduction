(* rescale_exact_clean (here: clean_restores_agree, rescale_exact_clean_handles).  For CLEAN inputs the database a new
   operator restores from its handles (in any order) reads, for every prefix of keys it owns, exactly what the old
   owner's own restore of its checkpoint reads.
   The read path of Model/Rescale.v is connected to the entry-level theory of the LSM (Model/LsmBase.v,
   Proofs/C07_Sorted.v, Proofs/C18_Layout.v): entries are translated, the per-key merge is characterised by [Mx] ("sorted,
   and per key the greatest sequence number of the candidate set"), a lookup in it by [newest], uniqueness of versions
   comes from [LLInv].
   Model/Rescale.v has records [entry] and [table] of its own (the value is a number, a table carries its key range) and
   its own [merge_into] and [range_contains_prefix]; LsmBase is therefore not imported, its names are written [L.x].
   Reading order: the theorem is proved in Section Clean under the hypothesis that the level search misses no table;
   Proofs/C06_Search.v, which needs [level_ok], [tcover], [startle] and [rcp_in] of this file to state and prove that,
   comes after this file, discharges the hypothesis and concludes. *)
From Coq Require Import List NArith Lia Bool Sorting.Permutation Sorting.Sorted.
From Coq Require Import ZifyN ZifyNat ZifyBool.
From RV Require Model.LsmBase.
From RV Require Import Proofs.C07_Sorted Proofs.C18_Layout.
From RV Require Import Base.Lists.
From RV Require Import Model.Rescale Proofs.C06_Rescale.
Import ListNotations.
Open Scope N_scope.

Module L := RV.Model.LsmBase.

Definition tr (e : entry) : L.entry := L.mkE (e_key e) (e_seq e) (e_del e) [e_val e].
Lemma tr_inj a b : tr a = tr b -> a = b.
Proof. destruct a, b. unfold tr. cbn. intros H. inversion H. reflexivity. Qed.

(* candidate sets of a merge are sets of LsmBase entries: [img P] = the translations of the entries in P, [Sof l] =
   those of the elements of l *)
Definition img (P : entry -> Prop) : L.entry -> Prop := fun x => exists e, x = tr e /\ P e.
Lemma img_ext (P Q : entry -> Prop) x : (forall e, x = tr e -> (P e <-> Q e)) -> (img P x <-> img Q x).
Proof. intros H. split; intros (e & E & He); exists e; (split; [exact E|apply (H e E), He]). Qed.

Definition Sof (l : list entry) : L.entry -> Prop := img (fun e => In e l).

Lemma Sof_cons e l x : Sof (e :: l) x <-> x = tr e \/ Sof l x.
Proof.
  split.
  - intros (y & -> & [<-|Hy]); [left; reflexivity|right; exists y; auto].
  - intros [->|(y & -> & Hy)]; [exists e|exists y]; cbn [In]; auto.
Qed.

Lemma uniq_sub (S S' : L.entry -> Prop) : (forall x, S' x -> S x) -> uniq S -> uniq S'.
Proof. intros H Hu a b Ha Hb. apply Hu; auto. Qed.

(* the per-key merge of Model/Rescale.v is LsmBase's [ins] as long as versions are unique *)
Lemma ins_entry_tr e acc :
  (forall x, In x acc -> e_key x = e_key e -> e_seq x = e_seq e -> x = e) ->
  map tr (ins_entry e acc) = L.ins (tr e) (map tr acc).
Proof.
  induction acc as [|x acc IH]; intros Hu; cbn [ins_entry map L.ins tr L.ekey]; [reflexivity|].
  destruct (bcmp (e_key e) (e_key x)) eqn:E; cbn [map].
  - apply bcmp_eq in E. f_equal. unfold L.newer. cbn [tr L.eseq].
    destruct (N.ltb_spec (e_seq x) (e_seq e)), (N.ltb_spec (e_seq e) (e_seq x)); try reflexivity; try lia.
    (* a tie: ins_entry keeps the old entry, newer the new one; they are the same version *)
    rewrite (Hu x); auto; [left; reflexivity|lia].
  - reflexivity.
  - f_equal. apply IH. intros y Hy. apply Hu. right; exact Hy.
Qed.

Lemma fold_ins_Mx l : uniq (Sof l) -> Mx (Sof l) (map tr (fold_right ins_entry [] l)).
Proof.
  induction l as [|e l IH]; intros Hu; cbn [fold_right].
  - eapply Mx_ext; [|exact Mx_nil]. intros x. split; [intros []|intros (e & _ & [])].
  - assert (HM := IH (uniq_sub _ _ (fun x H => proj2 (Sof_cons e l x) (or_intror H)) Hu)).
    rewrite ins_entry_tr.
    + eapply Mx_ext; [|apply Mx_ins, HM]. intros x. symmetry. apply Sof_cons.
    + intros x Hx Hk Hs. apply tr_inj, Hu; [apply Sof_cons; right; apply HM, in_map, Hx|apply Sof_cons; left; reflexivity|exact Hk|exact Hs].
Qed.

Lemma newest_Mx es : uniq (Sof es) -> Mx (Sof es) (map tr (newest_by_key es)).
Proof.
  pose proof (fun x => img_ext _ _ x (fun e _ => iff_sym (in_rev es e))) as E.
  intros Hu. unfold newest_by_key. rewrite <- fold_left_rev_right.
  apply (Mx_ext _ _ _ E), fold_ins_Mx. eapply uniq_sub; [|exact Hu]. intros x. apply E.
Qed.

(* merged views are compared up to sequence numbers (a replay renumbers the entries it writes): forget them and use
   extensionality of sorted tables *)
Definition unseq (x : L.entry) : L.entry := L.mkE (L.ekey x) 0 (L.edel x) (L.eval x).

Lemma unseq_ext a b : sorted a -> sorted b ->
  (forall k, option_map unseq (L.tbl_get k a) = option_map unseq (L.tbl_get k b)) -> map unseq a = map unseq b.
Proof. exact (KeySorted.asc_map_ext L.ekey L.ekey unseq (fun _ => eq_refl) a b). Qed.

Lemma map_filter_comm {A B} (f : A -> B) (g : B -> bool) l : map f (filter (fun x => g (f x)) l) = filter g (map f l).
Proof. induction l as [|x l IH]; [reflexivity|]. cbn [filter map]. destruct (g (f x)); cbn [map]; rewrite IH; reflexivity. Qed.

Lemma scan_of_unseq l : map (fun e => (e_key e, e_val e)) (filter (fun e => negb (e_del e)) l) =
  map (fun x => (L.ekey x, hd 0 (L.eval x))) (filter (fun x => negb (L.edel x)) (map (fun e => unseq (tr e)) l)).
Proof. rewrite <- map_filter_comm, map_map. reflexivity. Qed.

(* the memtable after a replay: newest first, strictly decreasing sequence numbers *)
Definition decr (l : list entry) : Prop := StronglySorted (fun a b => e_seq b < e_seq a) l.

Lemma restore_decr sorted own docs st : restore sorted own docs = Some st -> decr (s_mem st).
Proof.
  destruct docs as [|d rest]; cbn [restore]; [intros [= <-]; constructor|].
  destruct (merge_into d rest) as [c|]; [|discriminate]. intros H.
  apply (replay_spec _ _ _ _ H); cbn [s_mem]; [constructor|intros e []].
Qed.

Lemma decr_same_seq l a b : decr l -> In a l -> In b l -> e_seq a = e_seq b -> a = b.
Proof.
  induction 1 as [|x l Hs IH Hf]; intros Ha Hb Heq; [destruct Ha|].
  rewrite Forall_forall in Hf. destruct Ha as [<-|Ha], Hb as [<-|Hb]; auto.
  - specialize (Hf _ Hb). lia.
  - specialize (Hf _ Ha). lia.
Qed.

(* "has key k", on entries; [kq] below is the same test on payloads *)
Definition keyb (k : bytes) (e : entry) : bool := beqb (e_key e) k.

Lemma decr_newest m k : decr m ->
  newest (Sof m) k (match filter (keyb k) m with e0 :: _ => Some (tr e0) | [] => None end).
Proof.
  induction 1 as [|x l Hs IH Hf]; cbn [filter]; [intros y (e & _ & [])|]. rewrite Forall_forall in Hf.
  destruct (keyb k x) eqn:Fx.
  - split; [exists x; split; [reflexivity|left; reflexivity]|]. split; [apply beqb_eq, Fx|].
    intros y (e & -> & He) _. change (e_seq e <= e_seq x). destruct He as [<-|He]; [lia|specialize (Hf e He); lia].
  - eapply newest_ext; [|exact IH]. intros y Hy. rewrite Sof_cons. split; [auto|intros [->|H]; [exfalso|exact H]].
    change (e_key x = k) in Hy. unfold keyb in Fx. rewrite Hy, beqb_refl in Fx. discriminate.
Qed.

(* the candidates of a read under prefix [p]: a memtable [m] and the entries [Tb] of tables *)
Definition Scand (p : bytes) (m : list entry) (Tb : entry -> Prop) : L.entry -> Prop :=
  img (fun e => is_prefix p (e_key e) = true /\ (In e m \/ Tb e)).

(* the memtable's newest entry of a key wins over the tables' *)
Lemma Scand_newest p m (Tb : entry -> Prop) k o :
  decr m -> (forall e e', In e m -> Tb e' -> e_seq e' < e_seq e) -> is_prefix p k = true -> newest (img Tb) k o ->
  newest (Scand p m Tb) k (match filter (keyb k) m with e0 :: _ => Some (tr e0) | [] => o end).
Proof.
  intros Hd Habove Hp Ho. apply (newest_ext (fun x => Sof m x \/ img Tb x)).
  - intros x <-. split.
    + intros [(e & -> & H)|(e & -> & H)]; exists e; auto.
    + intros (e & -> & _ & [H|H]); [left|right]; exists e; auto.
  - assert (Hord : forall x y, Sof m x -> img Tb y -> L.ekey x = L.ekey y -> L.eseq y < L.eseq x).
    { intros x y (e & -> & He) (e' & -> & He') _. exact (Habove e e' He He'). }
    pose proof (newest_first _ _ k _ _ (decr_newest m k Hd) Ho Hord) as H. destruct (filter (keyb k) m); exact H.
Qed.

(* [key2wf k]: k has its two key-group bytes and they are bytes; [kg2 k]: the key group they encode *)
Definition key2wf (k : bytes) : Prop := match k with b0 :: b1 :: _ => b0 < 256 /\ b1 < 256 | _ => False end.
Definition kg2 (k : bytes) : option N := match k with b0 :: b1 :: _ => Some (Mach.be_decode [b0; b1]) | _ => None end.

Lemma key_in_kg r k : key_in r k = true -> exists g, kg2 k = Some g /\ includes_kg r g = true.
Proof.
  unfold key_in, owns_key, kg2. destruct k as [|b0 [|b1 k]]; try discriminate. intros H. eexists. split; [reflexivity|].
  destruct (includes_kg r _); [reflexivity|discriminate].
Qed.

(* keys: the key group is the big-endian value of the first two bytes; byte order follows key-group order *)
Lemma kg_lt_klt a b ga gb : key2wf a -> key2wf b -> kg2 a = Some ga -> kg2 b = Some gb -> ga < gb -> klt a b.
Proof.
  destruct a as [|a0 [|a1 a]]; [intros []|intros []|]. destruct b as [|b0 [|b1 b]]; [intros _ []|intros _ []|].
  unfold key2wf, kg2, Mach.be_decode. cbn [fold_left]. intros [A0 A1] [B0 B1] [= <-] [= <-] Hlt.
  unfold klt. cbn [bcmp]. destruct (N.compare_spec a0 b0) as [E|E|E]; [|reflexivity|lia].
  subst. destruct (N.compare_spec a1 b1) as [E|E|E]; [lia|reflexivity|lia].
Qed.

(* two ranges without a common key group cannot both own a key *)
Definition rdisj (r r' : kgrange) : Prop := forall kg, ~ (includes_kg r kg = true /\ includes_kg r' kg = true).
Lemma rdisj_sym r r' : rdisj r r' -> rdisj r' r.
Proof. intros H kg [A B]. apply (H kg). split; assumption. Qed.
Lemma key_in_disj r r' k : rdisj r r' -> key_in r k = true -> key_in r' k = true -> False.
Proof.
  intros H A B. apply key_in_kg in A as (g & Eg & Ig), B as (g' & Eg' & Ig'). apply (H g). split; [exact Ig|congruence].
Qed.

Fixpoint pairdisj (rs : list kgrange) : Prop :=
  match rs with [] => True | r :: rest => (forall r', In r' rest -> rdisj r r') /\ pairdisj rest end.

Lemma pairdisj_in (hs : list (kgrange * ckdoc)) x y :
  pairdisj (map fst hs) -> In x hs -> In y hs -> x = y \/ rdisj (fst x) (fst y).
Proof.
  induction hs as [|a hs IH]; [intros _ []|]. cbn [map pairdisj]. intros [H1 H2] [<-|Hx] [<-|Hy].
  - left; reflexivity.
  - right. apply H1. apply in_map. exact Hy.
  - right. apply rdisj_sym. apply H1. apply in_map. exact Hx.
  - apply IH; assumption.
Qed.

Lemma pairdisj_filter {A} (f : kgrange * A -> bool) l : pairdisj (map fst l) -> pairdisj (map fst (filter f l)).
Proof.
  induction l as [|a l IH]; [auto|]. cbn [map pairdisj filter]. intros [H1 H2]. destruct (f a); [|exact (IH H2)].
  split; [|exact (IH H2)]. intros r' Hr'. apply H1. apply in_map_iff in Hr' as (y & <- & Hy). apply filter_In in Hy as [Hy _]. exact (in_map fst _ _ Hy).
Qed.

Definition wal_entries (d : ckdoc) : list entry := concat (d_wals d).

Lemma doc_clean_tables r d t e : doc_clean (r, d) = true -> In t (tables_of d) -> In e (t_entries t) -> key_in r (e_key e) = true.
Proof.
  unfold doc_clean. cbn [fst snd]. intros H Ht He. apply andb_true_iff in H as [H _].
  rewrite forallb_forall in H. specialize (H t Ht). unfold table_clean in H.
  apply andb_true_iff in H as [_ H]. rewrite forallb_forall in H. exact (H e He).
Qed.
Lemma doc_clean_wal r d e : doc_clean (r, d) = true -> In e (wal_entries d) -> key_in r (e_key e) = true.
Proof.
  unfold doc_clean. cbn [fst snd]. intros H He. apply andb_true_iff in H as [_ H]. rewrite forallb_forall in H. exact (H e He).
Qed.

Definition tcover (t : table) : Prop :=
  forall e, In e (t_entries t) -> kle (t_start t) (e_key e) /\ kle (e_key e) (t_end t).

Lemma rcp_in p t e : tcover t -> In e (t_entries t) -> is_prefix p (e_key e) = true -> range_contains_prefix t p = true.
Proof. intros Hc He. exact (prefix_in_range p _ _ _ (proj1 (Hc e He)) (proj2 (Hc e He))). Qed.

Lemma take_while_in {A} (f : A -> bool) l x : In x (take_while f l) -> In x l.
Proof. induction l as [|y l IH]; cbn; [auto|]. destruct (f y); [intros [H|H]; auto|intros []]. Qed.
Lemma skipn_in {A} n (l : list A) x : In x (skipn n l) -> In x l.
Proof. rewrite <- (firstn_skipn n l) at 2. intros H. apply in_or_app. right; exact H. Qed.
Lemma select_level_sound lvl p t : In t (select_level lvl p) -> In t lvl.
Proof.
  unfold select_level. destruct (Nat.ltb _ _); [|intros []].
  destruct (range_prefix_compare _ p); try (intros []). intros H. apply take_while_in in H. apply skipn_in in H. exact H.
Qed.

(* levels >= 1: a chain of disjoint ranges, every table covering its entries.  [startle t]: start key <= end key *)
Definition startle (t : table) : Prop := kle (t_start t) (t_end t).
Definition level_ok (lvl : list table) : Prop :=
  Forall tcover lvl /\ Forall startle lvl /\ StronglySorted (fun a b => klt (t_end a) (t_start b)) lvl.
Definition levels_ok (levels : list (list table)) : Prop :=
  Forall tcover (hd [] levels) /\ Forall level_ok (tl levels).

Definition in_tables (levels : list (list table)) (e : entry) : Prop :=
  exists t, In t (concat levels) /\ In e (t_entries t).

(* [sep2 a b]: the key ranges of a and b do not meet, in either order.  [chain l]: each table ends before the next
   starts (the third part of [level_ok], by unfolding); it hides the [chain] of C06_Assign.v from here on. *)
Definition sep2 (a b : table) : Prop := klt (t_end a) (t_start b) \/ klt (t_end b) (t_start a).
Definition chain (l : list table) : Prop := StronglySorted (fun a b => klt (t_end a) (t_start b)) l.
Lemma sep2_sym a b : sep2 a b -> sep2 b a.
Proof. intros [H|H]; [right|left]; exact H. Qed.

Lemma sep2_le a b : startle b -> sep2 a b -> kle (t_start a) (t_start b) -> klt (t_end a) (t_start b).
Proof.
  intros Hb [H|H] Hab; [exact H|]. exfalso. exact (klt_irrefl _ (klt_le_trans _ _ _ (klt_le_trans _ _ _ H Hab) Hb)).
Qed.

Lemma ins_table_chain t l : startle t -> Forall startle l -> chain l -> (forall x, In x l -> sep2 t x) -> chain (ins_table t l).
Proof.
  intros Ht Hl Hc. induction Hc as [|x l Hc IH Hx]; intros Hs; cbn [ins_table].
  - repeat constructor.
  - apply Forall_cons_iff in Hl as [Hsx Hl]. rewrite Forall_forall in Hx.
    destruct (bleb (t_start t) (t_start x)) eqn:B.
    + apply bleb_true in B. constructor; [constructor; [exact Hc|apply Forall_forall; exact Hx]|].
      apply Forall_forall. intros y Hy. apply sep2_le; [|apply Hs; exact Hy|]; destruct Hy as [<-|Hy]; try assumption.
      * rewrite Forall_forall in Hl. apply Hl, Hy.
      * (* start t <= start x <= end x < start y *)
        right. exact (kle_lt_trans _ _ _ B (kle_lt_trans _ _ _ Hsx (Hx y Hy))).
    + apply bleb_false in B. constructor; [apply IH; [exact Hl|intros y Hy; apply Hs; right; exact Hy]|].
      apply Forall_forall. intros y Hy. apply (Permutation_in _ (insert_by_perm _ t l)) in Hy as [<-|Hy]; [|apply Hx; exact Hy].
      apply sep2_le; [exact Ht|apply sep2_sym, Hs; left; reflexivity|right; exact B].
Qed.

Lemma sort_level_chain l : Forall startle l -> StronglySorted sep2 l -> chain (sort_level l).
Proof.
  induction l as [|t l IH]; intros Hs Hp; [constructor|]. change (sort_level (t :: l)) with (ins_table t (sort_level l)).
  apply Forall_cons_iff in Hs as [Ht Hl]. apply StronglySorted_inv in Hp as [Hp2 Hp1]. rewrite Forall_forall in Hp1.
  apply ins_table_chain; [exact Ht|exact (Permutation_Forall (Permutation_sym (sort_level_perm l)) Hl)|apply IH; assumption|].
  intros x Hx. apply Hp1, (Permutation_in _ (sort_level_perm l)), Hx.
Qed.

(* two tables of clean documents with disjoint ranges have separated key ranges.  [twf2 r t]: both bounds of t are
   well-formed keys of range r *)
Definition twf2 (r : kgrange) (t : table) : Prop :=
  key2wf (t_start t) /\ key2wf (t_end t) /\ key_in r (t_start t) = true /\ key_in r (t_end t) = true.

Lemma clean_sep2 r r' t t' : rdisj r r' -> twf2 r t -> twf2 r' t' -> sep2 t t'.
Proof.
  intros Hd (Ws & We & Ks & Ke) (Ws' & We' & Ks' & Ke').
  apply key_in_kg in Ks as (gs & Egs & Igs), Ke as (ge & Ege & Ige), Ks' as (gs' & Egs' & Igs'), Ke' as (ge' & Ege' & Ige').
  destruct r as [s e], r' as [s' e']. specialize (Hd (N.max s s')). unfold includes_kg in *. cbn [fst snd] in *.
  (* two non-empty ranges without a common key group lie one after the other *)
  assert (Hor : e <= s' \/ e' <= s) by lia.
  destruct Hor as [H|H]; [left; apply (kg_lt_klt _ _ ge gs')|right; apply (kg_lt_klt _ _ ge' gs)]; auto; lia.
Qed.

Lemma zip_app_nth : forall a b l k, zip_app a b = Some l -> nth k l [] = nth k a [] ++ nth k b [].
Proof.
  induction a as [|x a IH]; intros b l k H; destruct b as [|y b]; cbn [zip_app] in H; try discriminate.
  - inversion H; subst. destruct k; reflexivity.
  - inversion H; subst. destruct k; cbn [nth]; rewrite app_nil_r; reflexivity.
  - destruct (zip_app a b) as [r|] eqn:Hr; [|discriminate]. inversion H; subst. destruct k as [|k]; cbn [nth]; [reflexivity|]. apply IH. exact Hr.
Qed.

(* level k of a document, empty beyond its last level *)
Definition lvk (k : nat) (d : ckdoc) : list table := nth k (d_levels d) [].

(* level k of the composite = the level-k lists of the documents, in handle order *)
Lemma merge_into_level : forall rest c c' k, merge_into c rest = Some c' -> lvk k c' = lvk k c ++ flat_map (lvk k) rest.
Proof.
  induction rest as [|d rest IH]; intros c c' k H; cbn [merge_into] in H.
  - inversion H; subst. cbn [flat_map]. rewrite app_nil_r. reflexivity.
  - destruct (zip_app (d_levels c) (d_levels d)) as [l|] eqn:Hz; [|discriminate].
    rewrite (IH _ _ k H). unfold lvk at 1. cbn [d_levels]. rewrite (zip_app_nth _ _ _ k Hz). cbn [flat_map]. rewrite <- app_assoc. reflexivity.
Qed.

Lemma lvk_tables k d t : In t (lvk k d) -> In t (tables_of d).
Proof.
  unfold lvk, tables_of. intros H. destruct (Nat.ltb k (length (d_levels d))) eqn:E.
  - apply Nat.ltb_lt in E. apply in_concat. exists (nth k (d_levels d) []). split; [apply nth_In; exact E|exact H].
  - apply Nat.ltb_ge in E. rewrite nth_overflow in H by exact E. destruct H.
Qed.

(* a clean, well-formed checkpoint document (r, d).  [doc_clean]: every table bound, table entry and WAL entry lies in r
   (so under a prefix of another range d contributes nothing: side_tables, wal_only).  Per table: [tcover] and [startle]
   make the level search valid; [twf2] turns disjoint key-group ranges into separated key ranges (clean_sep2);
   [e_seq e <= t_endseq t] puts every table entry below the replayed ones, which are numbered above the greatest
   t_endseq (side_above).  Last: the document's own levels >= 1 are chains (sep2_comp). *)
Definition docwf (rd : kgrange * ckdoc) : Prop :=
  doc_clean rd = true /\
  (forall t, In t (tables_of (snd rd)) -> tcover t /\ startle t /\ twf2 (fst rd) t /\ forall e, In e (t_entries t) -> e_seq e <= t_endseq t) /\
  (forall k, chain (lvk (S k) (snd rd))).

(* level k of the composite before sorting: within a document a chain, across documents separated *)
Lemma sep2_comp k (hs : list (kgrange * ckdoc)) :
  pairdisj (map fst hs) -> (forall rd, In rd hs -> docwf rd) -> StronglySorted sep2 (flat_map (fun rd => lvk (S k) (snd rd)) hs).
Proof.
  induction hs as [|rd hs IH]; intros Hd Hw; [constructor|]. cbn [flat_map map pairdisj] in *. destruct Hd as [Hd1 Hd2].
  apply StronglySorted_app. split; [|split].
  - eapply StronglySorted_impl; [|apply (Hw rd (or_introl eq_refl))]. intros a b _ _ H. left. exact H.
  - apply IH; [exact Hd2|intros x Hx; apply Hw; right; exact Hx].
  - apply Forall_forall. intros x Hx. apply Forall_forall. intros y Hy. apply in_flat_map in Hy as (rd' & Hrd' & Hy).
    apply (clean_sep2 (fst rd) (fst rd')).
    + apply Hd1. apply in_map. exact Hrd'.
    + apply (Hw rd (or_introl eq_refl)). eapply lvk_tables; exact Hx.
    + apply (Hw rd' (or_intror Hrd')). eapply lvk_tables; exact Hy.
Qed.

(* what NewLevelListFromDocument keeps: level 0 as it is, the deeper levels sorted *)
Lemma level_list_hd b L : hd [] (level_list b L) = nth 0 L [].
Proof. destruct L; reflexivity. Qed.
Lemma level_list_tl L lv : In lv (tl (level_list true L)) -> exists k, lv = sort_level (nth (S k) L []).
Proof.
  destruct L as [|l0 deeper]; cbn [level_list tl]; [intros []|]. intros H. apply in_map_iff in H as (lv0 & <- & H).
  apply In_nth with (d := []) in H as (k & _ & <-). exists k. reflexivity.
Qed.

Lemma composite_levels_ok (hs : list (kgrange * ckdoc)) d rest c :
  map snd hs = d :: rest -> merge_into d rest = Some c ->
  pairdisj (map fst hs) -> (forall rd, In rd hs -> docwf rd) ->
  levels_ok (level_list true (d_levels c)).
Proof.
  intros E Hm Hd Hw.
  assert (Hlv : forall k, lvk k c = flat_map (fun rd => lvk k (snd rd)) hs).
  { intros k. rewrite (merge_into_level _ _ _ k Hm). change (lvk k d ++ flat_map (lvk k) rest) with (flat_map (lvk k) (d :: rest)).
    rewrite <- E, !flat_map_concat_map, map_map. reflexivity. }
  assert (Hall : forall k, Forall tcover (lvk k c) /\ Forall startle (lvk k c)).
  { intros k. apply Forall_and_inv. rewrite Hlv. apply Forall_forall. intros t Ht. apply in_flat_map in Ht as (rd & Hrd & Ht).
    destruct (Hw rd Hrd) as (_ & H & _). destruct (H t (lvk_tables _ _ _ Ht)) as (A & B & _). auto. }
  split.
  - rewrite level_list_hd. apply (Hall 0%nat).
  - apply Forall_forall. intros lv H. apply level_list_tl in H as (k & ->). fold (lvk (S k) c). destruct (Hall (S k)) as [Hc Hs].
    pose proof (Permutation_sym (sort_level_perm (lvk (S k) c))) as Hperm.
    split; [exact (Permutation_Forall Hperm Hc)|]. split; [exact (Permutation_Forall Hperm Hs)|].
    apply sort_level_chain; [exact Hs|]. rewrite Hlv. apply sep2_comp; assumption.
Qed.

Lemma restore_levels sorted own d rest st : restore sorted own (d :: rest) = Some st ->
  exists c, merge_into d rest = Some c /\ s_levels st = level_list sorted (d_levels c).
Proof.
  unfold restore. destruct (merge_into d rest) as [c|]; [|discriminate]. intros H. exists c. split; [reflexivity|].
  destruct (replay_spec _ _ _ _ H) as (Hl & _). exact Hl.
Qed.

Lemma restore_levels_ok own (hs : list (kgrange * ckdoc)) st : restore true own (map snd hs) = Some st ->
  pairdisj (map fst hs) -> (forall rd, In rd hs -> docwf rd) -> levels_ok (s_levels st).
Proof.
  destruct hs as [|a l]; cbn [map]; intros H Hd Hw.
  - injection H as <-. split; repeat constructor.
  - destruct (restore_levels _ _ _ _ _ H) as (c & Hm & ->). exact (composite_levels_ok (a :: l) _ _ c eq_refl Hm Hd Hw).
Qed.

Lemma restore_table_in sorted own (hs : list (kgrange * ckdoc)) st t : restore sorted own (map snd hs) = Some st ->
  (In t (concat (s_levels st)) <-> exists rd, In rd hs /\ In t (tables_of (snd rd))).
Proof.
  intros H. destruct (restore_spec _ _ _ _ H) as (Hp & _). split.
  - intros Ht. apply (Permutation_in _ Hp), in_flat_map in Ht as (d & Hd & Ht). apply in_map_iff in Hd as (rd & <- & Hrd). eauto.
  - intros (rd & Hrd & Ht). apply (Permutation_in _ (Permutation_sym Hp)), in_flat_map. exists (snd rd). split; [apply in_map, Hrd|exact Ht].
Qed.

Lemma filter_rev' {A} (f : A -> bool) l : filter f (rev l) = rev (filter f l).
Proof.
  induction l as [|x l IH]; [reflexivity|]. cbn [rev filter]. rewrite filter_app, IH. cbn [filter].
  destruct (f x); cbn [rev]; [reflexivity|rewrite app_nil_r; reflexivity].
Qed.
Lemma concat_flat_map_wals ds : concat (flat_map d_wals ds) = flat_map wal_entries ds.
Proof. induction ds as [|d ds IH]; [reflexivity|]. cbn [flat_map]. rewrite concat_app, IH. reflexivity. Qed.
Definition kq (k : bytes) (q : bytes * bool * N) : bool := beqb (fst (fst q)) k.
Lemma payload_filter k l : map payload (filter (keyb k) l) = filter (kq k) (map payload l).
Proof. exact (map_filter_comm payload (kq k) l). Qed.


(* Under a prefix [p] of keys of old operator (rj, dj), what a restore from clean handles reads is determined by dj
   alone, whatever other handles come with it and in whatever order: any two such restores read the same. *)
Section Clean.
  (* the level search misses no table holding the prefix; discharged by C06_Search.select_complete_proved *)
  Hypothesis select_complete : forall lvl p t e,
    level_ok lvl -> In t lvl -> In e (t_entries t) -> is_prefix p (e_key e) = true -> In t (select_level lvl p).

  Lemma tables_for_prefix_iff levels p e : levels_ok levels -> is_prefix p (e_key e) = true ->
    ((exists t, In t (tables_for_prefix levels p) /\ In e (t_entries t)) <-> in_tables levels e).
  Proof.
    intros [H0 Hd] Hp. destruct levels as [|l0 deeper]; cbn [tables_for_prefix hd tl concat] in *.
    - split; intros (t & [] & _).
    - rewrite Forall_forall in H0, Hd.
      split; intros (t & Ht & He); exists t; (split; [|exact He]); apply in_app_or in Ht as [Ht|Ht]; apply in_or_app.
      + left. apply filter_In in Ht as [Ht _]. exact Ht.
      + right. apply in_flat_map in Ht as (l & Hl & Ht). apply in_concat. exists l. split; [exact Hl|]. eapply select_level_sound; exact Ht.
      + left. apply filter_In. split; [exact Ht|]. eapply rcp_in; eauto.
      + right. apply in_concat in Ht as (l & Hl & Ht). apply in_flat_map. exists l. split; [exact Hl|]. eapply select_complete; eauto.
  Qed.

  Lemma candidates_iff st p e : levels_ok (s_levels st) ->
    (In e (candidates st p) <-> is_prefix p (e_key e) = true /\ (In e (s_mem st) \/ in_tables (s_levels st) e)).
  Proof.
    intros Hok. unfold candidates. rewrite filter_In, in_app_iff, in_flat_map. split.
    - intros [H Hp]. rewrite (tables_for_prefix_iff _ p e Hok Hp) in H. auto.
    - intros [Hp H]. rewrite <- (tables_for_prefix_iff _ p e Hok Hp) in H. auto.
  Qed.

  Section Owner.
    Variables (rj : kgrange) (dj : ckdoc) (p : bytes).
    Hypothesis Hpj : forall k, is_prefix p k = true -> key_in rj k = true.
    Hypothesis Huniq : uniq (Sof (flat_map t_entries (tables_of dj))).

    Lemma wal_only k : key_in rj k = true -> forall hs : list (kgrange * ckdoc),
      pairdisj (map fst hs) -> (forall rd, In rd hs -> doc_clean rd = true) -> In (rj, dj) hs ->
      filter (keyb k) (flat_map wal_entries (map snd hs)) = filter (keyb k) (wal_entries dj).
    Proof.
      intros Hk.
      assert (Hforeign : forall r d x, rdisj rj r -> doc_clean (r, d) = true -> In x (wal_entries d) -> keyb k x = false).
      { intros r d x Hdisj Hclean Hx. destruct (keyb k x) eqn:E; [exfalso|reflexivity]. apply beqb_eq in E.
        apply (key_in_disj rj r k Hdisj Hk). rewrite <- E. exact (doc_clean_wal r d x Hclean Hx). }
      induction hs as [|[r d] hs IH]; [intros _ _ []|]. intros [Hhead Htail] Hclean [E|Hin]; cbn [map flat_map snd]; rewrite filter_app.
      - (* (rj, dj) comes first: every later document is of a disjoint range *)
        injection E as -> ->. rewrite (filter_nil _ (flat_map _ _)), app_nil_r; [reflexivity|].
        intros x Hx. apply in_flat_map in Hx as (d' & Hd' & Hx). apply in_map_iff in Hd' as ([r' d1] & <- & Hlater).
        exact (Hforeign r' d1 x (Hhead r' (in_map fst _ _ Hlater)) (Hclean _ (or_intror Hlater)) Hx).
      - (* (rj, dj) comes later: the first document is of a disjoint range *)
        rewrite (filter_nil _ (wal_entries d)); [exact (IH Htail (fun rd H => Hclean rd (or_intror H)) Hin)|].
        intros x. exact (Hforeign r d x (rdisj_sym _ _ (Hhead rj (in_map fst hs (rj, dj) Hin))) (Hclean _ (or_introl eq_refl))).
    Qed.

    (* one side of the comparison: a restore, by an owner of p, from clean handles of disjoint ranges among which (rj, dj) is *)
    Definition clean_side (hs : list (kgrange * ckdoc)) (own : kgrange) (st : dbstate) : Prop :=
      In (rj, dj) hs /\ pairdisj (map fst hs) /\ (forall rd, In rd hs -> docwf rd) /\
      (forall k, is_prefix p k = true -> key_in own k = true) /\ restore true own (map snd hs) = Some st.

    Section Side.
      Variables (hs : list (kgrange * ckdoc)) (own : kgrange) (st : dbstate).
      Hypothesis Hside : clean_side hs own st.

      Lemma side_tables e : is_prefix p (e_key e) = true ->
        (in_tables (s_levels st) e <-> In e (flat_map t_entries (tables_of dj))).
      Proof.
        destruct Hside as (Hin & Hdisj & Hw & _ & Hst).
        intros Hpe. unfold in_tables. rewrite in_flat_map. split; intros (t & Ht & He); exists t; (split; [|exact He]).
        - apply (restore_table_in _ _ _ _ _ Hst) in Ht as (rd & Hrd & Ht).
          destruct (pairdisj_in hs rd (rj, dj) Hdisj Hrd Hin) as [->|Hd]; [exact Ht|exfalso]. destruct rd as [r d].
          apply (key_in_disj r rj (e_key e) Hd); [eapply doc_clean_tables; [apply Hw, Hrd|exact Ht|exact He]|apply Hpj, Hpe].
        - apply (restore_table_in _ _ _ _ _ Hst). exists (rj, dj). auto.
      Qed.

      Lemma side_mem k : is_prefix p k = true ->
        map payload (filter (keyb k) (s_mem st)) = rev (map payload (filter (keyb k) (wal_entries dj))).
      Proof.
        destruct Hside as (Hin & Hdisj & Hw & Hown & Hst).
        intros Hk. destruct (restore_spec _ _ _ _ Hst) as (_ & Hm & _).
        rewrite payload_filter, Hm, filter_rev', <- payload_filter. f_equal. f_equal.
        rewrite filter_filter_imp, concat_flat_map_wals by (intros x Hx; apply beqb_eq in Hx; rewrite Hx; apply Hown, Hk).
        apply (wal_only k (Hpj k Hk) hs Hdisj); [intros rd Hrd; apply Hw, Hrd|exact Hin].
      Qed.

      Lemma side_above e e' : In e (s_mem st) -> in_tables (s_levels st) e' -> e_seq e' < e_seq e.
      Proof.
        destruct Hside as (_ & _ & Hw & _ & Hst).
        intros He (t & Ht & Het). destruct (restore_spec _ _ _ _ Hst) as (_ & _ & _ & Hab & _). specialize (Hab e t He Ht).
        apply (restore_table_in _ _ _ _ _ Hst) in Ht as (rd & Hrd & Ht).
        destruct (Hw rd Hrd) as (_ & H & _). destruct (H t Ht) as (_ & _ & _ & H4). specialize (H4 e' Het). lia.
      Qed.

      Lemma side_decr : decr (s_mem st).
      Proof. exact (restore_decr _ _ _ _ (proj2 (proj2 (proj2 (proj2 Hside))))). Qed.

      Lemma side_uniq : uniq (Scand p (s_mem st) (in_tables (s_levels st))).
      Proof.
        intros x y (e & -> & Hpe & He) (e' & -> & Hpe' & He') Hk Hs.
        change (e_seq e = e_seq e') in Hs. destruct He as [He|He], He' as [He'|He'].
        - f_equal. exact (decr_same_seq _ _ _ side_decr He He' Hs).
        - pose proof (side_above e e' He He'). lia.
        - pose proof (side_above e' e He' He). lia.
        - apply Huniq; [exists e|exists e'| |]; auto using (proj1 (side_tables _ Hpe)), (proj1 (side_tables _ Hpe')).
      Qed.

      Lemma side_Mx : Mx (Scand p (s_mem st) (in_tables (s_levels st))) (map tr (newest_by_key (candidates st p))).
      Proof.
        destruct Hside as (_ & Hdisj & Hw & _ & Hst).
        pose proof (restore_levels_ok _ _ _ Hst Hdisj Hw) as Hok.
        pose proof (fun x => img_ext _ _ x (fun e _ => candidates_iff st p e Hok)) as Heq.
        apply (Mx_ext _ _ _ Heq), newest_Mx. eapply uniq_sub; [|exact side_uniq]. intros x. apply Heq.
      Qed.

      Lemma side_lookup k :
        L.tbl_get k (map tr (newest_by_key (candidates st p))) =
        if is_prefix p k then
          match filter (keyb k) (s_mem st) with
          | e0 :: _ => Some (tr e0)
          | [] => L.tbl_get k (map tr (newest_by_key (flat_map t_entries (tables_of dj))))
          end
        else None.
      Proof.
        apply (newest_get _ _ k _ side_Mx side_uniq). destruct (is_prefix p k) eqn:Hk.
        2:{ intros x (e & -> & Hpe & _) E. change (e_key e = k) in E. congruence. }
        apply (Scand_newest p _ _ k _ side_decr side_above Hk).
        eapply newest_ext; [|exact (Mx_newest _ _ k (newest_Mx _ Huniq))].
        intros x Hx. apply img_ext. intros e ->. symmetry. apply side_tables. change (e_key e = k) in Hx. rewrite Hx. exact Hk.
      Qed.
    End Side.

    Theorem clean_restores_agree hs own st hs' own' st' :
      clean_side hs own st -> clean_side hs' own' st' -> scan_prefix st p = scan_prefix st' p.
    Proof.
      intros H H'. pose proof (side_Mx _ _ _ H) as HM. pose proof (side_Mx _ _ _ H') as HM'.
      unfold scan_prefix. rewrite !scan_of_unseq, <- !map_map with (f := tr) (g := unseq). do 2 f_equal.
      apply unseq_ext; [apply HM|apply HM'|]. intros k.
      rewrite (side_lookup _ _ _ H k), (side_lookup _ _ _ H' k). destruct (is_prefix p k) eqn:Hpk; [|reflexivity].
      pose proof (side_mem _ _ _ H k Hpk) as Hmem. rewrite <- (side_mem _ _ _ H' k Hpk) in Hmem.
      destruct (filter (keyb k) (s_mem st)) as [|e0 r], (filter (keyb k) (s_mem st')) as [|e0' r']; try discriminate Hmem; [reflexivity|].
      injection Hmem as Hk Hdel Hv _. unfold unseq, tr. cbn. congruence.
    Qed.
  End Owner.

  (* uniqueness of versions in the old owner's tables comes from the layout invariant [LLInv] of C18_Layout.v, stated of
     the old owner's level list translated entry by entry, [trl d] *)
  Definition trl (d : ckdoc) : L.levels := map (map (fun t => map tr (t_entries t))) (d_levels d).
  Lemma uniq_from_LLInv d : LLInv (trl d) -> uniq (Sof (flat_map t_entries (tables_of d))).
  Proof.
    intros Hv. eapply uniq_sub; [|apply (LLInv_uniq _ Hv)]. intros x (e & -> & He).
    apply in_flat_map in He as (t & Ht & He). unfold tables_of in Ht. apply in_concat in Ht as (l & Hl & Ht).
    exists (map (fun t => map tr (t_entries t)) l), (map tr (t_entries t)). split; [|split].
    - unfold trl. apply in_map. exact Hl.
    - apply in_map with (f := fun t => map tr (t_entries t)). exact Ht.
    - apply in_map. exact He.
  Qed.

  Theorem rescale_exact_clean_handles : forall (hs : list (kgrange * ckdoc)) own rj dj p st stj,
    In (rj, dj) hs -> pairdisj (map fst hs) -> (forall rd, In rd hs -> docwf rd) ->
    LLInv (trl dj) ->
    (forall k, is_prefix p k = true -> key_in rj k = true /\ key_in own k = true) ->
    restore true own (map snd hs) = Some st -> restore true rj [dj] = Some stj ->
    scan_prefix st p = scan_prefix stj p.
  Proof using select_complete.
    intros hs own rj dj p st stj Hin Hd Hw Hll Hp Hst Hstj.
    apply (clean_restores_agree rj dj p (fun k H => proj1 (Hp k H)) (uniq_from_LLInv dj Hll) hs own st [(rj, dj)] rj stj).
    - exact (conj Hin (conj Hd (conj Hw (conj (fun k H => proj2 (Hp k H)) Hst)))).
    - split; [left; reflexivity|]. split; [split; [intros ? []|exact I]|]. split; [intros rd [<-|[]]; apply Hw, Hin|].
      split; [intros k H; apply Hp, H|exact Hstj].
  Qed.
End Clean.
