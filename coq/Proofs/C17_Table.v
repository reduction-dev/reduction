(* Whole-table facts: the bounded region of a written table is the serialised run; ScanPrefix is the filter of the
   run. Re-opening a table from its Document: loadFooter reads back exactly the writer's bloom filter and index, so
   Get and ScanPrefix on the re-opened table are the same functions of the same data. *)
From RV Require Import Model.SstTable Proofs.C17_Codec Proofs.C17_Bloom.
From Coq Require Import ZifyN ZifyNat ZifyBool.
Open Scope N_scope.

Lemma body_of_write_table tp es : body_of (write_table tp es) = ser_entries es.
Proof. apply firstn_blen. Qed.

Lemma filter_map_norm p es :
  filter (fun e => is_prefix p (e_key e)) (map norm es) = map norm (filter (fun e => is_prefix p (e_key e)) es).
Proof.
  induction es as [|e es IH]; [reflexivity|]. cbn [map filter]. rewrite norm_key.
  destruct (is_prefix p (e_key e)); cbn [map]; rewrite IH; reflexivity.
Qed.

Theorem table_scan_is_filter tp es p :
  Forall entry_ok es -> table_scan_prefix (write_table tp es) p = Some (scan_spec es p).
Proof.
  intros H. unfold table_scan_prefix. cbn [table_meta write_table t_meta].
  change (body_of _) with (body_of (write_table tp es)).
  rewrite body_of_write_table, (parse_serialize es H), filter_map_norm. reflexivity.
Qed.

Lemma rd_offsets_w offs r : Forall (fun o => o < 4294967296) offs ->
  rd_offsets (length offs) (flat_map w_u32 offs ++ r) = Some (offs, r).
Proof.
  induction 1 as [|o offs Ho _ IH]; [reflexivity|].
  cbn [length flat_map rd_offsets]. rewrite <- app_assoc, rd_u32_wu32, (u32_small _ Ho), IH. reflexivity.
Qed.

Lemma idx_decode_encode offs r :
  Forall (fun o => o < 4294967296) offs -> blen offs < 4294967296 ->
  idx_decode (idx_encode offs ++ r) = Some (offs, r).
Proof.
  intros H Hl. unfold idx_decode, idx_encode. rewrite <- app_assoc, rd_u32_wu32, (u32_small _ Hl).
  replace (_ <=? _) with true.
  - unfold blen. rewrite Nat2N.id. apply rd_offsets_w, H.
  - rewrite blen_app. unfold blen at 2. rewrite (flat_map_length_const w_u32 4%nat) by reflexivity. unfold blen. lia.
Qed.

Lemma sample_u32 sp : forall l c, Forall (fun o => o < 4294967296) (sample sp c l).
Proof.
  induction l as [|x l IH]; intros [|c]; cbn [sample]; auto. constructor; [apply u32_lt|apply IH].
Qed.

Lemma sample_len sp : forall l c, (length (sample sp c l) <= length l)%nat.
Proof.
  induction l as [|x l IH]; intros c; cbn [sample length]; [lia|].
  destruct c; cbn [length]; [specialize (IH (sp - 1)%nat)|specialize (IH c)]; lia.
Qed.

Lemma entry_offsets_len : forall es o, length (entry_offsets o es) = length es.
Proof. induction es as [|e es IH]; intros o; cbn [entry_offsets length]; [|rewrite IH]; reflexivity. Qed.

(* loadFooter finds bloom block and index block through the body length stored in the last 12 bytes *)
Lemma load_footer_layout t body bf offs x :
  t_file t = (body ++ bf_encode bf ++ idx_encode offs) ++ w_u64 (blen body) ++ w_u32 x ->
  t_size t = blen (t_file t) -> blen body < 18446744073709551616 ->
  bloom_wf bf -> Forall (fun o => o < 4294967296) offs -> blen offs < 4294967296 ->
  load_footer t = Some (bf, offs).
Proof.
  intros Hf Hs Hb Hbf Ho Hl. unfold load_footer. rewrite Hs, Hf. set (pre := body ++ _).
  rewrite blen_app. change (blen (w_u64 _ ++ _)) with 12.
  replace (12 <=? _) with true by lia. replace (blen pre + 12 - 12) with (blen pre) by lia.
  rewrite skipn_blen, rd_u64_wu64, (u64_small _ Hb).
  replace (_ <=? _) with true by (unfold pre; rewrite blen_app; lia).
  unfold pre. rewrite <- !app_assoc, skipn_blen, (bf_decode_encode _ _ Hbf), (idx_decode_encode _ _ Ho Hl). reflexivity.
Qed.

Theorem reopen_loads_writer_metadata tp es :
  params_ok tp -> blen (ser_entries es) < 4294967296 ->
  table_meta (reopen (write_table tp es)) = table_meta (write_table tp es).
Proof.
  (* the re-opened table holds no metadata, so its [table_meta] is [load_footer] of the writer's file *)
  intros Hp Hsz. apply (load_footer_layout _ (ser_entries es) (bloom_of tp es) (index_of tp es) 1).
  - (* the file has the layout *) cbn [reopen write_table t_file]. unfold ser_table. rewrite <- !app_assoc. reflexivity.
  - (* the recorded size is its length *) reflexivity.
  - lia.
  - apply bloom_of_wf; apply Hp.
  - apply sample_u32.
  - (* there are at most as many offsets as entries, hence as bytes *)
    unfold index_of, blen in *. pose proof (sample_len (tp_spacing tp) (entry_offsets 0 es) 0) as H1.
    rewrite entry_offsets_len in H1. pose proof (ser_entries_len es). lia.
Qed.

(* the bounded region is the same by computation, the metadata by the theorem above *)
Theorem table_get_reopen_same clamp tp es key :
  params_ok tp -> blen (ser_entries es) < 4294967296 ->
  table_get_gen clamp (reopen (write_table tp es)) key = table_get_gen clamp (write_table tp es) key.
Proof. intros Hp H. unfold table_get_gen. rewrite (reopen_loads_writer_metadata tp es Hp H). reflexivity. Qed.

Theorem table_scan_reopen_same tp es p :
  params_ok tp -> blen (ser_entries es) < 4294967296 ->
  table_scan_prefix (reopen (write_table tp es)) p = table_scan_prefix (write_table tp es) p.
Proof. intros Hp H. unfold table_scan_prefix. rewrite (reopen_loads_writer_metadata tp es Hp H). reflexivity. Qed.
