(* C16, runner loop: the split positions reported for checkpoint N cover exactly the records emitted
   ahead of barrier N. Proved for every step list (every read batching, assignment and checkpoint timing): [advanced] says
   how far a split has come, run_from keeps it along a run from any state, positions_match_cut_all cuts the run at the
   checkpoint.  At the end, the one-slot channel of assignment rounds: acknowledged = delivered ++ what is in the slot (a_inv).
   The vocabulary of the statements of Props/C16.v comes first. *)
From Coq Require Import List NArith Bool Lia ZifyN ZifyNat ZifyBool.
From RV Require Import Base.Lists Model.RunnerLoop.
Import ListNotations.
Open Scope N_scope.

(* the cursor split [s] was first assigned with in [steps] ([None]: never assigned) *)
Definition first_assigned (steps : list step) (s : N) : option N :=
  get_cur (flat_map (fun x => match x with SAssign sp => sp | _ => [] end) steps) s.

(* the ids of the checkpoints taken in [steps], in order *)
Definition ckpts (steps : list step) : list N := flat_map (fun x => match x with SCkpt id => [id] | _ => [] end) steps.

(* positions_match_cut, merged output stream: at the first checkpoint [id] the positions of the snapshot are reported, and
   for every split the records ahead of barrier [id] are exactly those from its first cursor up to its position, the
   records behind it lie at or beyond the position *)
Definition cut_exact (steps : list step) : Prop :=
  forall pre id post, steps = pre ++ SCkpt id :: post -> ~ In id (ckpts pre) ->
    let st := run steps in
    let pos := curs (run pre) in
    In (id, pos) (reports st) /\
    forall s,
      match first_assigned pre s with
      | Some c0 => exists p, get_cur pos s = Some p /\ c0 <= p /\
                   (forall i, In (Rec s i) (before_bar id (out st)) <-> c0 <= i < p) /\
                   (forall i, In (Rec s i) (after_bar id (out st)) -> p <= i)
      | None => get_cur pos s = None /\ (forall i, ~ In (Rec s i) (before_bar id (out st)))
      end.

(* the same in the stream of operator [j], for every routing of records to operators *)
Definition cut_exact_ops (steps : list step) : Prop :=
  forall (route : N -> N -> N) j pre id post, steps = pre ++ SCkpt id :: post -> ~ In id (ckpts pre) ->
    let st := run steps in
    let pos := curs (run pre) in
    In (id, pos) (reports st) /\
    forall s,
      match first_assigned pre s with
      | Some c0 => exists p, get_cur pos s = Some p /\
                   (forall i, In (Rec s i) (before_bar id (op_stream route j (out st))) <-> (c0 <= i < p /\ route s i = j)) /\
                   (forall i, In (Rec s i) (after_bar id (op_stream route j (out st))) -> p <= i)
      | None => get_cur pos s = None /\ (forall i, ~ In (Rec s i) (before_bar id (op_stream route j (out st))))
      end.

(* the round waiting in the one-slot channel, as a list *)
Definition slot_list (st : astate) : list (list (N * N)) := match slot st with Some r => [r] | None => [] end.

Lemma get_cur_app : forall cs extra s,
  get_cur (cs ++ extra) s = match get_cur cs s with Some c => Some c | None => get_cur extra s end.
Proof. intros. unfold get_cur. rewrite find_app. destruct (find _ cs); reflexivity. Qed.

Lemma get_cur_set : forall cs s v t, get_cur cs s <> None ->
  get_cur (set_cur cs s v) t = if s =? t then Some v else get_cur cs t.
Proof.
  unfold get_cur. induction cs as [|[a b] r IH]; intros s v t H; cbn [find set_cur fst snd] in *; [congruence|].
  destruct (N.eqb_spec a s) as [->|Hne]; cbn [find fst snd]; [destruct (s =? t); reflexivity|].
  destruct (N.eqb_spec a t) as [->|]; [|apply IH, H]. apply N.eqb_neq in Hne. rewrite N.eqb_sym, Hne. reflexivity.
Qed.

Lemma in_recs : forall n s from t i, In (Rec t i) (recs s from n) <-> t = s /\ from <= i < from + N.of_nat n.
Proof.
  induction n as [|n IH]; intros s from t i; cbn [recs In]; [lia|]. rewrite IH. split.
  - intros [[= -> ->]|H]; lia.
  - intros [-> H]. destruct (N.eq_dec i from) as [->|]; [left; reflexivity|right; lia].
Qed.

Lemma bar_not_in_recs : forall n s from b, ~ In (Bar b) (recs s from n).
Proof. induction n as [|n IH]; intros s from b; cbn [recs In]; [tauto|]. intros [[=]|H]. exact (IH _ _ _ H). Qed.

(* Split [s], at cursor [c0] to begin with ([None]: not assigned), stands at its cursor in [cs] after emitting
   [evs]: the records of [s] among them are exactly those from c0 up to that cursor. *)
Definition advanced (c0 : option N) (cs : list (N * N)) (evs : list ev) (s : N) : Prop :=
  match c0 with
  | None => get_cur cs s = None /\ forall i, ~ In (Rec s i) evs
  | Some c => exists c', get_cur cs s = Some c' /\ c <= c' /\ forall i, In (Rec s i) evs <-> c <= i < c'
  end.

Lemma advanced_idle : forall cs evs s, (forall i, ~ In (Rec s i) evs) -> advanced (get_cur cs s) cs evs s.
Proof.
  intros cs evs s H. unfold advanced. destruct (get_cur cs s) as [c|]; [|auto].
  exists c. split; [reflexivity|]. split; [lia|]. intro i. split; [intros Hi; destruct (H i Hi)|lia].
Qed.

Lemma advanced_trans : forall c0 cs1 evs1 cs2 evs2 s,
  advanced c0 cs1 evs1 s -> advanced (get_cur cs1 s) cs2 evs2 s -> advanced c0 cs2 (evs1 ++ evs2) s.
Proof.
  unfold advanced. intros [c|] cs1 evs1 cs2 evs2 s.
  - intros (c1 & -> & Hle1 & H1) (c2 & E2 & Hle2 & H2). exists c2. split; [exact E2|]. split; [lia|].
    intro i. rewrite in_app_iff, H1, H2. lia.
  - intros [-> H1] [E2 H2]. split; [exact E2|]. intros i [H|H]%in_app_or; [exact (H1 i H)|exact (H2 i H)].
Qed.

Lemma read_batch_spec : forall batch cs cs' evs,
  read_batch cs batch = (cs', evs) ->
  (forall b, ~ In (Bar b) evs) /\ forall s, advanced (get_cur cs s) cs' evs s.
Proof.
  induction batch as [|[s n] r IH]; intros cs cs' evs H; cbn [read_batch] in H.
  - injection H as <- <-. split; [intros b []|]. intro s. apply advanced_idle. intros i [].
  - destruct (get_cur cs s) as [c|] eqn:Es; [|exact (IH _ _ _ H)].
    destruct (read_batch (set_cur cs s (c + n)) r) as [cs2 evs2] eqn:Er. injection H as <- <-.
    destruct (IH _ _ _ Er) as [Hb Hs]. split.
    + intros b [Hin|Hin]%in_app_or; [exact (bar_not_in_recs _ _ _ _ Hin)|exact (Hb b Hin)].
    + intro t. apply advanced_trans with (cs1 := set_cur cs s (c + n)); [|exact (Hs t)].
      pose proof (get_cur_set cs s (c + n) t) as G. rewrite Es in G. specialize (G ltac:(discriminate)).
      destruct (N.eqb_spec s t) as [E|Hne].
      * subst t. rewrite Es. exists (c + n). split; [exact G|]. split; [lia|]. intro i. rewrite in_recs. lia.
      * rewrite <- G. apply advanced_idle. intros i [Heq _]%in_recs. congruence.
Qed.

Lemma run_app : forall a b, run (a ++ b) = fold_left do_step b (run a).
Proof. intros. apply fold_left_app. Qed.

(* A run from ANY state.  [curs st0 ++ assignments of post] gives a split the cursor it has in st0 or, failing that,
   the one it is first assigned with in post. *)
Lemma run_from : forall post st0, exists tail rtail,
  out (fold_left do_step post st0) = out st0 ++ tail /\
  reports (fold_left do_step post st0) = reports st0 ++ rtail /\ map fst rtail = ckpts post /\
  (forall b, In (Bar b) tail <-> In b (ckpts post)) /\
  forall s, advanced (get_cur (curs st0 ++ flat_map (fun x => match x with SAssign sp => sp | _ => [] end) post) s)
                     (curs (fold_left do_step post st0)) tail s.
Proof.
  intros post st0. induction post as [|x post IH] using rev_ind.
  - exists [], []. cbn [fold_left flat_map]. rewrite !app_nil_r.
    split; [reflexivity|]. split; [reflexivity|]. split; [reflexivity|]. split; [intro b; cbn; tauto|].
    intro s. apply advanced_idle. intros i [].
  - destruct IH as (tail & rtail & Ho & Hr & Hm & Hb & Hs). unfold ckpts in *.
    rewrite fold_left_app, !flat_map_snoc. cbn [fold_left].
    set (st := fold_left do_step post st0) in *. destruct x as [sp|batch|id]; cbn [do_step].
    + (* SAssign: stream, reports and barriers as before; a split without a cursor gets the one it is assigned with *)
      exists tail, rtail. rewrite !app_nil_r.
      split; [exact Ho|]. split; [exact Hr|]. split; [exact Hm|]. split; [exact Hb|].
      intro s. specialize (Hs s). cbn [curs]. rewrite app_assoc, get_cur_app.
      destruct (get_cur (curs st0 ++ _) s) as [c|].
      * destruct Hs as (c' & E & H). exists c'. rewrite get_cur_app, E. auto.
      * destruct Hs as [E H]. replace (get_cur sp s) with (get_cur (curs st ++ sp) s) by (rewrite get_cur_app, E; reflexivity).
        apply advanced_idle, H.
    + (* SRead: the batch's records follow, no barrier among them; the cursors advance by read_batch_spec *)
      destruct (read_batch (curs st) batch) as [cs evs] eqn:Er. destruct (read_batch_spec _ _ _ _ Er) as [Hnb Hadv].
      exists (tail ++ evs), rtail. cbn [out reports curs]. rewrite Ho, <- app_assoc, !app_nil_r.
      split; [reflexivity|]. split; [exact Hr|]. split; [exact Hm|]. split.
      * intro b. rewrite in_app_iff, <- Hb. split; [intros [H|H]; [exact H|destruct (Hnb b H)]|auto].
      * intro s. eapply advanced_trans; [apply Hs|apply Hadv].
    + (* SCkpt: one barrier and one report more, no record *)
      exists (tail ++ [Bar id]), (rtail ++ [(id, curs st)]). cbn [out reports curs].
      rewrite Ho, Hr, <- !app_assoc, map_app, Hm, app_nil_r.
      split; [reflexivity|]. split; [reflexivity|]. split; [reflexivity|]. split.
      * intro b. rewrite !in_app_iff, <- Hb. cbn [In]. split; [intros [H|[[= ->]|[]]]; auto|intros [H|[->|[]]]; auto].
      * intro s. eapply advanced_trans; [apply Hs|]. apply advanced_idle. intros i [[=]|[]].
Qed.

Lemma run_spec : forall steps,
  (forall b, In (Bar b) (out (run steps)) <-> In b (ckpts steps)) /\
  forall s, advanced (first_assigned steps s) (curs (run steps)) (out (run steps)) s.
Proof.
  intro steps. destruct (run_from steps init) as (tail & rtail & Ho & _ & _ & Hb & Hs).
  unfold run. rewrite Ho. split; assumption.
Qed.

Lemma reports_are_ckpts : forall steps, map fst (reports (run steps)) = ckpts steps.
Proof.
  intro steps. destruct (run_from steps init) as (tail & rtail & _ & Hr & Hm & _). unfold run. rewrite Hr. exact Hm.
Qed.

(* the stream cut at the first barrier [id] *)
Lemma bar_cut : forall id a b, ~ In (Bar id) a ->
  before_bar id (a ++ Bar id :: b) = a /\ after_bar id (a ++ Bar id :: b) = b.
Proof.
  induction a as [|e a IH]; intros b H; cbn [app before_bar after_bar]; [rewrite N.eqb_refl; auto|].
  destruct (IH b (fun Hx => H (or_intror Hx))) as [-> ->]. destruct e as [s i|x]; [auto|].
  destruct (N.eqb_spec x id) as [->|]; [destruct H; left; reflexivity|auto].
Qed.

Lemma before_bar_app_in : forall id a b, In (Bar id) a -> before_bar id (a ++ b) = before_bar id a.
Proof.
  induction a as [|e a IH]; intros b H; [destruct H|]. cbn [app before_bar]. destruct e as [s i|x].
  - rewrite IH; [reflexivity|]. destruct H as [[=]|H]. exact H.
  - destruct (N.eqb_spec x id) as [->|Hne]; [reflexivity|]. rewrite IH; [reflexivity|]. destruct H as [[=]|H]; [congruence|exact H].
Qed.

Lemma after_bar_app_in : forall id a b, In (Bar id) a -> after_bar id (a ++ b) = after_bar id a ++ b.
Proof.
  induction a as [|e a IH]; intros b H; [destruct H|]. cbn [app after_bar]. destruct e as [s i|x].
  - apply IH. destruct H as [[=]|H]. exact H.
  - destruct (N.eqb_spec x id) as [->|Hne]; [reflexivity|]. apply IH. destruct H as [[=]|H]; [congruence|exact H].
Qed.

Theorem positions_match_cut_all : forall steps, cut_exact steps.
Proof.
  intros steps pre id post -> Hfresh st pos. subst st pos.
  destruct (run_spec pre) as [Hbars Hpre]. rewrite <- Hbars in Hfresh.
  (* the stream is out(pre) ++ Bar id :: tail, and tail is emitted from the cursors of the snapshot *)
  rewrite run_app. cbn [fold_left].
  destruct (run_from post (do_step (run pre) (SCkpt id))) as (tail & rtail & Ho & Hr & _ & _ & Hpost).
  cbn [do_step out reports curs] in *. rewrite Ho, Hr, <- !app_assoc.
  split; [apply in_or_app; right; left; reflexivity|].
  cbn [app]. destruct (bar_cut id _ tail Hfresh) as [-> ->].
  intro s. specialize (Hpre s). specialize (Hpost s). destruct (first_assigned pre s) as [c0|]; [|exact Hpre].
  destruct Hpre as (p & Hg & Hle & Hin). exists p. split; [exact Hg|]. split; [exact Hle|]. split; [exact Hin|].
  intros i Hi. rewrite get_cur_app, Hg in Hpost. destruct Hpost as (p' & _ & _ & H). apply H in Hi. lia.
Qed.

Lemma bar_op_stream : forall route j id o,
  before_bar id (op_stream route j o) = op_stream route j (before_bar id o) /\
  after_bar id (op_stream route j o) = op_stream route j (after_bar id o).
Proof.
  intros route j id. unfold op_stream. induction o as [|e o [IHb IHa]]; [auto|].
  destruct e as [s i|b]; cbn [filter before_bar after_bar].
  - destruct (route s i =? j); cbn [before_bar after_bar]; rewrite IHb; auto.
  - destruct (b =? id); cbn [filter]; rewrite ?IHb; auto.
Qed.

Lemma in_op_stream_rec : forall route j o s i, In (Rec s i) (op_stream route j o) <-> In (Rec s i) o /\ route s i = j.
Proof. intros. unfold op_stream. rewrite filter_In, N.eqb_eq. reflexivity. Qed.

Theorem positions_match_cut_ops : forall steps, cut_exact_ops steps.
Proof.
  intros steps route j pre id post Hsteps Hfresh st pos. subst st pos.
  destruct (positions_match_cut_all steps pre id post Hsteps Hfresh) as [Hrep Hs]. split; [exact Hrep|].
  intro s. specialize (Hs s). destruct (bar_op_stream route j id (out (run steps))) as [-> ->].
  destruct (first_assigned pre s) as [c0|].
  - destruct Hs as (p & Hg & Hle & Hb & Ha). exists p. split; [exact Hg|]. split.
    + intro i. rewrite in_op_stream_rec, Hb. reflexivity.
    + intros i [Hi _]%in_op_stream_rec. exact (Ha i Hi).
  - destruct Hs as [Hg Hno]. split; [exact Hg|]. intros i [Hi _]%in_op_stream_rec. exact (Hno i Hi).
Qed.

Lemma a_inv : forall steps, acked (a_run steps) = delivered (a_run steps) ++ slot_list (a_run steps).
Proof.
  intro steps. apply (fold_left_inv a_step (fun st => acked st = delivered st ++ slot_list st)); [|reflexivity].
  intros st x IH. unfold slot_list, a_step in *. destruct x as [r|], (slot st) as [r0|] eqn:E; cbn [slot acked delivered]; rewrite ?E, IH, ?app_nil_r; reflexivity.
Qed.

Lemma a_drained : forall steps, slot (a_run steps) = None -> delivered (a_run steps) = acked (a_run steps).
Proof. intros steps H. rewrite (a_inv steps). unfold slot_list. rewrite H. symmetry. apply app_nil_r. Qed.
