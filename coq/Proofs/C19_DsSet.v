(* C19: util/ds/set.go insertion-ordered set (Model/DsSet.v): the map/slice pair stays coherent (set_inv) and the
   slice is exactly the reference "duplicate-free list in first-insertion order" under Add / Without / Diff. *)
From RV Require Import Base.Bytes Base.Lists Model.DsSet.
Open Scope N_scope.

Definition set_inv (s : set) : Prop := NoDup (sl s) /\ forall v, mem v (sm s) = mem v (sl s).

Lemma mem_In v l : mem v l = true <-> In v l.
Proof. apply existsb_beqb_In. Qed.

Lemma mem_false_In v l : mem v l = false <-> ~ In v l.
Proof. rewrite <- mem_In. destruct (mem v l); split; congruence. Qed.

Lemma mem_app v l1 l2 : mem v (l1 ++ l2) = mem v l1 || mem v l2.
Proof. apply existsb_app. Qed.

Lemma mem_cons v x l : mem v (x :: l) = beqb v x || mem v l.
Proof. reflexivity. Qed.

Lemma mem_filter f v l : mem v (filter f l) = mem v l && f v.
Proof. apply eq_true_iff_eq. rewrite andb_true_iff, !mem_In, filter_In. reflexivity. Qed.

Theorem set_empty_inv : set_inv set_empty.
Proof. split; [constructor | reflexivity]. Qed.

Lemma set_add1_spec v s :
  set_inv s ->
  set_inv (set_add1 s v) /\ sl (set_add1 s v) = (if mem v (sl s) then sl s else sl s ++ [v]).
Proof.
  intros [Hnd Hm]. unfold set_add1, set_has. rewrite (Hm v).
  destruct (mem v (sl s)) eqn:Hv; [split; [split; assumption | reflexivity]|].
  split; [|reflexivity]. split; cbn [sl sm].
  - apply NoDup_snoc; [exact Hnd | apply mem_false_In; exact Hv].
  - intros w. rewrite mem_cons, mem_app, (Hm w). cbn [mem existsb]. rewrite orb_false_r. apply orb_comm.
Qed.

Theorem set_add_spec : forall vs s, set_inv s ->
  set_inv (set_add vs s) /\ set_slice (set_add vs s) = ref_add (set_slice s) vs.
Proof.
  intros vs s. apply (fold_left_refines set_add1 _ set_inv sl). intros s0 v. apply set_add1_spec.
Qed.

Theorem set_without_spec : forall vs s, set_inv s ->
  set_inv (set_without vs s) /\ set_slice (set_without vs s) = ref_without (set_slice s) vs.
Proof.
  intros vs s [Hnd Hm]. split; [|reflexivity]. unfold set_without. split; cbn [sl sm].
  - apply NoDup_filter. exact Hnd.
  - intros v. rewrite !mem_filter, (Hm v). reflexivity.
Qed.

Theorem set_has_spec : forall v s, set_inv s -> (set_has v s = true <-> In v (set_slice s)).
Proof. intros v s [_ Hm]. unfold set_has, set_slice. rewrite (Hm v). apply mem_In. Qed.

Theorem set_size_spec : forall s, set_size s = length (set_slice s).
Proof. reflexivity. Qed.

Lemma set_reads s : set_inv s ->
  NoDup (set_slice s) /\ (forall v, set_has v s = true <-> In v (set_slice s)) /\ set_size s = length (set_slice s).
Proof. intros Hi. split; [exact (proj1 Hi)|]. split; [intros v; apply set_has_spec, Hi | reflexivity]. Qed.

Theorem ref_add_in : forall ref vs v, In v (ref_add ref vs) <-> In v ref \/ In v vs.
Proof.
  unfold ref_add. intros ref vs; revert ref.
  induction vs as [|x vs IH]; intros ref v; cbn [fold_left In]; [tauto|].
  rewrite IH. destruct (mem x ref) eqn:Hx.
  - apply mem_In in Hx. intuition congruence.
  - rewrite in_app_iff. cbn [In]. tauto.
Qed.

Theorem ref_add_nodup : forall ref vs, NoDup ref -> NoDup (ref_add ref vs).
Proof.
  intros ref vs. apply fold_left_inv. intros l x Hnd. destruct (mem x l) eqn:Hx; [exact Hnd|].
  apply NoDup_snoc; [exact Hnd | apply mem_false_In; exact Hx].
Qed.

Theorem ref_add_prefix : forall ref vs, exists t, ref_add ref vs = ref ++ t.
Proof.
  intros ref vs. apply (fold_left_inv _ (fun l => exists t, l = ref ++ t)); [|exists []; symmetry; apply app_nil_r].
  intros l x [t ->]. destruct (mem x (ref ++ t)); [exists t | exists (t ++ [x]); rewrite app_assoc]; reflexivity.
Qed.

Theorem ref_without_in : forall ref vs v, In v (ref_without ref vs) <-> In v ref /\ ~ In v vs.
Proof.
  intros ref vs v. unfold ref_without. rewrite filter_In, negb_true_iff, mem_false_In. tauto.
Qed.

Lemma ref_add_fresh : forall vs ref, NoDup (ref ++ vs) -> ref_add ref vs = ref ++ vs.
Proof.
  unfold ref_add. induction vs as [|x vs IH]; intros ref Hnd; cbn [fold_left]; [symmetry; apply app_nil_r|].
  assert (mem x ref = false) as ->.
  { apply mem_false_In. intros Hin. apply (NoDup_remove_2 _ _ _ Hnd), in_or_app. left. exact Hin. }
  rewrite IH, <- app_assoc; [reflexivity|]. rewrite <- app_assoc. exact Hnd.
Qed.

Lemma set_diff_add s s2 : set_diff s s2 = set_add (filter (fun e => negb (set_has e s2)) (sl s)) set_empty.
Proof.
  unfold set_diff, set_add. generalize set_empty.
  induction (sl s) as [|e l IH]; intros d; cbn [fold_left filter]; [reflexivity|].
  destruct (set_has e s2); cbn [negb fold_left]; apply IH.
Qed.

Theorem set_diff_spec : forall s s2, set_inv s -> set_inv s2 ->
  set_inv (set_diff s s2) /\
  set_slice (set_diff s s2) = filter (fun e => negb (mem e (set_slice s2))) (set_slice s).
Proof.
  intros s s2 [Hnd _] [_ Hm2]. rewrite set_diff_add.
  destruct (set_add_spec (filter (fun e => negb (set_has e s2)) (sl s)) set_empty set_empty_inv) as [Hi ->].
  split; [exact Hi|]. cbn [set_slice set_empty sl]. rewrite ref_add_fresh by (apply NoDup_filter, Hnd).
  apply filter_ext. intros e. unfold set_has. rewrite Hm2. reflexivity.
Qed.

Print Assumptions set_empty_inv.
Print Assumptions set_add_spec.
Print Assumptions set_without_spec.
Print Assumptions set_has_spec.
Print Assumptions ref_add_in.
Print Assumptions ref_add_nodup.
Print Assumptions ref_add_prefix.
Print Assumptions ref_without_in.
Print Assumptions set_size_spec.
Print Assumptions set_diff_spec.
