(* C08, contents level: the background actions of a database object (flush swap, locked part of Checkpoint, apply of a
   compaction whose output is the merge of its inputs) do not change what any key reads; lifted to every history of writes,
   background actions, checkpoints and restores against the abstract map. *)
From Coq Require Import List NArith Bool Lia.
Import ListNotations.
From RV Require Import Base.Lists Base.Bytes Model.Ckpt Proofs.C08_Ckpt.
Open Scope N_scope.

(* no two different entries of one key share a sequence number *)
Definition uniq (es : list entry) : Prop :=
  forall x y, In x es -> In y es -> e_key x = e_key y -> e_seq x = e_seq y -> x = y.
(* for key [k], [A] holds an entry at least as new as each entry of [B] *)
Definition dominates (A B : list entry) (k : bytes) : Prop :=
  forall e, In e B -> e_key e = k -> exists e', In e' A /\ e_key e' = k /\ e_seq e <= e_seq e'.

Lemma newest_max es k e : newest es k = Some e ->
  In e es /\ e_key e = k /\ forall y, In y es -> e_key y = k -> e_seq y <= e_seq e.
Proof.
  intro N. destruct (newest_in _ _ _ N) as [I K]. split; [exact I|]. split; [exact K|].
  intros y Hy Ky. destruct (newest_ge _ _ _ Hy Ky) as [e' [E L]]. congruence.
Qed.

Lemma newest_none es k : newest es k = None -> forall y, In y es -> e_key y <> k.
Proof. intros N y Hy Ky. destruct (newest_ge _ _ _ Hy Ky) as [e [E _]]. congruence. Qed.

Lemma contig_inj ws a x y : contig ws a -> In x ws -> In y ws -> e_seq x = e_seq y -> x = y.
Proof.
  intros C Hx Hy E. apply In_nth_error in Hx. destruct Hx as [i Hi]. apply In_nth_error in Hy. destruct Hy as [j Hj].
  rewrite (C _ _ Hi), (C _ _ Hj) in E. assert (i = j) by lia. subst j. congruence.
Qed.

Lemma tables_latest_le ts b : (forall t, In t ts -> t_end t <= b) -> tables_latest ts <= b.
Proof. apply (fold_max_le t_end). Qed.

Lemma dominates_incl A B k : incl B A -> dominates A B k.
Proof. intros I e He Ke. exists e. split; [apply I; exact He|split; [exact Ke|lia]]. Qed.

Lemma newest_equiv A B k : uniq (A ++ B) -> dominates A B k -> dominates B A k -> newest A k = newest B k.
Proof.
  intros U DA DB. destruct (newest A k) as [a|] eqn:NA, (newest B k) as [b|] eqn:NB.
  - destruct (newest_max _ _ _ NA) as [Ia [Ka Ma]]. destruct (newest_max _ _ _ NB) as [Ib [Kb Mb]].
    destruct (DA b Ib Kb) as [a' [Ia' [Ka' La']]]. destruct (DB a Ia Ka) as [b' [Ib' [Kb' Lb']]].
    specialize (Ma a' Ia' Ka'). specialize (Mb b' Ib' Kb').
    f_equal. apply U; [apply in_or_app; left; exact Ia|apply in_or_app; right; exact Ib|congruence|lia].
  - destruct (newest_in _ _ _ NA) as [Ia Ka]. destruct (DB a Ia Ka) as [b' [Ib' [Kb' _]]]. destruct (newest_none _ _ NB b' Ib' Kb').
  - destruct (newest_in _ _ _ NB) as [Ib Kb]. destruct (DA b Ib Kb) as [a' [Ia' [Ka' _]]]. destruct (newest_none _ _ NA a' Ia' Ka').
  - reflexivity.
Qed.

Lemma uniq_incl A B : uniq B -> incl A B -> uniq A.
Proof. intros U I x y Hx Hy. apply U; apply I; assumption. Qed.

Lemma uniq_sub A B : uniq B -> (forall e, In e A -> In e B) -> uniq (A ++ B).
Proof. intros U S. apply (uniq_incl _ _ U). intros e He. apply in_app_or in He. destruct He; auto. Qed.

Lemma contig_prefix u v a : contig (u ++ v) a -> contig u a.
Proof. intro C. apply (contig_app u v a), C. Qed.

Lemma uniq_app A B : uniq A -> uniq B -> (forall x y, In x A -> In y B -> e_seq x < e_seq y) -> uniq (A ++ B).
Proof.
  intros UA UB L x y Hx Hy K S. apply in_app_or in Hx, Hy. destruct Hx as [Hx|Hx], Hy as [Hy|Hy].
  - apply UA; assumption.
  - specialize (L x y Hx Hy). lia.
  - specialize (L y x Hy Hx). lia.
  - apply UB; assumption.
Qed.

(* the mirror image of [newest_mems]: a level set lists older tables first, and a flush appends the tables of the chunks,
   oldest first *)
Lemma newest_app_flushed (cs : list (list entry)) T b k :
  contig (concat cs) b -> (forall y, In y T -> e_seq y <= b) ->
  newest (T ++ concat (map build cs)) k = match lastw (concat cs) k with Some x => Some x | None => newest T k end.
Proof.
  revert T b. induction cs as [|c cs IH]; intros T b C HT; cbn [map concat] in *; [rewrite app_nil_r; reflexivity|].
  apply contig_app in C. destruct C as [Cc Cs].
  rewrite app_assoc, (IH _ _ Cs), lastw_app, newest_app_right, newest_build; [destruct (lastw (concat cs) k); reflexivity| |].
  - intros x y Hx Hy. apply build_in in Hy. apply (contig_in _ _ _ Cc) in Hy. specialize (HT x Hx). lia.
  - intros y Hy. apply in_app_or in Hy. destruct Hy as [Hy|Hy]; [specialize (HT y Hy); lia|].
    apply build_in in Hy. apply (contig_in _ _ _ Cc Hy).
Qed.

Lemma newest_flushed (cs : list (list entry)) a0 k :
  contig (concat cs) a0 -> newest (concat (map build cs)) k = lastw (concat cs) k.
Proof.
  intro C. transitivity (match lastw (concat cs) k with Some x => Some x | None => None end); [|destruct (lastw (concat cs) k); reflexivity].
  apply (newest_app_flushed cs [] a0 k C). intros y [].
Qed.

Lemma rep_suffix_contig d a pre cs ca : Rep d a pre cs ca -> contig (concat cs ++ ca) (a + N.of_nat (length pre)).
Proof. intro R. rewrite (rp_pre R). apply (rep_suffix R). Qed.

Theorem db_get_flush_swap_any d a pre cs ca n dir next k :
  Rep d a pre cs ca ->
  db_get (db_flush_swap d n (mk_tables dir next (firstn n (d_sealed d)))) k = db_get d k.
Proof.
  intro R. destruct (rep_flush_swap d a pre cs ca n dir next R) as [a' [pre' R']].
  rewrite (db_get_char _ _ _ _ _ k R'), (db_get_char _ _ _ _ _ k R). unfold view.
  cbn [db_flush_swap d_tables]. pose proof (rep_suffix R) as C. rewrite (concat_split n cs) in C |- *.
  rewrite tables_entries_app, mk_tables_entries, (rp_sealed R), firstn_map.
  rewrite (newest_app_flushed _ _ _ k (contig_prefix _ _ _ C)), (lastw_app (concat (firstn n cs)));
    [|apply Forall_forall, (rp_tables R)].
  destruct (lastw (concat (skipn n cs) ++ ca) k); reflexivity.
Qed.

(* in the form Props/C08.v states it, with the bound [n <= length cs], which the proof does not need *)
Theorem db_get_flush_swap d a pre cs ca n dir next k :
  Rep d a pre cs ca -> (n <= length cs)%nat ->
  db_get (db_flush_swap d n (mk_tables dir next (firstn n (d_sealed d)))) k = db_get d k.
Proof. intros R _. exact (db_get_flush_swap_any d a pre cs ca n dir next k R). Qed.

(* the tables a flush adds hold entries of the log above LatestSeqNum: distinct sequence numbers, all newer than any table's *)
Lemma uniq_flush_swap_any d a pre cs ca n dir next :
  Rep d a pre cs ca -> uniq (tables_entries (d_tables d)) ->
  uniq (tables_entries (d_tables (db_flush_swap d n (mk_tables dir next (firstn n (d_sealed d)))))).
Proof.
  intros R U. cbn [db_flush_swap d_tables].
  rewrite tables_entries_app, mk_tables_entries, (rp_sealed R), firstn_map.
  pose proof (rep_suffix R) as C. pose proof (rp_tables R) as T. rewrite Forall_forall in T.
  assert (forall e, In e (concat (map build (firstn n cs))) -> In e (concat cs ++ ca)) as Sub.
  { intros e He. apply builds_in in He. rewrite (concat_split n cs). apply in_or_app. left. exact He. }
  apply uniq_app; [exact U| |].
  - intros x y Hx Hy _. apply (contig_inj _ _ _ _ C); apply Sub; assumption.
  - intros x y Hx Hy. specialize (T x Hx). destruct (contig_in _ _ _ C (Sub y Hy)). lia.
Qed.

(* the same with the bound *)
Lemma uniq_flush_swap d a pre cs ca n dir next :
  Rep d a pre cs ca -> (n <= length cs)%nat -> uniq (tables_entries (d_tables d)) ->
  uniq (tables_entries (d_tables (db_flush_swap d n (mk_tables dir next (firstn n (d_sealed d)))))).
Proof. intros R _. exact (uniq_flush_swap_any d a pre cs ca n dir next R). Qed.

Definition rem_tables (d : dbc) (removed : list fname) : list table := filter (fun t => mem_name (t_name t) removed) (d_tables d).
(* out = the inputs with, for every key, at least its newest entry kept and nothing invented *)
Definition merge_ok (ins out : list entry) : Prop := (forall e, In e out -> In e ins) /\ (forall k, dominates out ins k).
Definition compact_ok (d : dbc) (removed : list fname) (added : list table) : Prop :=
  ends_ok added /\ tables_latest added <= d_latest d /\
  merge_ok (tables_entries (rem_tables d removed)) (tables_entries added).

Lemma in_tables_entries ts e : In e (tables_entries ts) <-> exists t, In t ts /\ In e (t_es t).
Proof. unfold tables_entries. apply in_flat_map. Qed.

Lemma compact_sub d removed added e : compact_ok d removed added ->
  In e (tables_entries (d_tables (db_compact_apply d removed added))) -> In e (tables_entries (d_tables d)).
Proof.
  intros [_ [_ [MS _]]]. cbn [db_compact_apply d_tables]. rewrite tables_entries_app, in_app_iff.
  intros [H|H]; [|apply MS in H]; eapply tables_entries_filter; exact H.
Qed.

Lemma uniq_compact d removed added : compact_ok d removed added -> uniq (tables_entries (d_tables d)) ->
  uniq (tables_entries (d_tables (db_compact_apply d removed added))).
Proof. intros OK U. apply (uniq_incl _ _ U). intro e. apply compact_sub, OK. Qed.

Theorem db_get_compact d a pre cs ca removed added k :
  Rep d a pre cs ca -> uniq (tables_entries (d_tables d)) -> compact_ok d removed added ->
  db_get (db_compact_apply d removed added) k = db_get d k.
Proof.
  intros R U OK. pose proof OK as [EO [LE [MS MD]]].
  pose proof (rep_compact d a pre cs ca removed added R EO LE) as R'.
  rewrite (db_get_char _ _ _ _ _ k R'), (db_get_char _ _ _ _ _ k R). unfold view.
  destruct (lastw (concat cs ++ ca) k); [reflexivity|]. f_equal.
  apply newest_equiv; [apply uniq_sub; [exact U|intro e; apply compact_sub; exact OK]| |apply dominates_incl; intro e; apply compact_sub; exact OK].
  (* an entry of a removed table is beaten by the merge, any other is still there *)
  intros e He Ke. cbn [db_compact_apply d_tables]. apply in_tables_entries in He. destruct He as [t [Ht He]].
  destruct (mem_name (t_name t) removed) eqn:M.
  - destruct (MD k e) as [e' [He' Ke']]; [apply in_tables_entries; exists t; split; [apply filter_In; auto|exact He]|exact Ke|].
    exists e'. rewrite tables_entries_app, in_app_iff. auto.
  - exists e. split; [|split; [exact Ke|lia]]. rewrite tables_entries_app, in_app_iff. left.
    apply in_tables_entries. exists t. split; [apply filter_In; rewrite M; auto|exact He].
Qed.

(* the shape of the real compactor: kv.MergeEntries over the scans of the input tables (ascending keys, per key the entry
   with the greatest sequence number, delete markers kept), cut into runs by TableWriter.WriteRun, each run's end sequence
   number = the maximum in it *)
Definition merge_newest (es : list entry) : list entry :=
  flat_map (fun k => match newest es k with Some e => [e] | None => [] end) (sorted_keys es).
Definition mk_added (runs : list (fname * list entry)) : list table :=
  map (fun r => mkT (fst r) (snd r) (max_seq (snd r))) runs.

Lemma ins_key_in k ks : In k (ins_key k ks) /\ forall x, In x ks -> In x (ins_key k ks).
Proof.
  induction ks as [|y ks [IH1 IH2]]; cbn [ins_key]; [split; [left; reflexivity|intros x []]|].
  destruct (bcmp k y) eqn:C.
  - apply bcmp_eq in C. subst y. split; [left; reflexivity|auto].
  - split; [left; reflexivity|intros x H; right; exact H].
  - split; [right; exact IH1|]. intros x [->|H]; [left; reflexivity|right; apply IH2; exact H].
Qed.

Lemma sorted_keys_in es e : In e es -> In (e_key e) (sorted_keys es).
Proof.
  induction es as [|x es IH]; [intros []|]. unfold sorted_keys in *. cbn [fold_right]. intros [->|H].
  - apply (proj1 (ins_key_in _ _)).
  - apply (proj2 (ins_key_in _ _)). apply IH. exact H.
Qed.

Lemma merge_newest_ok ins : merge_ok ins (merge_newest ins).
Proof.
  split.
  - intros e He. apply in_flat_map in He. destruct He as [k [_ He]].
    destruct (newest ins k) as [x|] eqn:N; [|destruct He]. destruct He as [<-|[]]. apply (newest_in _ _ _ N).
  - intros k e He Ke. destruct (newest_ge _ _ _ He Ke) as [x [N L]]. exists x. split; [|split; [apply (newest_in _ _ _ N)|exact L]].
    apply in_flat_map. exists k. split; [rewrite <- Ke; apply sorted_keys_in; exact He|]. rewrite N. left. reflexivity.
Qed.

Lemma mk_added_entries runs : tables_entries (mk_added runs) = concat (map snd runs).
Proof. induction runs as [|r runs IH]; [reflexivity|]. unfold tables_entries in *. cbn [mk_added map flat_map t_es snd concat]. unfold mk_added in IH. rewrite IH. reflexivity. Qed.

Theorem merge_compact_ok d a pre cs ca removed runs :
  Rep d a pre cs ca -> concat (map snd runs) = merge_newest (tables_entries (rem_tables d removed)) ->
  compact_ok d removed (mk_added runs).
Proof.
  intros R E. pose proof (merge_newest_ok (tables_entries (rem_tables d removed))) as [MS MD].
  split; [|split].
  - unfold ends_ok, mk_added. apply Forall_map, Forall_forall. intros r _ e He. apply max_seq_bound. exact He.
  - apply tables_latest_le. intros t Ht. apply in_map_iff in Ht. destruct Ht as [r [<- Hr]]. cbn [t_end].
    apply max_seq_le. intros e He.
    assert (In e (concat (map snd runs))) as H by (apply in_concat; exists (snd r); split; [apply in_map; exact Hr|exact He]).
    rewrite E in H. apply MS, tables_entries_filter in H.
    pose proof (rp_tables R) as T. rewrite Forall_forall in T. apply T. exact H.
  - rewrite mk_added_entries, E. split; assumption.
Qed.

(* [act_okc]: [act_ok], and a compaction's output is a merge of the tables it removes. [background]: every action but the writes.
   [reachc]: [reach] with [act_okc] for [act_ok] - the databases on which background actions change no read. *)
Definition act_okc (d : dbc) (a : action) : Prop :=
  act_ok d a /\ match a with
                | ACompact removed added => merge_ok (tables_entries (rem_tables d removed)) (tables_entries added)
                | _ => True
                end.
Definition background (a : action) : Prop := match a with AWrite _ _ _ | AWriteAt _ _ _ _ => False | _ => True end.

Inductive reachc : dbc -> Prop :=
| rc_new mem wm : reachc (db_new mem wm)
| rc_act d a : reachc d -> act_okc d a -> reachc (do_action d a)
| rc_restore d o mem wm es :
    reachc d -> wal_read (cp_wal (snd (db_checkpoint d))) (cp_after (snd (db_checkpoint d))) = ROk es ->
    reachc (fst (db_restore mem wm o (cp_tables (snd (db_checkpoint d))) (cp_walid (snd (db_checkpoint d))) es)).

Lemma reachc_reach d : reachc d -> reach d.
Proof.
  induction 1 as [mem wm|d a _ IH [OK _]|d o mem wm es _ IH RD].
  - apply reach_new.
  - apply reach_act; assumption.
  - apply reach_restore; assumption.
Qed.

Lemma reachc_inv d : reachc d -> Inv d.
Proof. intro RC. exact (reach_inv _ (reachc_reach _ RC)). Qed.

Lemma act_okc_compact d removed added : act_okc d (ACompact removed added) -> compact_ok d removed added.
Proof. intros [[EO LE] M]. split; [exact EO|split; [exact LE|exact M]]. Qed.

Lemma reachc_uniq d : reachc d -> uniq (tables_entries (d_tables d)).
Proof.
  induction 1 as [mem wm|d a RC IH OK|d o mem wm es RC IH RD].
  - (* new *) intros x y [].
  - (* action *) destruct a as [k del v| |n dir next|removed added|k del v rot]; cbn [do_action].
    + (* AWrite *) rewrite db_write_at_eq, db_write_at_tables. exact IH.
    + (* ACheckpoint *) exact IH.
    + (* AFlush *) destruct (reachc_inv _ RC) as [a0 [pre [cs [ca R]]]]. eapply uniq_flush_swap_any; eassumption.
    + (* ACompact *) apply uniq_compact; [apply act_okc_compact, OK|exact IH].
    + (* AWriteAt *) rewrite db_write_at_tables. exact IH.
  - (* restore *) unfold db_restore. rewrite db_replay_core, replay_tables. exact IH.
Qed.

(* what the three background actions need of the database: the invariant, and no two table entries of a key with one
   sequence number - not that it can be reached *)
Theorem background_keeps_contents_rep d a0 pre cs ca a k :
  Rep d a0 pre cs ca -> uniq (tables_entries (d_tables d)) -> act_okc d a -> background a ->
  db_get (do_action d a) k = db_get d k.
Proof.
  intros R U OK BG. destruct a as [k0 del v| |n dir next|removed added|k0 del v rot]; cbn [do_action]; try destruct BG.
  - (* ACheckpoint *) rewrite (db_get_char _ _ _ _ _ k (rep_checkpoint R)), (db_get_char _ _ _ _ _ k R). reflexivity.
  - (* AFlush *) eapply db_get_flush_swap_any; exact R.
  - (* ACompact *) eapply db_get_compact; [exact R|exact U|apply act_okc_compact; exact OK].
Qed.

Theorem background_keeps_contents d a k : reachc d -> act_okc d a -> background a -> db_get (do_action d a) k = db_get d k.
Proof.
  intros RC OK BG. destruct (reachc_inv _ RC) as [a0 [pre [cs [ca R]]]].
  exact (background_keeps_contents_rep d a0 pre cs ca a k R (reachc_uniq d RC) OK BG).
Qed.

Theorem checkpoint_exact_dbc d o mem wm :
  reachc d ->
  exists es, wal_read (cp_wal (snd (db_checkpoint d))) (cp_after (snd (db_checkpoint d))) = ROk es /\
    let r := fst (db_restore mem wm o (cp_tables (snd (db_checkpoint d))) (cp_walid (snd (db_checkpoint d))) es) in
    reachc r /\ (forall k, owns o k = true -> db_get r k = db_get d k).
Proof.
  intro RC. destruct (checkpoint_exact_db d o mem wm (reachc_reach _ RC)) as [es [RD [_ [G _]]]]. cbn zeta in *.
  exists es. split; [exact RD|]. split; [apply rc_restore; assumption|exact G].
Qed.

(* the real-compactor-shaped change set is an admissible action of every such database *)
Theorem merge_act_okc d removed runs :
  reachc d -> concat (map snd runs) = merge_newest (tables_entries (rem_tables d removed)) ->
  act_okc d (ACompact removed (mk_added runs)).
Proof.
  intros RC E. destruct (reachc_inv _ RC) as [a0 [pre [cs [ca R]]]].
  destruct (merge_compact_ok d a0 pre cs ca removed runs R E) as [EO [LE M]]. split; [split; assumption|exact M].
Qed.

(* Histories against the abstract map. A system state: the running database, the abstract map (what a sequential
   key-value map would hold), the keys for which the running database is responsible (all, until a restore with a key
   range narrows it), and the checkpoints taken so far, each remembered as the database at the call with the map and the
   responsibility at the call. *)
Definition amap := bytes -> option bytes.
Definition m_write (m : amap) (k : bytes) (del : bool) (v : bytes) : amap :=
  fun k' => if beqb k' k then (if del then None else Some v) else m k'.
Definition snapshot := (dbc * amap * (bytes -> bool))%type.
Record sys := mkSys { s_db : dbc; s_map : amap; s_scope : bytes -> bool; s_caps : list snapshot }.

Definition restore_of (d0 : dbc) (o : own) (mem wm : N) (es : list entry) : dbc :=
  fst (db_restore mem wm o (cp_tables (snd (db_checkpoint d0))) (cp_walid (snd (db_checkpoint d0))) es).
Definition capture_read (d0 : dbc) : replay_res := wal_read (cp_wal (snd (db_checkpoint d0))) (cp_after (snd (db_checkpoint d0))).

Inductive sreach : sys -> Prop :=
| sr_new mem wm : sreach (mkSys (db_new mem wm) (fun _ => None) (fun _ => true) [])
| sr_write s k del v : sreach s ->
    sreach (mkSys (fst (db_write (s_db s) k del v)) (m_write (s_map s) k del v) (s_scope s) (s_caps s))
| sr_background s a : sreach s -> background a -> act_okc (s_db s) a ->
    sreach (mkSys (do_action (s_db s) a) (s_map s) (s_scope s) (s_caps s))
| sr_checkpoint s : sreach s ->
    sreach (mkSys (fst (db_checkpoint (s_db s))) (s_map s) (s_scope s) ((s_db s, s_map s, s_scope s) :: s_caps s))
| sr_restore s d0 m0 sc0 o mem wm es : sreach s -> In (d0, m0, sc0) (s_caps s) -> capture_read d0 = ROk es ->
    sreach (mkSys (restore_of d0 o mem wm es) m0 (fun k => sc0 k && owns o k) (s_caps s))
| sr_write_at s k del v rot : sreach s ->      (* a write with ANY rotation decision: when a buffer counts as full is a policy *)
    sreach (mkSys (db_write_at (s_db s) k del v rot) (m_write (s_map s) k del v) (s_scope s) (s_caps s)).

Definition holds (d : dbc) (m : amap) (sc : bytes -> bool) : Prop :=
  reachc d /\ forall k, sc k = true -> db_get d k = m k.

Lemma holds_write_at d m sc k del v rot : holds d m sc -> holds (db_write_at d k del v rot) (m_write m k del v) sc.
Proof.
  intros [RC G]. split; [exact (rc_act _ (AWriteAt k del v rot) RC (conj I I))|].
  intros k' S. rewrite (db_write_at_get _ k del v rot k' (reachc_inv _ RC)). unfold m_write.
  destruct (beqb k' k); [reflexivity|apply G; exact S].
Qed.

Lemma holds_background d m sc a : holds d m sc -> background a -> act_okc d a -> holds (do_action d a) m sc.
Proof.
  intros [RC G] BG OK. split; [apply rc_act; assumption|].
  intros k S. rewrite (background_keeps_contents _ _ k RC OK BG). apply G. exact S.
Qed.

Lemma holds_restore d0 m0 sc0 o mem wm es :
  holds d0 m0 sc0 -> capture_read d0 = ROk es -> holds (restore_of d0 o mem wm es) m0 (fun k => sc0 k && owns o k).
Proof.
  intros [RC0 G0] RD. destruct (checkpoint_exact_dbc d0 o mem wm RC0) as [es' [RD' [RCr Gr]]]. cbn zeta in *.
  unfold capture_read in RD. rewrite RD in RD'. inversion RD'; subst es'.
  split; [exact RCr|]. intros k S. apply andb_true_iff in S. destruct S as [S O].
  unfold restore_of. rewrite (Gr k O). apply G0. exact S.
Qed.

Lemma sreach_holds s : sreach s ->
  holds (s_db s) (s_map s) (s_scope s) /\ forall d0 m0 sc0, In (d0, m0, sc0) (s_caps s) -> holds d0 m0 sc0.
Proof.
  induction 1 as [mem wm|s k del v _ [H IHc]|s a _ [H IHc] BG OK|s _ [H IHc]|s d0 m0 sc0 o mem wm es _ [_ IHc] Hin RD|s k del v rot _ [H IHc]];
    cbn [s_db s_map s_scope s_caps].
  - (* sr_new *) split; [split; [apply rc_new|intros k _; reflexivity]|intros ? ? ? []].
  - (* sr_write *) split; [|exact IHc]. rewrite db_write_at_eq. apply holds_write_at. exact H.
  - (* sr_background *) split; [|exact IHc]. apply holds_background; assumption.
  - (* sr_checkpoint: the capture joins the list *) split; [exact (holds_background _ _ _ ACheckpoint H I (conj I I))|].
    intros d0 m0 sc0 [E|Hin]; [inversion E; subst; exact H|apply IHc; exact Hin].
  - (* sr_restore *) split; [|exact IHc]. apply holds_restore; [apply IHc; exact Hin|exact RD].
  - (* sr_write_at *) split; [|exact IHc]. apply holds_write_at. exact H.
Qed.

Theorem checkpoint_exact_contents s : sreach s ->
  (forall k, s_scope s k = true -> db_get (s_db s) k = s_map s k) /\
  (forall d0 m0 sc0, In (d0, m0, sc0) (s_caps s) ->
     exists es, capture_read d0 = ROk es /\
       forall o mem wm k, sc0 k = true -> owns o k = true -> db_get (restore_of d0 o mem wm es) k = m0 k).
Proof.
  intro SR. destruct (sreach_holds s SR) as [[_ G] Hc]. split; [exact G|].
  intros d0 m0 sc0 Hin. specialize (Hc _ _ _ Hin).
  destruct (replay_never_fails d0 (reachc_reach _ (proj1 Hc))) as [es RD]. exists es. split; [exact RD|].
  intros o mem wm k S O. apply (holds_restore _ _ _ o mem wm es Hc RD). rewrite S, O. reflexivity.
Qed.

(* One failing storage read during the replay of a checkpoint's WAL ([read_entries], [wal_read_fault] of Model/Ckpt.v): the
   reader returns the error or the whole log, so a restore under the fault fails or is exact. *)
Lemma read_entries_surfaces es : forall pos k, read_entries es pos k = REof \/ read_entries es pos k = ROk es.
Proof.
  induction es as [|e es IH]; intros pos k; cbn [read_entries].
  - destruct (Nat.eqb pos k); auto.
  - destruct (Nat.leb pos k && Nat.ltb k (pos + entry_reads e))%bool; [left; reflexivity|].
    destruct (IH (pos + entry_reads e)%nat k) as [-> | ->]; auto.
Qed.

Theorem wal_read_fault_surfaces content after s k :
  wal_read_fault content after s k = REof \/ wal_read_fault content after s k = wal_read content after.
Proof.
  unfold wal_read_fault. destruct (wal_read content after) as [| |es]; auto.
  destruct (Nat.ltb k s); [left; reflexivity|]. apply read_entries_surfaces.
Qed.

Definition restore_under_fault (d : dbc) (o : own) (mem wm : N) (s k : nat) : option dbc :=
  match wal_read_fault (cp_wal (snd (db_checkpoint d))) (cp_after (snd (db_checkpoint d))) s k with
  | ROk es => Some (restore_of d o mem wm es)
  | _ => None
  end.

Theorem restore_fault_exact d o mem wm s k : reachc d ->
  restore_under_fault d o mem wm s k = None \/
  exists r, restore_under_fault d o mem wm s k = Some r /\ reachc r /\ forall key, owns o key = true -> db_get r key = db_get d key.
Proof.
  intro RC. unfold restore_under_fault.
  destruct (wal_read_fault_surfaces (cp_wal (snd (db_checkpoint d))) (cp_after (snd (db_checkpoint d))) s k) as [-> | ->]; [left; reflexivity|].
  destruct (checkpoint_exact_dbc d o mem wm RC) as [es [RD [RCr G]]]. cbn zeta in *. rewrite RD. right.
  exists (restore_of d o mem wm es). split; [reflexivity|]. split; assumption.
Qed.

(* the reader of seeded change C08r6-3 (any failed sequence-number read ends the log) is NOT of that kind: a witness *)
Fixpoint read_entries_lossy (es : list entry) (pos k : nat) : replay_res :=
  match es with
  | [] => ROk []
  | e :: es' => if Nat.eqb pos k then ROk []
                else if (Nat.ltb pos k && Nat.ltb k (pos + entry_reads e))%bool then REof
                else match read_entries_lossy es' (pos + entry_reads e) k with ROk l => ROk (e :: l) | r => r end
  end.
Lemma lossy_reader_loses :
  let es := [mkE [0;0;97] 1 false [49]; mkE [0;0;98] 2 false [50]] in
  read_entries_lossy es 1 7 = ROk [mkE [0;0;97] 1 false [49]] /\ read_entries es 1 7 = REof.
Proof. vm_compute. split; reflexivity. Qed.

Module Ex.
  Definition ka : bytes := [0; 0; 97].
  Definition kb : bytes := [0; 0; 98].
  Definition wr (s : sys) k del v : sys := mkSys (fst (db_write (s_db s) k del v)) (m_write (s_map s) k del v) (s_scope s) (s_caps s).
  Definition bg (s : sys) a : sys := mkSys (do_action (s_db s) a) (s_map s) (s_scope s) (s_caps s).
  Definition s0 := mkSys (db_new 20 1000) (fun _ => None) (fun _ => true) [].
  Definition s1 := wr s0 ka false [49].     (* fills the memtable: rotation *)
  Definition s2 := wr s1 ka false [50].     (* rotation again: two sealed memtables *)
  Definition s3 := wr s2 kb true [].
  Definition s4 := bg s3 (AFlush 2 0 1).    (* swap of a flush of both sealed memtables: two tables *)
  Definition removed : list fname := [(0, 0, 1); (0, 0, 2)].
  Definition runs := [((0, 0, 3), merge_newest (tables_entries (rem_tables (s_db s4) removed)))].
  Definition s5 := bg s4 (ACompact removed (mk_added runs)).   (* merging compaction of both tables into one *)
  Definition s6 := mkSys (fst (db_checkpoint (s_db s5))) (s_map s5) (s_scope s5) ((s_db s5, s_map s5, s_scope s5) :: s_caps s5).
  Definition s7 := wr s6 ka true [].        (* the original goes on: the key is deleted after the checkpoint *)
  Definition es := match capture_read (s_db s5) with ROk l => l | _ => [] end.
  Definition s8 := mkSys (restore_of (s_db s5) OwnAll 20 1000 es) (s_map s5) (fun k => s_scope s5 k && owns OwnAll k) (s_caps s7).

  Lemma history : sreach s8 /\ length (d_tables (s_db s5)) = 1%nat /\ length (d_tables (s_db s4)) = 2%nat /\
                  db_get (s_db s7) ka = None /\ db_get (s_db s8) ka = Some [50] /\ s_map s8 ka = Some [50] /\
                  db_get (s_db s8) kb = None.
  Proof.
    assert (sreach s3) as H3 by (repeat apply sr_write; apply sr_new).
    assert (sreach s4) as H4.
    { apply sr_background; [exact H3|exact I|]. split; [|exact I]. cbn [act_ok]. vm_compute. repeat constructor. }
    assert (sreach s5) as H5.
    { apply sr_background; [exact H4|exact I|]. apply merge_act_okc; [apply (sreach_holds _ H4)|].
      unfold runs. cbn [map snd concat]. apply app_nil_r. }
    assert (sreach s7) as H7 by (apply sr_write; apply sr_checkpoint; exact H5).
    split; [|vm_compute; repeat split; reflexivity].
    apply (sr_restore s7 (s_db s5) (s_map s5) (s_scope s5) OwnAll 20 1000 es H7); [left; reflexivity|].
    vm_compute. reflexivity.
  Qed.
End Ex.
