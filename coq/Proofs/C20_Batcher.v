(* C20, part 1: the event batcher (Model/Batcher.v): what a run does from any state, what holds in reachable states, and
   the same for histories with late time-out callbacks. *)
From Coq Require Import List NArith ZArith Bool Lia.
From RV Require Import Base.Lists Model.Batcher.
Import ListNotations.
Open Scope Z_scope.

Section BatcherProofs.
Context {T : Type}.
Implicit Types (s : bstate T) (p : bparams) (a : baction T).

Lemma is_nil_true : forall {A} (l : list A), is_nil l = true -> l = [].
Proof. intros A [|x l] H; [reflexivity|discriminate]. Qed.

Lemma b_flush_cases : forall t s,
  b_flush t s = ([], s) \/
  (t = current_batch \/ t = token s) /\ batch s <> [] /\ b_flush t s = (batch s, mkB [] (token s + 1) None).
Proof.
  intros t s. unfold b_flush. destruct (batch s) eqn:Eb; [now left|]. cbn [is_nil orb].
  destruct (Z.eqb_spec t current_batch); [|destruct (Z.eqb_spec (token s) t); [|now left]]; right; (split; [auto|now split]).
Qed.

Lemma b_flush_current : forall s,
  b_flush current_batch s = if is_nil (batch s) then ([], s) else (batch s, mkB [] (token s + 1) None).
Proof. intros s. unfold b_flush. change (current_batch =? current_batch) with true. cbn [negb andb]. now rewrite orb_false_r. Qed.

(* What a run does, from any state: the items are conserved in order, and the token counts the batches handed out: it never
   decreases, and it stands still only while nothing is handed out. *)
Lemma b_run_spec : forall p acts s,
  concat (flushed_of (fst (b_run p acts s))) ++ batch (snd (b_run p acts s)) = batch s ++ added_of acts /\
  token s <= token (snd (b_run p acts s)) /\
  (token (snd (b_run p acts s)) = token s -> concat (flushed_of (fst (b_run p acts s))) = []).
Proof.
  intros p acts. unfold added_of, flushed_of. induction acts as [|a acts IH]; intros s; cbn [b_run flat_map fst snd].
  - rewrite app_nil_r. repeat split. lia.
  - destruct a as [x| |t|]; cbn [b_step fst snd app].
    + (* BAdd: the batch of the next state is batch s ++ [x], its token that of s *)
      destruct (IH (b_add p x s)) as (H1 & H2). unfold b_add in *; cbn [token batch] in *. now rewrite H1, <- app_assoc.
    + (* BIsFull *) apply IH.
    + (* BFlush *) destruct (IH (snd (b_flush t s))) as (H1 & H2 & H3).
      destruct (b_flush_cases t s) as [E|(_ & _ & E)]; rewrite E in *; cbn [fst snd token batch concat app] in *; [auto|].
      rewrite <- app_assoc, H1. repeat split; lia.
    + (* BFire *) apply IH.
Qed.

Lemma b_step_token_le : forall p a s, token s <= token (snd (b_step p a s)).
Proof.
  intros p a s. destruct a as [x| |t|]; cbn; try lia. destruct (b_flush_cases t s) as [->|(_ & _ & ->)]; cbn; lia.
Qed.

(* reachable states: the token is never negative (so it is never CurrentBatch = -1); an armed timer carries the current
   token, and only while the batch is not empty *)
Definition binv s : Prop :=
  0 <= token s /\ (forall t, armed s = Some t -> t = token s /\ batch s <> []).

Lemma binv_init : binv (@b_init T).
Proof. split; cbn; [lia|discriminate]. Qed.

Lemma binv_step : forall p a s, binv s -> binv (snd (b_step p a s)).
Proof.
  intros p a s [Htok Harm]. destruct a as [x| |t|]; cbn [b_step snd]; try (split; assumption).
  - unfold b_add. split; cbn [token armed batch]; [assumption|].
    assert (batch s ++ [x] <> []) by now destruct (batch s).
    intros t Ht. destruct (is_nil (batch s) && delay p); [injection Ht as <-|destruct (Harm t Ht) as [-> _]]; now split.
  - destruct (b_flush_cases t s) as [->|(_ & _ & ->)]; split; cbn; easy || lia.
Qed.

Lemma binv_run : forall p acts s, binv s -> binv (snd (b_run p acts s)).
Proof.
  intros p acts. induction acts as [|a acts IH]; intros s H; [assumption|].
  cbn [b_run snd]. apply IH. now apply binv_step.
Qed.

(* 0 <= t: not CurrentBatch (-1); t <= token s: not a token of the future.  Such a token flushes something only while it is
   still the current one. *)
Lemma flush_after_run : forall p acts s t l s3,
  0 <= t <= token s -> b_flush t (snd (b_run p acts s)) = (l, s3) -> l <> [] ->
  t = token s /\ concat (flushed_of (fst (b_run p acts s))) = [] /\ l = batch s ++ added_of acts.
Proof.
  intros p acts s t l s3 Ht Hflush Hl.
  destruct (b_flush_cases t (snd (b_run p acts s))) as [E|(Hwhich & _ & E)]; rewrite E in Hflush; injection Hflush as <- <-; [easy|].
  destruct (b_run_spec p acts s) as (Hcat & Hmono & Hsame).
  unfold current_batch in Hwhich. assert (Etok : token (snd (b_run p acts s)) = token s) by lia.
  rewrite (Hsame Etok) in *. split; [lia|]. split; [reflexivity|exact Hcat].
Qed.

(* late time-out callbacks (XExpire / XDeliver) never touch the batcher *)
Lemma bx_run_proj : forall p (acts : list (bxaction T)) xs,
  b_run p (xb_actions acts) (bx_b xs) = (xb_events (fst (bx_run p acts xs)), bx_b (snd (bx_run p acts xs))).
Proof.
  intros p acts. unfold xb_actions, xb_events. induction acts as [|a acts IH]; intros xs; [reflexivity|].
  cbn [bx_run flat_map fst snd]. destruct a as [a'| |i]; cbn [bx_step app].
  - specialize (IH (mkBX (snd (b_step p a' (bx_b xs))) (bx_committed xs))).
    cbn [b_run fst snd bx_b app] in *. now rewrite IH.
  - destruct (armed (bx_b xs)); cbn [fst snd app]; [|apply IH]. exact (IH (mkBX (bx_b xs) (bx_committed xs ++ [z]))).
  - destruct (nth_error (bx_committed xs) i); cbn [fst snd app]; [|apply IH].
    exact (IH (mkBX (bx_b xs) (drop_nth i (bx_committed xs)))).
Qed.

Lemma bx_run_concat : forall p (acts : list (bxaction T)) xs,
  concat (flushed_of (xb_events (fst (bx_run p acts xs)))) ++ batch (bx_b (snd (bx_run p acts xs))) =
  batch (bx_b xs) ++ added_of (xb_actions acts).
Proof.
  intros p acts xs. destruct (b_run_spec p (xb_actions acts) (bx_b xs)) as (C & _). now rewrite bx_run_proj in C.
Qed.

(* [flush_after_run] for a history with late callbacks in it *)
Lemma bx_flush_after_run : forall p (acts : list (bxaction T)) xs t l s3,
  0 <= t <= token (bx_b xs) -> b_flush t (bx_b (snd (bx_run p acts xs))) = (l, s3) -> l <> [] ->
  t = token (bx_b xs) /\ concat (flushed_of (xb_events (fst (bx_run p acts xs)))) = [].
Proof.
  intros p acts xs t l s3 Ht Hflush Hl. pose proof (flush_after_run p (xb_actions acts) (bx_b xs) t l s3 Ht) as F.
  rewrite (bx_run_proj p acts xs) in F. destruct (F Hflush Hl) as (H1 & H2 & _). now split.
Qed.

(* a committed callback carries a token that was current when it was set: never in the future, never negative *)
Definition bxinv (xs : bxstate T) : Prop :=
  binv (bx_b xs) /\ forall t, In t (bx_committed xs) -> 0 <= t <= token (bx_b xs).

Lemma bxinv_step : forall p (xa : bxaction T) xs, bxinv xs -> bxinv (snd (bx_step p xa xs)).
Proof.
  intros p xa xs [Hb Hc]. destruct xa as [a'| |i]; cbn [bx_step].
  - cbn [snd]. split; cbn [bx_b bx_committed]; [now apply binv_step|].
    intros t Ht. specialize (Hc t Ht).
    pose proof (b_step_token_le p a' (bx_b xs)). lia.
  - destruct (armed (bx_b xs)) as [t0|] eqn:Ea; cbn [snd]; [|now split].
    split; cbn [bx_b bx_committed]; [assumption|]. intros t Ht. apply in_snoc in Ht as [Ht|Ht].
    + now apply Hc.
    + subst t0. destruct Hb as [H0 Harm]. destruct (Harm t Ea) as [-> _]. lia.
  - destruct (nth_error (bx_committed xs) i); cbn [snd]; [|now split].
    split; cbn [bx_b bx_committed]; [assumption|]. intros t Ht. apply Hc. now apply In_drop_at in Ht.
Qed.

Lemma bxinv_run : forall p (acts : list (bxaction T)) xs, bxinv xs -> bxinv (snd (bx_run p acts xs)).
Proof.
  intros p acts. induction acts as [|xa acts IH]; intros xs H; [assumption|].
  cbn [bx_run snd]. apply IH. now apply bxinv_step.
Qed.

Lemma bxinv_init : bxinv (@bx_init T).
Proof. split; [apply binv_init|]. intros t []. Qed.

(* the token of a committed callback is never CurrentBatch, so once it is stale it flushes nothing *)
Lemma committed_stale_noop : forall (xs : bxstate T) t,
  bxinv xs -> In t (bx_committed xs) -> t <> token (bx_b xs) -> b_flush t (bx_b xs) = ([], bx_b xs).
Proof.
  intros xs t [_ Hc] Hin Hne. specialize (Hc t Hin).
  destruct (b_flush_cases t (bx_b xs)) as [H|([H|H] & _)]; [exact H|unfold current_batch in H; lia|contradiction].
Qed.

End BatcherProofs.
