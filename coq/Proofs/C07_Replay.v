(* The replay machine of Model/LsmReplay.v - rotation decisions, Compact's change sets and the tables a flush writes are
   data, change sets and flushed tables only have to be legal - refines the sorted map ([rstep_ok], [replay_refines_proof]).
   This is the statement the correspondence check ties to the code: it does not depend on byte sizes, the compaction policy
   or the size accounting.  Before it, the executable legality test implies the condition of the proofs ([good_csb_sound]);
   at the end C18's statement for every change set that passes the test ([legal_cs_preserves_proof]). *)
From Coq Require Import List NArith Bool Lia.
From RV Require Import Base.Bytes Model.LsmBase Model.LsmCompaction Model.Lsm Model.LsmReplay
  Proofs.C07_Sorted Proofs.C07_Spec Proofs.C18_Layout Proofs.C18_Apply Proofs.C18_Compact Proofs.C18_Reader Proofs.C18_Main Proofs.C07_Refine.
Import ListNotations.
Open Scope N_scope.

Lemma in_firstn_nth {A} n (l : list A) x : In x (firstn n l) -> exists j, (j < n)%nat /\ nth_error l j = Some x.
Proof.
  revert l. induction n as [|n IH]; intros l H; [destruct H|]. destruct l as [|y l]; [destruct H|]. cbn in H. destruct H as [<-|H].
  - exists 0%nat. split; [lia|reflexivity].
  - destruct (IH _ H) as (j & Hj & Hn). exists (S j). split; [lia|exact Hn].
Qed.
Lemma nth_error_firstn_in {A} n (l : list A) k x : nth_error l k = Some x -> (k < n)%nat -> In x (firstn n l).
Proof.
  revert l k. induction n as [|n IH]; intros l k H Hk; [lia|]. destruct l as [|y l]; [destruct k; discriminate|].
  destruct k as [|k]; cbn in H |- *; [injection H as ->; left; reflexivity|right; eapply IH; eauto; lia].
Qed.
Lemma nth_error_skipn_in {A} n (l : list A) k x : nth_error l k = Some x -> (n <= k)%nat -> In x (skipn n l).
Proof.
  revert l k. induction n as [|n IH]; intros l k H Hk; [cbn; eapply nth_error_In; eauto|].
  destruct l as [|y l]; [destruct k; discriminate|]. destruct k as [|k]; [lia|]. cbn in H |- *. eapply IH; eauto. lia.
Qed.

Lemma lvl_has_rem_iff cs l : lvl_has_rem cs l = true <-> exists r, In r l /\ In r (cs_rem cs).
Proof. unfold lvl_has_rem, in_rem. rewrite existsb_exists. setoid_rewrite tmem_in. reflexivity. Qed.
Lemma all_rem_iff cs l : all_rem cs l = true <-> forall t, In t l -> In t (cs_rem cs).
Proof. unfold all_rem, in_rem. rewrite forallb_forall. setoid_rewrite tmem_in. reflexivity. Qed.
Lemma seq_below_sound r t : seq_below r t = true -> forall e e', In e r -> In e' t -> eseq e < eseq e'.
Proof.
  unfold seq_below. rewrite forallb_forall. intros H e e' He He'. specialize (H e He). rewrite forallb_forall in H.
  apply N.ltb_lt. exact (H e' He').
Qed.

Lemma closedb_sound cs ll : forall b i j li lj r t,
  closedb cs b ll = true -> (i < j)%nat -> (b + j <= cs_level cs)%nat ->
  nth_error ll i = Some li -> nth_error ll j = Some lj -> In r li -> In r (cs_rem cs) -> In t lj -> In t (cs_rem cs).
Proof.
  induction ll as [|l rest IH]; intros b i j li lj r t Hc Hij Hj Hi Hlj Hr HrR Ht; [destruct i; discriminate|].
  cbn [closedb] in Hc. apply andb_true_iff in Hc as [Hc1 Hc2]. destruct j as [|j]; [lia|]. destruct i as [|i].
  - injection Hi as <-. rewrite (proj2 (lvl_has_rem_iff cs l)), forallb_forall in Hc1 by eauto.
    apply (proj1 (all_rem_iff cs lj)); [|exact Ht]. apply Hc1. apply (nth_error_firstn_in _ _ j); [exact Hlj|lia].
  - apply (IH (S b) i j li lj r t); auto; lia.
Qed.

Theorem good_csb_sound ll cs : good_csb ll cs = true -> good_cs ll cs.
Proof.
  (* the conjuncts of [good_csb] come in the order of the fields of [good_cs], two each for [g_lvl] and [g_add] *)
  unfold good_csb. rewrite !andb_true_iff, Nat.leb_le, Nat.ltb_lt, all_rem_iff, table_eqb_eq, !forallb_forall.
  intros ((((((((G1 & G2) & G3) & G4) & G5) & G6) & G7) & G8) & G9). constructor.
  - (* g_lvl *) split; assumption.
  - (* g_all *) intros l t Hl. rewrite <- (nth_error_nth _ _ [] Hl). apply G3.
  - (* g_sub *) intros r Hr. apply G4, existsb_exists in Hr as (l & Hl & Hm). apply tmem_in in Hm.
    apply in_firstn_nth in Hl as (j & Hj & Hn). exists j, l. split; [apply Nat.lt_succ_r; exact Hj|auto].
  - (* g_add *) split; [exact G5|]. intros a Ha ->. discriminate (G6 [] Ha).
  - (* g_closed *) intros i j li lj r t [Hij Hj]. exact (closedb_sound cs ll 0 i j li lj r t G7 Hij Hj).
  - (* g_l0 *) intros l r t e e' Hl Hr HrR Ht HtR. destruct ll as [|l0 ll']; [discriminate|]. injection Hl as ->.
    specialize (G8 r Hr). unfold in_rem in G8. rewrite (proj2 (tmem_in _ _) HrR), forallb_forall in G8.
    specialize (G8 t Ht). rewrite (proj2 (tmem_false _ _) HtR) in G8. exact (seq_below_sound r t G8 e e').
  - (* g_deep *) intros j l t Hj Hl Ht HR. assert (Hin : In l (skipn (S (cs_level cs)) ll)) by (apply (nth_error_skipn_in _ _ j); assumption).
    apply G9, negb_true_iff in Hin. rewrite (proj2 (lvl_has_rem_iff cs l)) in Hin by eauto. discriminate.
Qed.

(* an option setting of Lsm.step with n levels; the numbers are arbitrary: it only has to be [cfg_ok], so that [step_ok]
   can be instantiated for the actions that do not consult the options ([rstep_ok]) *)
Definition rcfg (n : nat) : dbcfg := mkDbCfg 0 0 n (mkCfg 1 0 0 1).
Lemma rcfg_ok n : (2 <= n)%nat -> cfg_ok (rcfg n).
Proof. intros Hn. unfold cfg_ok, rcfg. cbn. repeat split; [exact Hn|lia..]. Qed.
Lemma rinit_init n : rinit n = init (rcfg n).
Proof. reflexivity. Qed.

(* the options decide when a write rotates the memtable and what Compact returns, nothing else *)
Lemma step_ignores_cfg cfg cfg' st a :
  match a with APut _ _ | ADel _ | AC1 | AC1F => False | _ => True end -> step cfg st a = step cfg' st a.
Proof. destruct a; intros []; reflexivity. Qed.

Lemma rlayout_vll st : rlayout st = vll st.
Proof. reflexivity. Qed.

Definition robs_good (m : smap) (pend : option bytes) (a : ract) (o : obs) : Prop :=
  match a with
  | RGet2 => exists k r, pend = Some k /\ o = OGet r /\ get_matches r (sm_get k m)
  | RScan2 => exists p, pend = Some p /\ o = OScan (sm_scan p m)
  | _ => True
  end.
Definition rnext_pend (pend : option bytes) (a : ract) : option bytes :=
  match a with RGet1 k => Some k | RScan1 p => Some p | RGet2 | RScan2 => None | _ => pend end.
Fixpoint robs_ok (m : smap) (pend : option bytes) (acts : list ract) (os : list obs) : Prop :=
  match acts, os with
  | [], [] => True
  | a :: ar, o :: or => robs_good m pend a o /\ robs_ok (rspec_step m a) (rnext_pend pend a) ar or
  | _, _ => False
  end.

Lemma rwrite_ok st k v del rot :
  DBInv st -> rd st = RNone ->
  DBInv (rwrite st k v del rot) /\ absm (rwrite st k v del rot) = (if del then sm_del k (absm st) else sm_put k v (absm st)) /\
  rd (rwrite st k v del rot) = RNone.
Proof.
  unfold DBInv, absm, vll, rwrite, active. intros HI Hrd. rewrite Hrd in HI.
  destruct (write_inv (mkE k (seqn st + 1) del v) rot HI eq_refl) as [H1 H2].
  destruct rot; cbn [mts lv seqn ft ct rd]; rewrite Hrd; exact (conj H1 (conj (live_write H2) eq_refl)).
Qed.

Lemma sepb_sound cs : sepb cs = true -> sep cs.
Proof.
  induction cs as [|x r IH]; cbn; [auto|]. intros H. apply andb_true_iff in H as [H1 H2]. split; [|auto].
  intros y e e' Hy He He'. rewrite forallb_forall in H1. eapply seq_below_sound; eauto.
Qed.
Lemma entry_in_sound e ts : entry_in e ts = true -> ents_of ts e.
Proof.
  unfold entry_in. intros H. apply existsb_exists in H as (t & Ht & H). apply existsb_exists in H as (x & Hx & E).
  apply entry_eqb_eq in E. subst x. exists t. auto.
Qed.

Lemma f2o_inv {snap rest outs ll sq f c r} :
  Inv (snap ++ rest) ll sq f c r -> rest <> [] ->
  (forall t, In t outs -> t <> [] /\ sorted t) -> merge_all outs = merge_all snap ->
  (forall e, ents_of outs e -> ents_of snap e) -> sep (hd [] ll ++ outs ++ rest) ->
  Inv rest (add_l0 outs ll) sq FIdle c r /\ view (vlay (add_l0 outs ll) rest) = view (vlay ll (snap ++ rest)).
Proof.
  intros HI Hrest Houts Hmerge Hsrc Hsep. pose proof (i_ll HI) as Hv.
  rewrite vlay_add_l0 by exact (len_ne _ (i_len HI)).
  assert (Hsub : forall e, ents_of (outs ++ rest) e -> ents_of (snap ++ rest) e) by (intros e; rewrite !ents_of_app; intros [H|H]; auto).
  (* nothing new is visible, and per key the newest entry of the consumed memtables is in the tables written *)
  assert (Hview : view (vlay ll (outs ++ rest)) = view (vlay ll (snap ++ rest))).
  { apply view_sub_eq; [exact Hv| |].
    - intros e. rewrite !ents_vlay. intros [H|H]; auto.
    - (* an entry that is still there answers itself *)
      assert (Hself : forall e, ents ll e \/ ents_of rest e ->
                exists m, ents (vlay ll (outs ++ rest)) m /\ ekey m = ekey e /\ eseq e <= eseq m).
      { intros e H. exists e. split; [|split; [reflexivity|lia]]. rewrite ents_vlay, ents_of_app. tauto. }
      intros e. rewrite ents_vlay, ents_of_app. intros [H|[H|H]]; [apply Hself; auto| |apply Hself; auto].
      destruct (Mx_merge_all snap) as (_ & _ & H3). destruct (H3 e H) as (m & Hm & Hle). rewrite <- Hmerge in Hm.
      apply tbl_get_some in Hm as [Hm1 Hm2]. exists m. split; [|auto].
      apply ents_vlay. right. apply ents_of_app. left. apply (Mx_merge_all outs). exact Hm1. }
  split; [|exact Hview]. apply (f2_inv (f:=FIdle)); [|exact Hrest].
  (* the tables written count as memtables until the swap *)
  apply (Inv_new_mem HI).
  - (* seqNum *) lia.
  - (* active *) intros H. apply app_eq_nil in H as [_ H]. exact (Hrest H).
  - (* sealed *) rewrite removelast_app by exact Hrest. intros t Ht. apply in_app_or in Ht as [Ht|Ht]; [apply Houts; exact Ht|].
    apply (i_sealed HI). rewrite removelast_app by exact Hrest. apply in_or_app. right. exact Ht.
  - (* sorted *) intros t Ht. apply in_app_or in Ht as [Ht|Ht]; [apply Houts; exact Ht|]. apply (mem_sorted Hv), in_or_app. right. exact Ht.
  - (* sep *) exact Hsep.
  - (* entries *) auto.
  - (* i_ft *) discriminate.
  - (* i_rd *) exact (rd_inv_same_view Hv Hview Hsub (i_rd HI)).
Qed.

Theorem rstep_ok st a st' o :
  DBInv st -> rstep true st a = Some (st', o) ->
  DBInv st' /\ absm st' = rspec_step (absm st) a /\ robs_good (absm st) (pend_of (rd st)) a o /\
  pend_of (rd st') = rnext_pend (pend_of (rd st)) a.
Proof.
  intros HI Hs.
  (* for the two halves of a read, F1, F2 and C2 the machine is Lsm.step, which does not consult the options there *)
  assert (Hstep : forall a', match a' with APut _ _ | ADel _ | AC1 | AC1F => False | _ => True end ->
            step dummy_cfg st a' = Some (st', o) ->
            DBInv st' /\ absm st' = spec_step (absm st) a' /\ obs_good (absm st) (pend_of (rd st)) a' o /\
            pend_of (rd st') = next_pend (pend_of (rd st)) a').
  { intros a' Ha H. rewrite (step_ignores_cfg dummy_cfg (rcfg 2)) in H by exact Ha. exact (step_ok _ _ _ _ _ (rcfg_ok 2 (le_n 2)) HI H). }
  destruct a; cbn [rstep] in Hs.
  - (* RPut *) destruct (rd st) eqn:Hrd; try discriminate. injection Hs as <- <-.
    destruct (rwrite_ok st k v false rot HI Hrd) as (H1 & H2 & ->). cbn. auto.
  - (* RDel *) destruct (rd st) eqn:Hrd; try discriminate. injection Hs as <- <-.
    destruct (rwrite_ok st k [] true rot HI Hrd) as (H1 & H2 & ->). cbn. auto.
  - (* RGet1 *) exact (Hstep (AGet1 k) I Hs).
  - (* RGet2 *) exact (Hstep AGet2 I Hs).
  - (* RScan1 *) exact (Hstep (AScan1 p) I Hs).
  - (* RScan2 *) exact (Hstep AScan2 I Hs).
  - (* RF1 *) exact (Hstep AF1 I Hs).
  - (* RF2 *) exact (Hstep AF2 I Hs).
  - (* RC1: the change set, if any, passed the test *)
    apply ctask_runs in Hs as (n & Hs). destruct ocs as [cs|]; cbn [negb orb] in Hs.
    + destruct (good_csb (rlayout st) cs && forallb (fun t => negb (in_rem cs t)) (mts st)) eqn:E; [|discriminate]. injection Hs as <- <-.
      apply andb_true_iff in E as [E1 E2]. rewrite rlayout_vll in E1. split; [|exact (conj eq_refl (conj I eq_refl))].
      apply (ct_inv HI). intros cs' [= <-]. split; [apply good_csb_sound; exact E1|].
      intros t Ht. rewrite forallb_forall in E2. apply tmem_false, negb_true_iff, E2, Ht.
    + injection Hs as <- <-. split; [|exact (conj eq_refl (conj I eq_refl))]. apply (ct_inv HI). discriminate.
  - (* RC1F *) apply ctask_runs in Hs as (n & [= <- <-]). split; [|exact (conj eq_refl (conj I eq_refl))]. apply (ct_inv HI). discriminate.
  - (* RC2 *) exact (Hstep AC2 I Hs).
  - (* RF2o: the tables written passed flush_okb, whose four conjuncts are the hypotheses of f2o_inv *)
    unfold DBInv, absm, vll in *. destruct (ft st) as [|snap] eqn:Hf; [discriminate|]. cbn [negb orb] in Hs.
    destruct (flush_okb st snap outs) eqn:E; [|discriminate]. injection Hs as <- <-. cbn [mts lv seqn ft ct rd].
    destruct (i_ft HI snap eq_refl) as (rest & HM & Hrest). unfold flush_okb in E. rewrite HM in *.
    rewrite skipn_app, Nat.sub_diag, skipn_all in E |- *. cbn [skipn app] in E |- *. rewrite !andb_true_iff, !forallb_forall in E. destruct E as (((E1 & E2) & E3) & E4).
    destruct (f2o_inv (outs:=outs) HI Hrest) as [J1 ->].
    + intros t Ht. apply E1, andb_true_iff in Ht as [H1 H2]. split; [destruct t; discriminate|apply sortedb_sorted; exact H2].
    + apply table_eqb_eq. exact E2.
    + intros e (t & Ht & He). apply entry_in_sound. specialize (E3 t Ht). rewrite forallb_forall in E3. auto.
    + apply sepb_sound. exact E4.
    + exact (conj J1 (conj eq_refl (conj I eq_refl))).
Qed.

Lemma rrun_refines acts : forall s0 st os,
  DBInv s0 -> rrun s0 acts = Some (st, os) -> robs_ok (absm s0) (pend_of (rd s0)) acts os /\ DBInv st.
Proof.
  induction acts as [|a acts IH]; intros s0 st os HI Hr; cbn [rrun] in Hr.
  - injection Hr as <- <-. split; [exact I|exact HI].
  - destruct (rstep true s0 a) as [[s1 o]|] eqn:Hs; [|discriminate].
    destruct (rrun s1 acts) as [[s2 os']|] eqn:Hr'; [|discriminate]. injection Hr as <- <-.
    destruct (rstep_ok _ _ _ _ HI Hs) as (H1 & H2 & H3 & H4). destruct (IH _ _ _ H1 Hr') as [H5 H6].
    split; [|exact H6]. cbn [robs_ok]. split; [exact H3|]. rewrite <- H2, <- H4. exact H5.
Qed.

Theorem replay_refines_proof n acts st os :
  (2 <= n)%nat -> rrun (rinit n) acts = Some (st, os) -> robs_ok [] None acts os.
Proof.
  intros Hn Hr. rewrite rinit_init in Hr. destruct (rrun_refines acts _ _ _ (init_inv _ (rcfg_ok n Hn)) Hr) as [H _].
  rewrite absm_init in H. exact H.
Qed.

(* C18 without the compaction policy: ANY legal change set preserves validity and every read *)
Theorem legal_cs_preserves_proof ll cs :
  valid ll -> good_csb ll cs = true ->
  valid (apply_cs cs ll) /\ (forall k, ll_get k (apply_cs cs ll) = ll_get k ll) /\
  (forall p, ll_scan p (apply_cs cs ll) = ll_scan p ll) /\ view (apply_cs cs ll) = view ll /\
  (forall e, ents (apply_cs cs ll) e -> ents ll e).
Proof.
  intros Hval Hb. exact (good_cs_preserves ll cs Hval (good_csb_sound _ _ Hb)).
Qed.
