(* C18: iterating Compact until it returns nil terminates (when no flush adds tables meanwhile), on a valid layout,
   and the final layout is valid with the same content. *)
From Coq Require Import List NArith Bool Lia Wf_nat.
From RV Require Import Base.Bytes Model.LsmBase Model.LsmCompaction
  Proofs.C18_Layout Proofs.C18_Apply Proofs.C18_Compact Proofs.C18_Main.
Import ListNotations.
Open Scope N_scope.

Definition upper_count (ll : levels) : nat := length (concat (removelast ll)).

Lemma firstn_apply_from n b cs ll : firstn n (apply_from b cs ll) = apply_from b cs (firstn n ll).
Proof. revert n b. induction ll as [|l ll IH]; intros [|n] b; cbn; [reflexivity..|]. rewrite IH. reflexivity. Qed.

Lemma apply_from_filter b cs L : (b + length L <= cs_level cs)%nat -> apply_from b cs L = map (filter (keep cs)) L.
Proof.
  revert b. induction L as [|l L IH]; intros b H; [reflexivity|]. cbn [apply_from map]. cbn in H.
  destruct (Nat.eqb b (cs_level cs)) eqn:E; [apply Nat.eqb_eq in E; lia|]. f_equal. apply IH. lia.
Qed.

Lemma filter_length_le {A} (f : A -> bool) l : (length (filter f l) <= length l)%nat.
Proof. induction l as [|x l IH]; cbn; [lia|]. destruct (f x); cbn; lia. Qed.
Lemma filter_length_lt {A} (f : A -> bool) l x : In x l -> f x = false -> (length (filter f l) < length l)%nat.
Proof.
  induction l as [|y l IH]; [intros []|]. intros [<-|Hx] Hf; cbn.
  - rewrite Hf. pose proof (filter_length_le f l). lia.
  - specialize (IH Hx Hf). destruct (f y); cbn; lia.
Qed.

Lemma major_decreases tsize cfg ll :
  (2 <= length ll)%nat -> (exists l, In l (removelast ll) /\ l <> []) ->
  (upper_count (apply_cs (major tsize cfg ll) ll) < upper_count ll)%nat.
Proof.
  intros Hlen Hup. destruct (major_takes_upper tsize cfg ll Hlen Hup) as (l & t & Hl & Ht & HtR).
  unfold upper_count, apply_cs. rewrite !removelast_firstn_len, length_apply, firstn_apply_from in *.
  rewrite apply_from_filter, concat_filter_map by (rewrite firstn_length; cbn; lia).
  apply (filter_length_lt _ _ t); [apply in_concat; eauto|]. unfold keep. apply negb_false_iff, tmem_in, HtR.
Qed.

(* Lexicographic measure: a minor step moves the cursor on (it returns to 0 only after passing the last level, and
   leaves 0 at once); a major step keeps the cursor and takes a table away from the upper levels. *)
Definition phase (n mcl : nat) : nat := match mcl with O => S n | _ => (n - mcl)%nat end.

Theorem compact_fixpoint_thm tsize cfg mcl ll :
  good_cfg cfg -> valid ll ->
  exists fuel ll' mcl', compact_loop tsize fuel cfg mcl ll = Some (ll', mcl') /\ valid ll' /\ view ll' = view ll.
Proof.
  intros Hcfg Hval. remember (phase (length ll) mcl) as p eqn:Hp. remember (upper_count ll) as u eqn:Hu.
  revert mcl ll Hval Hp Hu. pattern p, u. apply lt_wf_double_ind. clear p u. intros p u IHp IHu mcl ll Hval Hp Hu.
  destruct (compact tsize cfg mcl ll) as [[cs|] m] eqn:Hc; [|exists 1%nat, ll, m; cbn [compact_loop]; rewrite Hc; auto].
  pose proof Hval as (Hv & Hlen & Hne).
  destruct (good_cs_preserves _ _ Hval (compact_good tsize cfg ll mcl cs m Hv Hlen (proj1 Hcfg) (proj2 Hcfg) Hne Hc)) as (Hv2 & _ & _ & Hview & _).
  pose proof (length_apply cs ll) as Hlen'.
  assert (Hnext : exists fuel ll' mcl', compact_loop tsize fuel cfg m (apply_cs cs ll) = Some (ll', mcl') /\ valid ll' /\ view ll' = view (apply_cs cs ll)).
  { destruct (compact_cases tsize cfg _ _ _ _ Hlen (proj2 Hcfg) Hc) as [(-> & -> & Hup)|(i & Hi & _ & -> & Hm & _)].
    - subst u. eapply (IHu _ (major_decreases tsize cfg ll Hlen Hup)); [exact Hv2|rewrite Hlen'; exact Hp|reflexivity].
    - eapply (IHp (phase (length ll) (S i))); [|exact Hv2|rewrite Hlen'; reflexivity|reflexivity]. subst p. destruct mcl; cbn; lia. }
  destruct Hnext as (fuel & ll' & mcl' & H1 & H2 & H3). exists (S fuel), ll', mcl'. cbn [compact_loop]. rewrite Hc, <- Hview, <- H3. auto.
Qed.
