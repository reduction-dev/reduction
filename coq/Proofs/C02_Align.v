(* C02: the inductive invariant of Model.Align.  Every action is a composition of a few elementary moves
   (a sender changes mode; the data takes a handler call, an entry or a loss; a delivery is acted on;
   a barrier is registered; the checkpoint is cut), each of which keeps the invariant. *)
From RV Require Import Model.Align Base.Lists Proofs.C02_Data.
From Coq Require Import List NArith Bool Arith Lia.
Import ListNotations.
Open Scope N_scope.

Definition items_of (x : st) (s : nat) : list item := nth s (sent x) [].
Definition acted (x : st) (s : nat) : nat := length (items_of x s).
(* the sender's barrier of the checkpoint in progress has been registered *)
Definition reg (x : st) (s : nat) : Prop := exists cur m, ckpt x = Some (cur, m) /\ ~ In s m.

(* what a log entry says about the delivery of its origin *)
Definition stems (it : item) (e : lentry) : Prop :=
  match e with
  | LAct _ it' _ => it' = it
  | LApp (BEv _ id key tm) => it = IEv id key tm
  | LApp (BTm _ _ _) => exists t, it = IWm t
  | _ => True
  end.
(* logged, or what the next handler call will log *)
Definition seen (x : st) (e : lentry) : Prop := In e (log (dt x)) \/ exists b, e = LApp b /\ In b (batch (dt x)).
(* every keyed event acted on has been applied (its LApp is logged) or is pending in the batch *)
Definition cev (x : st) : Prop :=
  forall s j id key tm, nth_error (items_of x s) j = Some (IEv id key tm) ->
      In (LApp (BEv (s, j) id key tm)) (log (dt x)) \/ In (BEv (s, j) id key tm) (batch (dt x)).
Definition barrier_last (x : st) (s : nat) (cur : N) : Prop :=
  exists b, acted x s = S b /\ nth_error (items_of x s) b = Some (IBar cur) /\ In (LAct (s, b) (IBar cur) true) (log (dt x)).

(* the log splits at a checkpoint record exactly at sender s's barrier of that id, delivered at position b s *)
Definition cut_at (items : nat -> list item) (post : list lentry) (cid : N) (snap : snapshot) (pre : list lentry)
    (b : nat -> nat) (s : nat) : Prop :=
  nth_error (items s) (b s) = Some (IBar cid)
  /\ In (LAct (s, b s) (IBar cid) true) pre
  /\ (forall e j, In e pre -> entry_origin e = Some (s, j) -> (j <= b s)%nat)
  /\ (forall e j, In e post -> entry_origin e = Some (s, j) -> (b s < j)%nat)
  /\ (forall j id key tm, (j < b s)%nat -> nth_error (items s) j = Some (IEv id key tm) ->
        In (LApp (BEv (s, j) id key tm)) pre /\ In (BEv (s, j) id key tm) (fst snap))
  /\ (forall j t, (j < b s)%nat -> nth_error (items s) j = Some (IWm t) -> In (LAct (s, j) (IWm t) true) pre).
(* ... and what is still pending stems from later deliveries *)
Definition cut_ok (c : cfg) (x : st) (post : list lentry) (cid : N) (snap : snapshot) (pre : list lentry) : Prop :=
  (forall bi, In bi (fst snap) <-> In (LApp bi) pre) /\
  exists b : nat -> nat, forall s, (s < n_senders c)%nat ->
    cut_at (items_of x) post cid snap pre b s /\
    forall bi j, In bi (batch (dt x)) -> org bi = (s, j) -> (b s < j)%nat.
Definition hist (c : cfg) (x : st) : Prop :=
  forall post cid snap pre, log (dt x) = post ++ LCkpt cid snap :: pre -> cut_ok c x post cid snap pre.

(* i_passed, i_parked: the gate (a sender past it is not registered; a registered sender that is still parked waits on the
   checkpoint object in progress).  i_cur: a registered sender's barrier is its last acted delivery.  i_src: whatever is
   logged or pending stems from the delivery its origin names.  i_cev, i_cwm: delivered keyed events are applied or pending,
   delivered watermarks are logged.  i_app: the applied set is the LApp entries of the log.  i_hist: every checkpoint
   record of the log is a consistent cut. *)
Record Inv (c : cfg) (x : st) : Prop := mkInv {
  i_len_m : length (modes x) = n_senders c;
  i_len_s : length (sent x) = n_senders c;
  i_passed : forall s it, nth_error (modes x) s = Some (Passed it) -> ~ reg x s;
  i_parked : forall s g it, nth_error (modes x) s = Some (Parked g it) -> reg x s -> g = done x;
  i_cur : forall cur m s, ckpt x = Some (cur, m) -> (s < n_senders c)%nat -> ~ In s m -> barrier_last x s cur;
  i_src : forall e s j, seen x e -> entry_origin e = Some (s, j) ->
      exists it, nth_error (items_of x s) j = Some it /\ stems it e;
  (* a handler failure loses the batch it took out: the operator then stops or waits for its redeploy *)
  i_cev : running x = true -> cev x;
  i_cwm : forall s j t, nth_error (items_of x s) j = Some (IWm t) -> In (LAct (s, j) (IWm t) true) (log (dt x));
  i_app : forall b, In b (applied (dt x)) <-> In (LApp b) (log (dt x));
  i_hist : hist c x }.
(* c and x are read off the goal before the fields are checked, so a record can be built field by field *)
Arguments mkInv c x & _ _ _ _ _ _ _ _ _ _.

Lemma items_fresh k ms ck dn y s : items_of (mkSt ms (repeat [] k) ck dn y) s = [].
Proof. apply nth_repeat. Qed.

Lemma Inv_fresh c ms dn y : length ms = n_senders c -> log y = [] -> batch y = [] -> applied y = [] ->
  Inv c (mkSt ms (repeat [] (n_senders c)) None dn y).
Proof.
  intros Hm Hl Hb Ha.
  refine {| i_len_m := Hm; i_len_s := repeat_length [] _; i_passed := ?[passed]; i_parked := ?[parked]; i_cur := ?[cur]; i_src := ?[src];
            i_cev := ?[cev]; i_cwm := ?[cwm]; i_app := ?[app]; i_hist := ?[hist] |};
    unfold reg, seen, cev, hist; cbn [modes sent ckpt dt].
  [passed]: { intros s it _ (? & ? & ? & _). discriminate. }
  [parked]: { intros s g it _ (? & ? & ? & _). discriminate. }
  [cur]: discriminate.
  [src]: { rewrite Hl, Hb. intros e s j [[]|(b & _ & [])]. }
  [cev]: { intros _ s j id key tm H. rewrite items_fresh in H. destruct j; discriminate. }
  [cwm]: { intros s j t H. rewrite items_fresh in H. destruct j; discriminate. }
  [app]: { rewrite Hl, Ha. intros b. split; intros []. }
  [hist]: { rewrite Hl. intros [|? post] cid snap pre H; discriminate. }
Qed.

Lemma Inv_init c : Inv c (init c).
Proof. apply Inv_fresh; auto. apply repeat_length. Qed.

Lemma should_park_reg x s : should_park x s = true <-> reg x s.
Proof.
  unfold should_park, reg. destruct (ckpt x) as [[cur m]|].
  - rewrite negb_true_iff, <- not_true_iff_false, mem_nat_In. split; [eauto|]. intros (? & ? & [= <- <-] & Hn). exact Hn.
  - split; [discriminate|]. intros (? & ? & ? & _). discriminate.
Qed.

Lemma Inv_with_mode c x s m : Inv c x ->
  (forall it, m = Passed it -> ~ reg x s) -> (forall g it, m = Parked g it -> reg x s -> g = done x) ->
  Inv c (with_mode x s m).
Proof.
  intros I Hp Hk.
  refine {| i_len_m := ?[len_m]; i_len_s := i_len_s _ _ I; i_passed := ?[passed]; i_parked := ?[parked]; i_cur := i_cur _ _ I; i_src := i_src _ _ I;
            i_cev := i_cev _ _ I; i_cwm := i_cwm _ _ I; i_app := i_app _ _ I; i_hist := i_hist _ _ I |}.
  [len_m]: { cbn. rewrite set_at_length. exact (i_len_m _ _ I). }
  [passed]: { intros s' it E. destruct (nth_error_set_at _ _ _ _ _ E) as [[-> <-]|E']; [exact (Hp _ eq_refl)|exact (i_passed _ _ I _ _ E')]. }
  [parked]: { intros s' g it E. destruct (nth_error_set_at _ _ _ _ _ E) as [[-> <-]|E']; [exact (Hk _ _ eq_refl)|exact (i_parked _ _ I _ _ _ E')]. }
Qed.

(* what keeps the cuts already taken when something of origin o is logged or made pending: o lies behind every barrier
   its sender has delivered *)
Definition behind (x : st) (o : origin) : Prop :=
  forall b cid, nth_error (items_of x (fst o)) b = Some (IBar cid) -> (b < snd o)%nat.

Lemma cut_at_ext items items' post post' cid snap pre b s :
  cut_at items post cid snap pre b s -> (exists l, items' s = items s ++ l) ->
  (forall e j, In e post' -> entry_origin e = Some (s, j) -> (b s < j)%nat) ->
  cut_at items' post' cid snap pre b s.
Proof.
  intros (B3 & B4 & B5 & _ & B7 & B8) (l & El) B6.
  assert (Hnth : forall j, (j <= b s)%nat -> nth_error (items' s) j = nth_error (items s) j).
  { intros j Hj. rewrite El. apply nth_error_app1. apply nth_error_lt in B3. lia. }
  split; [rewrite Hnth by lia; exact B3|]. do 3 (split; [assumption|]). split.
  - intros j id key tm Hj Hn. rewrite Hnth in Hn by lia. exact (B7 _ _ _ _ Hj Hn).
  - intros j t Hj Hn. rewrite Hnth in Hn by lia. exact (B8 _ _ Hj Hn).
Qed.

(* a list split at an element that its front part does not hold is split behind that part *)
Lemma app_split_behind {A} (new l post pre : list A) x : ~ In x new -> new ++ l = post ++ x :: pre ->
  exists post0, post = new ++ post0 /\ l = post0 ++ x :: pre.
Proof.
  revert post. induction new as [|a new IH]; intros post Hn H; [exists post; auto|].
  destruct post as [|p post]; injection H as -> H; [destruct Hn; left; reflexivity|].
  destruct (IH post (fun Hi => Hn (or_intror Hi)) H) as (p0 & -> & ?). exists p0. auto.
Qed.

(* The cuts recorded in the log survive an extension of log, items and batch in which no new checkpoint record appears and
   everything new that has an origin either was pending before (a batch entry now applied) or lies behind every barrier
   its sender has delivered. *)
Lemma hist_ext c x x' new :
  hist c x -> log (dt x') = new ++ log (dt x) ->
  (forall s, exists l, items_of x' s = items_of x s ++ l) ->
  (forall b, In b (batch (dt x')) -> In b (batch (dt x)) \/ behind x (org b)) ->
  (forall e, In e new -> (forall cid snap, e <> LCkpt cid snap) /\
      forall o, entry_origin e = Some o -> (exists b, e = LApp b /\ In b (batch (dt x))) \/ behind x o) ->
  hist c x'.
Proof.
  intros H L X Bt Hnew post cid snap pre HL. rewrite L in HL.
  destruct (app_split_behind _ _ _ _ _ (fun Hi => proj1 (Hnew _ Hi) cid snap eq_refl) HL) as (post0 & -> & H0).
  destruct (H _ _ _ _ H0) as (Hsnap & b & Hb). split; auto. exists b. intros s Hs.
  destruct (Hb s Hs) as (C & B2). pose proof C as (B3 & _ & _ & B6 & _). split.
  - apply (cut_at_ext _ _ _ _ _ _ _ _ _ C (X s)). intros e j He Ho. apply in_app_or in He. destruct He as [He|He]; [|eauto].
    destruct (proj2 (Hnew _ He) _ Ho) as [(bi & -> & Hbi)|Hbh]; [injection Ho as Ho; eauto|exact (Hbh _ _ B3)].
  - intros bi j Hi Ho. destruct (Bt _ Hi) as [Hi'|Hi']; [eauto|]. rewrite Ho in Hi'. exact (Hi' _ _ B3).
Qed.

(* entry b may join the batch: it stems from the last delivery of its sender *)
Definition fits (x : st) (b : bitem) : Prop :=
  exists it, acted x (fst (org b)) = S (snd (org b)) /\
             nth_error (items_of x (fst (org b))) (snd (org b)) = Some it /\ stems it (LApp b).

Lemma fits_behind x b : fits x b -> behind x (org b).
Proof.
  intros (it & Ha & Hn & Hs) j cid Hj. pose proof (nth_error_lt _ _ _ Hj) as Hlt. fold (acted x (fst (org b))) in Hlt.
  assert (j <> snd (org b)) by (intros ->; rewrite Hn in Hj; injection Hj as ->; destruct b; [discriminate Hs|destruct Hs; discriminate]).
  lia.
Qed.

(* The log grows by call markers and applications of pending entries; the batch gains only fitting entries and, as
   long as the operator runs, loses entries only to the log. *)
Lemma Inv_data c x y new :
  Inv c x -> log y = new ++ log (dt x) ->
  (forall e, In e new -> (exists w, e = LCall w) \/ exists b, e = LApp b /\ In b (batch (dt x))) ->
  (forall b, In b (batch y) -> In b (batch (dt x)) \/ fits x b) ->
  (running (set_d x y) = true -> running x = true /\ forall b, In b (batch (dt x)) -> In b (batch y) \/ In (LApp b) new) ->
  (forall b, In b (applied y) <-> In b (applied (dt x)) \/ In (LApp b) new) ->
  Inv c (set_d x y).
Proof.
  intros I L E B R A.
  refine {| i_len_m := i_len_m _ _ I; i_len_s := i_len_s _ _ I; i_passed := i_passed _ _ I; i_parked := i_parked _ _ I;
            i_cur := ?[cur]; i_src := ?[src]; i_cev := ?[cev]; i_cwm := ?[cwm]; i_app := ?[app]; i_hist := ?[hist] |};
    unfold cev; cbn [set_d dt].
  [cur]: { intros cur m s Ec Hs Hm. destruct (i_cur _ _ I _ _ _ Ec Hs Hm) as (b & ? & ? & ?). exists b. cbn. rewrite L.
    auto using in_or_app. }
  [src]: { intros e s j He Ho.
    assert (seen x e \/ exists b, e = LApp b /\ fits x b) as [H|(b & -> & it & _ & Hn & Hst)].
    { destruct He as [H|(b & -> & H)]; cbn in H.
      - rewrite L in H. apply in_app_or in H. destruct H as [H|H]; [|left; left; exact H].
        destruct (E _ H) as [(w & ->)|(b & -> & ?)]; [discriminate|left; right; eauto].
      - destruct (B _ H); [left; right|right]; eauto. }
    + exact (i_src _ _ I _ _ _ H Ho).
    + injection Ho as Ho. rewrite Ho in Hn. eauto. }
  [cev]: { rewrite L. intros Hr s j id key tm Hn. destruct (R Hr) as (Hr0 & P).
    destruct (i_cev _ _ I Hr0 _ _ _ _ _ Hn) as [H|H]; [left; apply in_or_app; auto|].
    destruct (P _ H); [right|left; apply in_or_app]; auto. }
  [cwm]: { rewrite L. intros s j t Hn. apply in_or_app. right. exact (i_cwm _ _ I _ _ _ Hn). }
  [app]: { intros b. rewrite A, L, in_app_iff, (i_app _ _ I). tauto. }
  [hist]: { apply (hist_ext c x _ new (i_hist _ _ I)); auto.
    + intros s. exists []. apply app_nil_end.
    + intros b Hb. destruct (B _ Hb); auto using fits_behind.
    + intros e He. destruct (E _ He) as [(w & ->)|(b & -> & Hb)]; (split; [discriminate|]); [discriminate|eauto]. }
Qed.

Lemma Inv_same c x y : Inv c x -> log y = log (dt x) -> batch y = batch (dt x) -> applied y = applied (dt x) ->
  (running (set_d x y) = true -> running x = true) -> Inv c (set_d x y).
Proof.
  intros I Hl Hb Ha R. apply (Inv_data c x y []); rewrite ?Hb, ?Ha; cbn; auto; tauto.
Qed.

(* pending entries are lost only as the operator stops or fails *)
Lemma Inv_lose c x y : Inv c x -> log y = log (dt x) -> batch y = [] -> applied y = applied (dt x) ->
  running (set_d x y) = false -> Inv c (set_d x y).
Proof.
  intros I Hl Hb Ha R. apply (Inv_data c x y []); rewrite ?Hb, ?Ha, ?R; cbn; auto; try tauto. discriminate.
Qed.

Lemma cev_flush x tok : cev x -> cev (set_d x (flush tok (dt x))).
Proof.
  intros H s j id key tm Hn. cbn [set_d dt]. destruct (flush_cases tok (dt x)) as [->|(_ & -> & _)]; [exact (H _ _ _ _ _ Hn)|].
  left. apply in_or_app. destruct (H _ _ _ _ _ Hn); [right; right|left; apply -> in_rev; apply in_map]; auto.
Qed.

Lemma Inv_flush c x tok : Inv c x -> Inv c (set_d x (flush tok (dt x))).
Proof.
  intros I. destruct (flush_cases tok (dt x)) as [->|(Hb & Hl & Ha)]; [destruct x; exact I|].
  apply (Inv_data c x _ (rev (map LApp (batch (dt x))) ++ [LCall (wm (dt x))])); auto.
  - rewrite Hl, <- app_assoc. reflexivity.
  - intros e He. apply in_snoc in He. destruct He as [He|<-]; [|eauto].
    apply in_rev, in_map_iff in He. destruct He as (b & <- & ?). eauto.
  - rewrite Hb. intros b [].
  - unfold running, stopped. cbn [set_d dt]. rewrite active_flush. split; [assumption|].
    intros b Hin. right. apply in_or_app. left. apply -> in_rev. apply in_map, Hin.
  - intros b. rewrite Ha, !in_app_iff, <- !in_rev, in_map_iff. split.
    + intros [H|H]; eauto.
    + intros [H|[(b' & [= ->] & H)|[[=]|[]]]]; auto.
Qed.

(* eventBatcher.Add, then the handler call if the batch is full *)
Lemma Inv_add c x b : Inv c x -> fits x b -> Inv c (set_d x (add_item c (dt x) b)).
Proof.
  intros I F. unfold add_item. set (y := mkDat (batch (dt x) ++ [b]) _ _ _ _ _ _ _ _ _ _).
  assert (Iy : Inv c (set_d x y)).
  { apply (Inv_data c x y []); cbn; auto; try tauto.
    - intros b' H. apply in_snoc in H. destruct H as [H|<-]; auto.
    - auto using in_or_app. }
  destruct (msize c <=? _); [exact (Inv_flush c _ None Iy)|exact Iy].
Qed.

(* handleWatermark: the due timers are yielded into the batch *)
Lemma Inv_fire_all c o fired : forall x, Inv c x -> (forall k ts, fits x (BTm o k ts)) ->
  Inv c (set_d x (fire_all c o fired (dt x))).
Proof.
  induction fired as [|tk fired IH]; intros x I F; cbn [fire_all]; [destruct x; exact I|].
  pose proof (Inv_add c x _ I (F (snd tk) (fst tk))) as I1.
  destruct (errored _ _); [apply (Inv_same c _ (set_timers _ _) I1); auto|exact (IH _ I1 F)].
Qed.

(* what handleUserEvent puts into the batch *)
Definition entries (o : origin) (it : item) : list bitem :=
  match it with IEv id key tm => [BEv o id key tm] | _ => [] end.

(* The event loop acts on delivery [it] of sender s, whose barrier is not registered: the LAct is logged, s's items grow by
   [it], the batch by [entries].  Everything is re-indexing over the grown list (Hnth); the two position facts of the
   conclusion are what the callers need for barrier_last and fits. *)
Lemma Inv_deliver c x s it : Inv c x -> running x = true -> (s < n_senders c)%nat -> ~ reg x s ->
  forall ok y, log y = LAct (s, acted x s) it ok :: log (dt x) -> batch y = batch (dt x) ++ entries (s, acted x s) it ->
  applied y = applied (dt x) -> (forall t, it = IWm t -> ok = true) ->
  let x' := mkSt (modes x) (set_nth s (items_of x s ++ [it]) (sent x)) (ckpt x) (done x) y in
  Inv c x' /\ acted x' s = S (acted x s) /\ nth_error (items_of x' s) (acted x s) = Some it.
Proof.
  intros I Hrun Hs Hnr ok y L B A Hwm x'. rewrite <- (i_len_s _ _ I) in Hs.
  assert (Hi : forall s', items_of x' s' = items_of x s' ++ if Nat.eqb s s' then [it] else []).
  { intros s'. unfold items_of; cbn. destruct (Nat.eqb_spec s s') as [<-|Hne].
    - apply nth_set_at_eq, Hs.
    - rewrite nth_set_at_neq, app_nil_r by exact Hne. reflexivity. }
  assert (Hnth : forall s' j v, nth_error (items_of x' s') j = Some v <->
             nth_error (items_of x s') j = Some v \/ (s' = s /\ j = acted x s /\ v = it)).
  { intros s' j v. rewrite Hi. destruct (Nat.eqb_spec s s') as [<-|Hne].
    - rewrite nth_error_snoc. unfold acted. intuition.
    - rewrite app_nil_r. intuition congruence. }
  assert (Hend : behind x (s, acted x s)) by (intros j cid Hj; exact (nth_error_lt _ _ _ Hj)).
  assert (Hent : forall b, In b (entries (s, acted x s) it) -> org b = (s, acted x s) /\ stems it (LApp b)).
  { intros b Hb. destruct it; [|contradiction..]. destruct Hb as [<-|[]]. split; reflexivity. }
  split; [|split; [unfold acted; rewrite Hi, Nat.eqb_refl, app_length; apply Nat.add_1_r|apply Hnth; auto]].
  refine {| i_len_m := i_len_m _ _ I; i_len_s := ?[len_s]; i_passed := i_passed _ _ I; i_parked := i_parked _ _ I;
            i_cur := ?[cur]; i_src := ?[src]; i_cev := ?[cev]; i_cwm := ?[cwm]; i_app := ?[app]; i_hist := ?[hist] |};
    unfold cev; subst x'; cbn [modes sent ckpt done dt].
  [len_s]: { rewrite set_at_length. exact (i_len_s _ _ I). }
  [cur]: { intros cur m s' Ec Hlt Hn. destruct (i_cur _ _ I _ _ _ Ec Hlt Hn) as (b & B1 & B2 & B3).
    exists b. unfold acted. rewrite Hi. destruct (Nat.eqb_spec s s') as [<-|_].
    + destruct Hnr. exists cur, m. auto.
    + rewrite app_nil_r. cbn. rewrite L. cbn. auto. }
  [src]: { intros e s' j He Ho.
    assert (seen x e \/ (entry_origin e = Some (s, acted x s) /\ stems it e)) as [H|(Ho' & Hst)].
    { destruct He as [H|(b & -> & H)]; cbn in H.
      - rewrite L in H. destruct H as [<-|H]; [right; split; reflexivity|left; left; exact H].
      - rewrite B in H. apply in_app_or in H. destruct H as [H|H]; [left; right; eauto|].
        right. destruct (Hent _ H) as (Hb & ?). cbn. rewrite Hb. auto. }
    + destruct (i_src _ _ I _ _ _ H Ho) as (it0 & Hn & ?). exists it0. split; [apply Hnth|]; auto.
    + rewrite Ho in Ho'. injection Ho' as -> ->. exists it. split; [apply Hnth|]; auto. }
  [cev]: { intros _ s' j id key tm Hn. rewrite L, B. apply Hnth in Hn. destruct Hn as [Hn|(-> & -> & <-)].
    + destruct (i_cev _ _ I Hrun _ _ _ _ _ Hn); [left; right|right; apply in_or_app]; auto.
    + right. apply in_or_app. right. left. reflexivity. }
  [cwm]: { intros s' j t Hn. rewrite L. apply Hnth in Hn. destruct Hn as [Hn|(-> & -> & <-)].
    + right. exact (i_cwm _ _ I _ _ _ Hn).
    + left. rewrite (Hwm t eq_refl). reflexivity. }
  [app]: { intros b. rewrite A, L, (i_app _ _ I). cbn. split; [auto|]. intros [[=]|H]; exact H. }
  [hist]: { apply (hist_ext c x _ [LAct (s, acted x s) it ok] (i_hist _ _ I)); auto.
    + intros s'. rewrite Hi. eauto.
    + intros b Hb. cbn in Hb. rewrite B in Hb. apply in_app_or in Hb. destruct Hb as [Hb|Hb]; [auto|].
      right. rewrite (proj1 (Hent _ Hb)). exact Hend.
    + intros e [<-|[]]. split; [discriminate|]. intros o [= <-]. auto. }
Qed.

(* a delivery that is acted on and adds nothing to the batch (a watermark, a barrier, SourceComplete) *)
Lemma Inv_deliver_acted c x s it : Inv c x -> running x = true -> (s < n_senders c)%nat -> ~ reg x s ->
  entries (s, acted x s) it = [] ->
  forall y, log y = LAct (s, acted x s) it true :: log (dt x) -> batch y = batch (dt x) -> applied y = applied (dt x) ->
  let x' := mkSt (modes x) (set_nth s (items_of x s ++ [it]) (sent x)) (ckpt x) (done x) y in
  Inv c x' /\ acted x' s = S (acted x s) /\ nth_error (items_of x' s) (acted x s) = Some it.
Proof.
  intros I Hrun Hs Hnr He y L B A. apply (Inv_deliver c x s it I Hrun Hs Hnr true y L); auto.
  rewrite He, app_nil_r. exact B.
Qed.

(* registerBarrier: sender s, whose last delivery was its barrier of checkpoint cur, is no longer awaited *)
Lemma Inv_register c x s cur m :
  Inv c x -> failed x = false -> nth_error (modes x) s = Some Idle -> barrier_last x s cur ->
  match ckpt x with Some cm => cm | None => (cur, seq 0 (n_senders c)) end = (cur, m) ->
  Inv c (mkSt (modes x) (sent x) (Some (cur, remove_nat s m)) (done x) (dt x)).
Proof.
  intros I F Hm Hl Ecm. set (x' := mkSt _ _ _ _ _).
  (* registered after the step: s itself, or registered before *)
  assert (Hreg : forall s', (s' < n_senders c)%nat -> reg x' s' -> s' = s \/ ckpt x = Some (cur, m) /\ ~ In s' m).
  { intros s' Hlt (cur' & m' & [= <- <-] & Hn). destruct (Nat.eq_dec s' s); auto. right.
    rewrite in_remove_nat in Hn. destruct (ckpt x) as [cm|].
    - subst cm. tauto.
    - injection Ecm as <-. destruct Hn. split; auto. apply in_seq. lia. }
  (* a sender that is not idle and registered after the step was registered before (s is idle) *)
  assert (Hmr : forall s' md, nth_error (modes x) s' = Some md -> md <> Idle -> reg x' s' -> reg x s').
  { intros s' md H Hmd R. destruct (Hreg s') as [->|[? ?]]; auto; [|congruence|exists cur, m; auto].
    rewrite <- (i_len_m _ _ I). eapply nth_error_lt; eauto. }
  refine {| i_len_m := i_len_m _ _ I; i_len_s := i_len_s _ _ I; i_passed := ?[passed]; i_parked := ?[parked]; i_cur := ?[cur]; i_src := i_src _ _ I;
            i_cev := ?[cev]; i_cwm := i_cwm _ _ I; i_app := i_app _ _ I; i_hist := i_hist _ _ I |}.
  [passed]: { intros s' it H R. apply (i_passed _ _ I _ _ H). apply (Hmr _ _ H); [discriminate|exact R]. }
  [parked]: { intros s' g it H R. apply (i_parked _ _ I _ _ _ H). apply (Hmr _ _ H); [discriminate|exact R]. }
  [cur]: { intros cur' m' s' [= <- <-] Hlt Hn. destruct (Hreg s' Hlt) as [->|[E Hn0]];
      [exists cur, (remove_nat s m); auto|exact Hl|exact (i_cur _ _ I _ _ _ E Hlt Hn0)]. }
  [cev]: { intros R. apply (i_cev _ _ I). unfold running in *. rewrite F. cbn [x' dt] in R. destruct (stopped (dt x)); auto. }
Qed.

(* every barrier is registered and nothing is pending: the log as it stands is a consistent cut *)
Lemma cut_now c z cur :
  Inv c z -> cev z -> ckpt z = Some (cur, []) -> batch (dt z) = [] ->
  cut_ok c z [] cur (applied (dt z), timers (dt z)) (log (dt z)).
Proof.
  intros I Hcev Ec Hb. pose proof (i_app _ _ I) as Hsnap. split; [exact Hsnap|].
  exists (fun s => pred (acted z s)). intros s Hs. rewrite Hb. split; [|intros bi j []].
  destruct (i_cur _ _ I _ _ _ Ec Hs (fun H => H)) as (b & B1 & B2 & B3). unfold cut_at. rewrite B1. cbn [pred fst].
  split; [exact B2|]. split; [exact B3|]. split; [|split; [intros e j []|split]].
  - intros e j He Ho. destruct (i_src _ _ I _ _ _ (or_introl He) Ho) as (it & Hn & _).
    apply nth_error_lt in Hn. fold (acted z s) in Hn. lia.
  - intros j id key tm Hj Hn. rewrite Hsnap. destruct (Hcev _ _ _ _ _ Hn) as [?|Hx]; auto. rewrite Hb in Hx. destruct Hx.
  - intros j t Hj Hn. apply (i_cwm _ _ I _ _ _ Hn).
Qed.

(* all barriers are in: db.Checkpoint, report, clear *)
Lemma Inv_complete c z cur :
  Inv c z -> cev z -> ckpt z = Some (cur, []) -> batch (dt z) = [] ->
  Inv c (mkSt (modes z) (sent z) None (done z + 1) (push_log (LCkpt cur (applied (dt z), timers (dt z))) (dt z))).
Proof.
  intros I Hcev Ec Hb.
  refine {| i_len_m := i_len_m _ _ I; i_len_s := i_len_s _ _ I; i_passed := ?[passed]; i_parked := ?[parked]; i_cur := ?[cur]; i_src := ?[src];
            i_cev := ?[cev]; i_cwm := ?[cwm]; i_app := ?[app]; i_hist := ?[hist] |};
    cbn [modes sent ckpt done dt push_log log batch applied].
  [passed]: { intros s it _ (? & ? & ? & _). discriminate. }
  [parked]: { intros s g it _ (? & ? & ? & _). discriminate. }
  [cur]: discriminate.
  [src]: intros e s j [[<-|H]|H] Ho; [discriminate| |]; apply (i_src _ _ I); unfold seen; auto.
  [cev]: { intros _ s j id key tm H. destruct (Hcev _ _ _ _ _ H); [left; right|right]; auto. }
  [cwm]: { intros s j t H. right. apply (i_cwm _ _ I _ _ _ H). }
  [app]: { intros b. rewrite (i_app _ _ I). cbn. split; [auto|]. intros [[=]|H]; exact H. }
  [hist]: { intros post cid snap pre H. destruct post as [|e post].
    + injection H as <- <- <-. exact (cut_now c z cur I Hcev Ec Hb).
    + (* older records: the new one has no origin *)
      injection H as <- H. destruct (i_hist _ _ I _ _ _ _ H) as (Hsnap & b & Hbb). split; auto. exists b. intros s Hs.
      destruct (Hbb s Hs) as (C & B2). split; [|exact B2]. apply (cut_at_ext _ _ _ _ _ _ _ _ _ C); [exists []; apply app_nil_end|].
      intros e j [<-|He] Ho; [discriminate|]. apply C in Ho; auto. }
Qed.

Lemma Inv_handle_item c hf x s it : Inv c x -> running x = true ->
  nth_error (modes x) s = Some (Passed it) -> Inv c (handle_item c hf x s it).
Proof.
  intros I Hrun Hmode. pose proof (nth_error_lt _ _ _ Hmode) as Hsm.
  pose proof (Inv_with_mode c x s Idle I ltac:(discriminate) ltac:(discriminate)) as I0.
  rewrite (i_len_m _ _ I) in Hsm.
  pose proof (Inv_deliver c _ s it I0 Hrun Hsm (i_passed _ _ I _ _ Hmode)) as D.
  pose proof (fun E => Inv_deliver_acted c _ s it I0 Hrun Hsm (i_passed _ _ I _ _ Hmode) E) as Dacted.
  unfold handle_item. change (length (nth s (sent x) [])) with (acted x s). change (nth s (sent x) []) with (items_of x s).
  destruct it as [id key tm|t|cid|].
  - unfold add_item. cbn [push_log batch]. set (y := mkDat (batch (dt x) ++ _) _ _ _ _ _ _ _ _ _ _).
    destruct (D true y) as (Iy & _); auto.
    destruct (msize c <=? _); [exact (Inv_flush c _ None Iy)|exact Iy].
  - unfold handle_wm. cbn [push_log timers]. destruct (tsplit _ _) as [fired rest]. set (y := mkDat _ _ _ _ _ _ _ _ _ _ _).
    destruct (Dacted eq_refl y eq_refl eq_refl eq_refl) as (Iy & E1 & E2).
    apply (Inv_fire_all c _ fired _ Iy). intros k ts. exists (IWm t). cbn. eauto.
  - destruct (match ckpt x with Some cm => cm | None => (cid, seq 0 (n_senders c)) end) as [cur m] eqn:Ecm.
    assert (Hck : cid <> cur -> ckpt x = Some (cur, m)) by (destruct (ckpt x); congruence).
    destruct (N.eqb_spec cid cur) as [->|Hne]; cbn [negb].
    2:{ rewrite <- (Hck Hne). apply (D false (push_log _ (dt x)) eq_refl (app_nil_end _) eq_refl). discriminate. }
    (* accepted: registered once the delivery has been acted on *)
    set (d0 := push_log _ (dt x)). destruct (Dacted eq_refl d0 eq_refl eq_refl eq_refl) as (Iz & E1 & E2).
    assert (Ir : Inv c (mkSt (set_nth s Idle (modes x)) (set_nth s (items_of x s ++ [IBar cur]) (sent x))
                             (Some (cur, remove_nat s m)) (done x) d0)).
    { apply (Inv_register c _ s cur m Iz); auto.
      - unfold running in Hrun. apply andb_true_iff in Hrun. apply negb_true_iff, Hrun.
      - apply nth_error_set_at_eq. rewrite (i_len_m _ _ I). exact Hsm.
      - exists (acted x s). repeat split; auto. left. reflexivity. }
    destruct (remove_nat s m) as [|r m']; [|exact Ir]. destruct (hf && _).
    + (* the handler fails on the flush in front of the cut: the batch it took out is lost *)
      apply (Inv_lose c _ (drop_batch d0) Ir); auto. unfold running, failed. cbn [set_d ckpt]. apply andb_false_r.
    + pose proof (Inv_flush c _ None Ir) as I1. destruct (errored _ _); [exact I1|].
      apply (Inv_complete c _ cur I1); auto; [|apply flush_none_batch]. apply cev_flush. exact (i_cev _ _ Iz Hrun).
  - (* SourceComplete: flush, then the runner is deactivated *)
    set (d0 := push_log _ (dt x)). destruct (Dacted eq_refl d0 eq_refl eq_refl eq_refl) as (Iz & _).
    pose proof (Inv_flush c _ None Iz) as I1.
    destruct (errored _ _); [exact I1|]. apply (Inv_same c _ _ I1); auto.
    unfold running, stopped. cbn [set_d dt set_active active remove_nat].
    destruct (active (flush None d0)); [discriminate|]. intros H. apply andb_true_iff in H. apply H.
Qed.

Lemma step_handle_item c x s x' : step c x (Handle s) = Some x' \/ step c x (HandleFail s) = Some x' ->
  exists hf it, running x = true /\ nth_error (modes x) s = Some (Passed it) /\ x' = handle_item c hf x s it.
Proof.
  unfold running, stopped.
  intros [H|H]; unfold step in H; destruct (failed x); try discriminate;
    destruct (nth_error (modes x) s) as [[| |it]|]; try discriminate.
  - destruct (active (dt x)); [discriminate|]. injection H as <-. exists false, it. auto.
  - destruct it as [| |cid|]; try discriminate. destruct (active (dt x)); [discriminate|]. injection H as <-.
    exists true, (IBar cid). auto.
Qed.

(* An operator that has stopped, or failed a cut, takes part in nothing until it is redeployed: senders may still come to
   the gate, the batch timer may fire and a fault may be armed, but nothing is handled, flushed, cut or deactivated. *)
Lemma not_running_step c x a x' : running x = false -> step c x a = Some x' ->
  a = Deploy \/ (log (dt x') = log (dt x) /\ applied (dt x') = applied (dt x) /\ ckpt x' = ckpt x /\ active (dt x') = active (dt x)).
Proof.
  unfold running, stopped. rewrite <- negb_orb, negb_false_iff. intros R H.
  destruct a; unfold step, stopped in H.
  - (* Gate *) right.
    destruct (failed x); [discriminate|]. destruct (nth_error (modes x) s) as [[| |]|]; try discriminate. injection H as <-. cbn. auto.
  - (* Wake *) right.
    destruct (failed x); [discriminate|]. destruct (nth_error (modes x) s) as [[|g it|]|]; try discriminate.
    destruct (g <? done x); [|discriminate]. injection H as <-. cbn. auto.
  - (* Handle: not failed, so stopped: no active runner *)
    destruct (failed x); [discriminate|]. destruct (active (dt x)); [|discriminate R]. destruct (nth_error (modes x) s) as [[| |]|]; discriminate.
  - (* TimerFire *) right.
    destruct (armed (dt x)); [|discriminate]. injection H as <-. cbn. auto.
  - (* Timeout: disabled *)
    rewrite <- orb_assoc, R, orb_true_r in H. discriminate.
  - (* Cancel *) right.
    destruct (nth_error (modes x) s) as [[| |]|]; try discriminate. injection H as <-. auto.
  - (* Fault *) right.
    destruct (sinkfault (dt x)); [discriminate|]. injection H as <-. cbn. auto.
  - (* Deploy *) left. reflexivity.
  - (* TimeoutFail: disabled *)
    rewrite <- orb_assoc, R, orb_true_r in H. discriminate.
  - (* HandleFail: as Handle *)
    destruct (failed x); [discriminate|]. destruct (active (dt x)); [|discriminate R]. destruct (nth_error (modes x) s) as [[| |[| | |]]|]; discriminate.
Qed.

Definition infl (m : mode) : list item := match m with Idle => [] | Parked _ it => [it] | Passed it => [it] end.
(* what sender s has handed over in this deployment: the deliveries acted on and the one in flight.  Unlike [items_of x s],
   a prefix of [script acts s], it follows the schedule exactly ([exec_inv]). *)
Definition full (x : st) (s : nat) : list item := items_of x s ++ infl (nth s (modes x) Idle).
Definition gate_item (a : action) (s : nat) : list item :=
  match a with Gate s' it => if Nat.eqb s' s then [it] else [] | _ => [] end.

Lemma handle_item_frame c hf x s it :
  modes (handle_item c hf x s it) = set_nth s Idle (modes x) /\
  sent (handle_item c hf x s it) = set_nth s (items_of x s ++ [it]) (sent x).
Proof.
  unfold handle_item. destruct it as [id key tm|t|cid|]; try (cbn; auto).
  destruct (match ckpt x with Some cm => cm | None => _ end) as [cur m].
  destruct (negb _); [cbn; auto|]. destruct (remove_nat s m); [|cbn; auto].
  destruct (hf && _); [cbn; auto|]. destruct (errored _ _); cbn; auto.
Qed.

Lemma forallb_idle_nth ms s : forallb (fun m => match m with Idle => true | _ => false end) ms = true -> nth s ms Idle = Idle.
Proof.
  revert s; induction ms as [|m ms IH]; intros [|s] H; cbn in *; auto; destruct m; try discriminate; auto.
Qed.

Lemma full_with_mode x s0 m m' g s : nth_error (modes x) s0 = Some m -> infl m' = infl m ++ g ->
  full (with_mode x s0 m') s = full x s ++ if Nat.eqb s0 s then g else [].
Proof.
  intros Hm Eg. unfold full, with_mode, items_of; cbn [modes sent]. destruct (Nat.eqb_spec s0 s) as [<-|Hne].
  - rewrite nth_set_at_eq by (eapply nth_error_lt; eauto). rewrite (nth_error_nth _ _ Idle Hm), <- app_assoc, Eg. reflexivity.
  - rewrite nth_set_at_neq, app_nil_r by exact Hne. reflexivity.
Qed.

Lemma full_handle c hf x s0 it s : nth_error (modes x) s0 = Some (Passed it) -> (s0 < length (sent x))%nat ->
  full (handle_item c hf x s0 it) s = full x s.
Proof.
  intros Hm Hs. destruct (handle_item_frame c hf x s0 it) as (Em & Es). unfold full, items_of. rewrite Em, Es.
  destruct (Nat.eq_dec s0 s) as [<-|Hne].
  - rewrite !nth_set_at_eq by (eauto using nth_error_lt). rewrite (nth_error_nth _ _ Idle Hm). apply app_nil_r.
  - rewrite !nth_set_at_neq by exact Hne. reflexivity.
Qed.

Lemma step_gate c x s0 it x' : Inv c x -> step c x (Gate s0 it) = Some x' ->
  Inv c x' /\ forall s, full x' s = full x s ++ gate_item (Gate s0 it) s.
Proof.
  intros I H. unfold step in H.
  destruct (failed x); [discriminate|]. destruct (nth_error (modes x) s0) as [[| |]|] eqn:E; try discriminate. injection H as <-.
  split; [apply (Inv_with_mode c x s0 _ I)|].
  - intros it' Hp R. apply should_park_reg in R. rewrite R in Hp. discriminate.
  - intros g it' Hp _. destruct (should_park x s0); congruence.
  - intros s. apply (full_with_mode x s0 Idle _ [it] s E). destruct (should_park x s0); reflexivity.
Qed.

Lemma step_wake c x s0 x' : Inv c x -> step c x (Wake s0) = Some x' -> Inv c x' /\ forall s, full x' s = full x s.
Proof.
  intros I H. unfold step in H.
  destruct (failed x); [discriminate|]. destruct (nth_error (modes x) s0) as [[|g it|]|] eqn:E; try discriminate.
  destruct (N.ltb_spec g (done x)) as [G|]; [|discriminate]. injection H as <-.
  split; [apply (Inv_with_mode c x s0 _ I); [|discriminate]|].
  - intros it' _ R. pose proof (i_parked _ _ I _ _ _ E R). lia.
  - intros s. rewrite (full_with_mode x s0 _ _ [] s E) by reflexivity. destruct (Nat.eqb s0 s); apply app_nil_r.
Qed.

Lemma step_handle c x s0 x' : Inv c x -> step c x (Handle s0) = Some x' \/ step c x (HandleFail s0) = Some x' ->
  Inv c x' /\ forall s, full x' s = full x s.
Proof.
  intros I H. destruct (step_handle_item c x s0 x' H) as (hf & it & R & Hm & ->).
  pose proof (nth_error_lt _ _ _ Hm) as Hs. rewrite (i_len_m _ _ I), <- (i_len_s _ _ I) in Hs.
  split; [exact (Inv_handle_item c hf x s0 it I R Hm)|intros s; exact (full_handle c hf x s0 it s Hm Hs)].
Qed.

Lemma step_timer_fire c x x' : Inv c x -> step c x TimerFire = Some x' -> Inv c x' /\ forall s, full x' s = full x s.
Proof.
  intros I H. unfold step in H. destruct (armed (dt x)); [|discriminate]. injection H as <-. split; [apply Inv_same|]; auto.
Qed.

Lemma step_timeout c x x' : Inv c x -> step c x Timeout = Some x' -> Inv c x' /\ forall s, full x' s = full x s.
Proof.
  intros I H. unfold step in H. destruct (sinkfault (dt x) || stopped (dt x) || failed x); [discriminate|].
  destruct (inflight (dt x)) as [|t r]; [discriminate|]. injection H as <-.
  split; [|reflexivity]. apply (Inv_flush c (set_d x _)). apply Inv_same; auto.
Qed.

Lemma step_cancel c x s0 x' : Inv c x -> step c x (Cancel s0) = Some x' -> Inv c x' /\ forall s, full x' s = full x s.
Proof.
  intros I H. unfold step in H. destruct (nth_error (modes x) s0) as [[| |]|]; try discriminate. injection H as <-. auto.
Qed.

Lemma step_fault c x x' : Inv c x -> step c x Fault = Some x' -> Inv c x' /\ forall s, full x' s = full x s.
Proof.
  intros I H. unfold step in H. destruct (sinkfault (dt x)); [discriminate|]. injection H as <-. split; [apply Inv_same|]; auto.
Qed.

(* HandleDeploy while no call is outstanding and nothing is pending: a fresh deployment *)
Lemma step_deploy c x x' : Inv c x -> step c x Deploy = Some x' -> Inv c x' /\ forall s, full x' s = [].
Proof.
  intros I H. unfold step in H.
  destruct (forallb _ (modes x)) eqn:Hidle; [|discriminate]. destruct (batch (dt x)); [|discriminate].
  destruct (stopped (dt x)); [discriminate|]. injection H as <-. split; [apply Inv_fresh; [exact (i_len_m _ _ I)|reflexivity..]|].
  intros s. unfold full. rewrite items_fresh. cbn [modes]. rewrite (forallb_idle_nth _ _ Hidle). reflexivity.
Qed.

(* the handler fails on a time-out flush: the batch is lost, the operator stops *)
Lemma step_timeout_fail c x x' : Inv c x -> step c x TimeoutFail = Some x' -> Inv c x' /\ forall s, full x' s = full x s.
Proof.
  intros I H. unfold step in H. destruct (sinkfault (dt x) || stopped (dt x) || failed x); [discriminate|].
  destruct (inflight (dt x)) as [|t r]; [discriminate|]. cbn zeta in H.
  destruct (batch (dt x)) as [|b0 bs] eqn:Eb; [|destruct (t =? btoken (dt x))]; injection H as <-;
    (split; [|reflexivity]); try solve [apply Inv_same; auto].
  apply Inv_lose; auto.
Qed.

Lemma step_ok c x a x' : Inv c x -> step c x a = Some x' ->
  Inv c x' /\ forall s, full x' s = match a with Deploy => [] | Gate _ _ => full x s ++ gate_item a s | _ => full x s end.
Proof.
  intros I H.
  destruct a as [s0 it|s0|s0| | |s0| | | |s0];
    [exact (step_gate c x s0 it x' I H)|exact (step_wake c x s0 x' I H)|exact (step_handle c x s0 x' I (or_introl H))
    |exact (step_timer_fire c x x' I H)|exact (step_timeout c x x' I H)|exact (step_cancel c x s0 x' I H)
    |exact (step_fault c x x' I H)|exact (step_deploy c x x' I H)|exact (step_timeout_fail c x x' I H)
    |exact (step_handle c x s0 x' I (or_intror H))].
Qed.

Lemma script_cons a acts s :
  script (a :: acts) s = if has_deploy acts then script acts s else gate_item a s ++ script acts s.
Proof.
  unfold script. cbn [after_deploy]. destruct (has_deploy acts) eqn:Hd; [reflexivity|].
  assert (E : after_deploy acts = acts).
  { clear a. induction acts as [|a acts IH]; [reflexivity|]. cbn in *. destruct a; try discriminate; rewrite Hd; reflexivity. }
  rewrite E. destruct a; cbn; auto. destruct (Nat.eqb s0 s); reflexivity.
Qed.

Lemma exec_inv c acts : forall x x', Inv c x -> exec c x acts = Some x' ->
  Inv c x' /\ forall s, full x' s = (if has_deploy acts then [] else full x s) ++ script acts s.
Proof.
  induction acts as [|a acts IH]; intros x x' I H; cbn [exec] in H.
  - injection H as <-. split; auto. intros s. cbn. rewrite app_nil_r. reflexivity.
  - destruct (step c x a) as [x1|] eqn:E; [|discriminate]. destruct (step_ok _ _ _ _ I E) as (I1 & Hs).
    destruct (IH _ _ I1 H) as (I' & Hf). split; auto.
    intros s. rewrite Hf, script_cons, Hs.
    destruct a; cbn [has_deploy gate_item app]; destruct (has_deploy acts); rewrite ?app_assoc; reflexivity.
Qed.

Lemma exec_init c acts x : exec c (init c) acts = Some x ->
  Inv c x /\ forall s, exists l, script acts s = items_of x s ++ l.
Proof.
  intros H. destruct (exec_inv c acts _ _ (Inv_init c) H) as (I & Hf). split; auto.
  intros s. exists (infl (nth s (modes x) Idle)). fold (full x s). rewrite Hf.
  unfold full, init. rewrite items_fresh. cbn [modes]. rewrite nth_repeat. destruct (has_deploy acts); reflexivity.
Qed.

Lemma log_stems c acts x e s j : exec c (init c) acts = Some x -> In e (log (dt x)) -> entry_origin e = Some (s, j) ->
  exists it, nth_error (script acts s) j = Some it /\ stems it e.
Proof.
  intros H He Ho. destruct (exec_init _ _ _ H) as (I & Hs). destruct (Hs s) as (l & El).
  destruct (i_src _ _ I _ _ _ (or_introl He) Ho) as (it & Hn & Hst). exists it. split; [|exact Hst].
  rewrite El, nth_error_app1; eauto using nth_error_lt.
Qed.
