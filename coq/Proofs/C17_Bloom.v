(* dkv/bloom/bloom.go : the filter never answers "absent" for a key that was added (no false negative),
   and Decode inverts Encode on every well-formed filter, in particular on the filter a table writer builds. *)
From RV Require Import Model.SstTable Proofs.C17_Codec.
From RV Require Import Base.Lists.
From Coq Require Import ZifyN ZifyNat ZifyBool.
Open Scope N_scope.

(* for an element of the list: something its own step establishes and the later steps keep *)
Lemma fold_left_In {A B} (P : A -> Prop) (Q : B -> A -> Prop) (f : A -> B -> A) :
  (forall a b, P a -> P (f a b)) -> (forall a b, P a -> Q b (f a b)) -> (forall a b b', Q b a -> Q b (f a b')) ->
  forall l a b, P a -> In b l -> Q b (fold_left f l a).
Proof.
  intros HP HQ Hkeep. induction l as [|b' l IH]; intros a b Ha Hb; [destruct Hb|].
  cbn [fold_left]. destruct Hb as [->|Hb].
  - apply (fold_left_inv _ (Q b)); [intros a'; apply Hkeep|apply HQ, Ha].
  - apply IH; [apply HP, Ha|exact Hb].
Qed.

Lemma upd_nth_length : forall l n f, length (upd_nth n f l) = length l.
Proof. induction l as [|x l IH]; intros [|n] f; cbn [upd_nth length]; [..|rewrite IH]; reflexivity. Qed.

Lemma nth_upd_nth : forall l n m f,
  nth m (upd_nth n f l) 0 = if (n =? m)%nat && (n <? length l)%nat then f (nth m l 0) else nth m l 0.
Proof.
  induction l as [|x l IH]; intros [|n] [|m] f; cbn [upd_nth nth]; rewrite ?andb_false_r; try reflexivity. apply IH.
Qed.

Lemma Forall_upd_nth (P : N -> Prop) : forall l n f,
  (forall w, P w -> P (f w)) -> Forall P l -> Forall P (upd_nth n f l).
Proof.
  induction l as [|x l IH]; intros [|n] f Hf Hl; cbn [upd_nth]; [exact Hl..| |];
    inversion Hl; subst; constructor; auto.
Qed.

Lemma set_bit_length ws p : length (set_bit ws p) = length ws.
Proof. apply upd_nth_length. Qed.

Lemma get_bit_set_bit_same ws p : (N.to_nat (p / 64) < length ws)%nat -> get_bit (set_bit ws p) p = true.
Proof.
  intros Hp. apply Nat.ltb_lt in Hp. unfold get_bit, set_bit. rewrite nth_upd_nth, Nat.eqb_refl, Hp.
  cbn [andb]. rewrite N.lor_spec, N.shiftl_1_l, N.pow2_bits_true. apply orb_true_r.
Qed.

(* or-ing something into one word never clears a bit of any word *)
Lemma get_bit_set_bit_mono ws q p : get_bit ws p = true -> get_bit (set_bit ws q) p = true.
Proof.
  unfold get_bit, set_bit. intros H. rewrite nth_upd_nth. destruct (_ && _); [|exact H].
  rewrite N.lor_spec, H. reflexivity.
Qed.

Lemma bf_add_words_length bf k : length (bf_words (bf_add bf k)) = length (bf_words bf).
Proof. apply (fold_left_inv _ (fun ws => length ws = length (bf_words bf))); [intros; rewrite set_bit_length|]; auto. Qed.

Lemma bf_add_all_size : forall keys bf, bf_size (bf_add_all bf keys) = bf_size bf.
Proof. intros keys bf. apply (fold_left_inv _ (fun b => bf_size b = bf_size bf)); auto. Qed.
Lemma bf_add_all_hashes : forall keys bf, bf_hashes (bf_add_all bf keys) = bf_hashes bf.
Proof. intros keys bf. apply (fold_left_inv _ (fun b => bf_hashes b = bf_hashes bf)); auto. Qed.
Lemma bf_add_all_words_length : forall keys bf,
  length (bf_words (bf_add_all bf keys)) = length (bf_words bf).
Proof.
  intros keys bf. apply (fold_left_inv _ (fun b => length (bf_words b) = length (bf_words bf))); [|reflexivity].
  intros b k <-. apply bf_add_words_length.
Qed.

(* The filter has ceil(size/64) words, so every index has its word: all that [bf_might_have] needs.  The codec needs
   something else ([bloom_wf] below): the widths of the fields, and the word count as the decoder computes it, with
   the uint32 wrap. *)
Definition shaped (bf : bloom) : Prop :=
  0 < bf_size bf /\ length (bf_words bf) = N.to_nat ((bf_size bf + 63) / 64).

Lemma word_index_bound x size : x < size -> x / 64 < (size + 63) / 64.
Proof. intros H. zify. Z.div_mod_to_equations. lia. Qed.

Lemma bf_add_shaped bf k : shaped bf -> shaped (bf_add bf k).
Proof. unfold shaped. rewrite bf_add_words_length. exact (fun H => H). Qed.

Lemma bf_add_mono bf k' k : bf_might_have bf k = true -> bf_might_have (bf_add bf k') k = true.
Proof.
  unfold bf_might_have. rewrite !forallb_forall. intros H i Hi.
  apply (fold_left_inv _ (fun ws => get_bit ws _ = true)); [intros; apply get_bit_set_bit_mono; assumption|exact (H i Hi)].
Qed.

Lemma bf_add_has bf k : shaped bf -> bf_might_have (bf_add bf k) k = true.
Proof.
  intros [Hs Hl]. apply forallb_forall. intros i Hi.
  apply (fold_left_In (fun ws => length ws = length (bf_words bf)) (fun i ws => get_bit ws (bf_index bf k i) = true));
    [| | |reflexivity|exact Hi].
  - (* every step keeps the number of words *) intros ws j <-. apply set_bit_length.
  - (* the step of seed j sets its bit *) intros ws j Hws. apply get_bit_set_bit_same. rewrite Hws, Hl.
    pose proof (word_index_bound (bf_index bf k j) (bf_size bf) ltac:(apply N.mod_lt; lia)). lia.
  - (* the later steps keep it *) intros. apply get_bit_set_bit_mono. assumption.
Qed.

Theorem bloom_no_false_negative : forall size hashes keys k,
  0 < size -> size + 63 < 4294967296 -> In k keys ->
  bf_might_have (bf_add_all (bf_new size hashes) keys) k = true.
Proof.
  intros size hashes keys k Hs Hb.
  apply (fold_left_In shaped (fun k bf => bf_might_have bf k = true));
    [exact bf_add_shaped|exact bf_add_has|intros; apply bf_add_mono; assumption|].
  split; [exact Hs|]. cbn [bf_new bf_words bf_size]. rewrite repeat_length, (u32_small _ Hb). reflexivity.
Qed.

Corollary bloom_of_no_false_negative tp es e :
  0 < tp_bits tp -> tp_bits tp + 63 < 4294967296 -> In e es -> bf_might_have (bloom_of tp es) (e_key e) = true.
Proof. intros Hb Hb2 He. apply bloom_no_false_negative; [exact Hb|exact Hb2|]. apply in_map, He. Qed.

Definition bloom_wf (bf : bloom) : Prop :=
  bf_size bf < 4294967296 /\ bf_hashes bf < 4294967296 /\
  length (bf_words bf) = N.to_nat (u32 (bf_size bf + 63) / 64) /\
  Forall (fun w => w < 18446744073709551616) (bf_words bf).

Lemma rd_words_w ws r :
  Forall (fun w => w < 18446744073709551616) ws ->
  rd_words (length ws) (flat_map w_u64 ws ++ r) = Some (ws, r).
Proof.
  induction 1 as [|w ws Hw _ IH]; [reflexivity|].
  cbn [length flat_map rd_words]. rewrite <- app_assoc, rd_u64_wu64, (u64_small _ Hw), IH. reflexivity.
Qed.

Theorem bf_decode_encode : forall bf r, bloom_wf bf -> bf_decode (bf_encode bf ++ r) = Some (bf, r).
Proof.
  intros [size hashes ws] r (Hs & Hh & Hl & Hw). cbn [bf_size bf_hashes bf_words] in *.
  unfold bf_decode, bf_encode. cbn [bf_size bf_hashes bf_words].
  rewrite <- !app_assoc, rd_u32_wu32, (u32_small _ Hs), rd_u32_wu32, (u32_small _ Hh). cbv zeta.
  rewrite <- Hl, (rd_words_w ws r Hw).
  replace (_ <=? _) with true; [reflexivity|].
  rewrite blen_app. unfold blen at 1. rewrite (flat_map_length_const w_u64 8%nat) by reflexivity. lia.
Qed.

Lemma shiftr_0_lt_pow2 n x : N.shiftr x n = 0 -> x < 2 ^ n.
Proof. rewrite N.shiftr_div_pow2. apply N.div_small_iff, N.pow_nonzero. discriminate. Qed.

Lemma lor_lt_pow2 n a b : a < 2 ^ n -> b < 2 ^ n -> N.lor a b < 2 ^ n.
Proof.
  intros Ha Hb. apply shiftr_0_lt_pow2. rewrite N.shiftr_lor, (shiftr_width a n Ha), (shiftr_width b n Hb). reflexivity.
Qed.

Lemma bf_add_wf bf k : bloom_wf bf -> bloom_wf (bf_add bf k).
Proof.
  intros (Hs & Hh & Hl & Hw). unfold bloom_wf. rewrite bf_add_words_length. repeat split; [exact Hs|exact Hh|exact Hl|].
  apply (fold_left_inv _ (Forall (fun w => w < 2 ^ 64))); [|exact Hw].
  intros ws i. apply Forall_upd_nth. intros w Hlt. apply lor_lt_pow2; [exact Hlt|].
  rewrite N.shiftl_1_l. apply N.pow_lt_mono_r; [reflexivity|]. apply N.mod_lt. discriminate.
Qed.

Lemma bloom_of_wf tp es : tp_bits tp + 63 < 4294967296 -> tp_hashes tp < 4294967296 -> bloom_wf (bloom_of tp es).
Proof.
  intros Hb2 Hh. apply (fold_left_inv _ bloom_wf); [intros; apply bf_add_wf; assumption|].
  repeat split; [cbn; lia|exact Hh|apply repeat_length|]. apply Forall_forall. intros w Hw.
  apply repeat_spec in Hw as ->. reflexivity.
Qed.
