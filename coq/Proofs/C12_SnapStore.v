(* C12: every trace of the (repaired) store model is accepted by the specification monitor - for EVERY list
   of API calls (duplicates, wrong ids, unknown senders, creations while pending, restarts).  The proof is a
   simulation invariant [Inv] between the world and the monitor state, in four parts: [Pend] (the pending snapshot is
   the monitor's record of the counted acknowledgements, [PInv], and carries the counter as its id), [Ids] (every id in
   use is below the counter), [Stor] (every file is the latest publication of its id, and the newest publication is
   among the files) and the equality of the savepoint artifacts. *)
From RV Require Import Base.Mach Model.SnapStore.
From RV Require Import Base.Lists.
Open Scope N_scope.

Lemma mem_In x l : mem x l = true <-> In x l.
Proof. apply (existsb_eqb_In N.eqb N.eqb_eq). Qed.

Lemma mem_false x l : mem x l = false <-> ~ In x l.
Proof. rewrite <- mem_In. symmetry. apply not_true_iff_false. Qed.

Lemma mem_nodup k l : mem k (nodup N.eq_dec l) = mem k l.
Proof. apply eq_true_iff_eq. rewrite !mem_In. apply nodup_In. Qed.

Lemma existsb_false {A} (f : A -> bool) l : (forall x, In x l -> f x = false) -> existsb f l = false.
Proof.
  induction l as [|a l IH]; intros H; [reflexivity|].
  cbn [existsb]. rewrite (H a (or_introl eq_refl)), IH; [reflexivity|].
  intros x Hx. apply H. right. exact Hx.
Qed.

Lemma mem_app_single k l x : mem k (l ++ [x]) = mem k l || (k =? x).
Proof. unfold mem. rewrite existsb_app. cbn [existsb]. rewrite orb_false_r. reflexivity. Qed.

Lemma incl_b_N a b : incl_b N.eqb a b = true <-> incl a b.
Proof. unfold incl_b. rewrite forallb_forall. split; intros H x Hx; apply mem_In, H, Hx. Qed.

Lemma flag_of_set k k0 m :
  flag_of k (set_flag k0 m) =
  if k =? k0 then match flag_of k m with Some _ => Some true | None => None end else flag_of k m.
Proof.
  induction m as [|[k' b] m IH]; cbn [set_flag flag_of]; [destruct (k =? k0); reflexivity|].
  destruct (N.eqb_spec k' k0) as [->|E]; cbn [flag_of].
  - rewrite (N.eqb_sym k k0). destruct (k0 =? k); reflexivity.
  - destruct (N.eqb_spec k' k) as [->|_]; [|exact IH]. rewrite (proj2 (N.eqb_neq k k0) E). reflexivity.
Qed.

Lemma all_set_flag m k b : all_set m = true -> flag_of k m = Some b -> b = true.
Proof.
  unfold all_set. induction m as [|[k' b'] m IH]; cbn [forallb flag_of snd]; intros Ha Hf; [discriminate|].
  apply andb_prop in Ha. destruct Ha as [Ha1 Ha2].
  destruct (k' =? k); [injection Hf as <-; exact Ha1|exact (IH Ha2 Hf)].
Qed.

(* the flag map of a pending snapshot is determined by the monitor's record: its keys are the nodes of the assembly, the
   flag of a node says whether its acknowledgement has been counted *)
Definition flags_of (nodes got : list N) : list (N * bool) := map (fun k => (k, mem k got)) (nodup N.eq_dec nodes).

Lemma flag_of_flags k nodes got : flag_of k (flags_of nodes got) = if mem k nodes then Some (mem k got) else None.
Proof.
  rewrite <- (mem_nodup k nodes). unfold flags_of, mem at 2 3. induction (nodup N.eq_dec nodes) as [|a r IH]; [reflexivity|].
  cbn [map flag_of existsb]. rewrite (N.eqb_sym k a). destruct (N.eqb_spec a k) as [->|_]; [reflexivity|exact IH].
Qed.

Lemma set_flags k nodes got : set_flag k (flags_of nodes got) = flags_of nodes (got ++ [k]).
Proof.
  unfold flags_of. pose proof (NoDup_nodup N.eq_dec nodes) as ND. induction ND as [|a l Ha ND IH]; [reflexivity|].
  cbn [map set_flag]. rewrite mem_app_single. destruct (N.eqb_spec a k) as [->|E].
  - (* the key is found: the rest does not hold it, and is unchanged on both sides *)
    rewrite orb_true_r. f_equal. apply map_ext_in. intros x Hx. rewrite mem_app_single.
    destruct (N.eqb_spec x k) as [->|_]; [destruct (Ha Hx)|rewrite orb_false_r; reflexivity].
  - rewrite orb_false_r, IH. reflexivity.
Qed.

Lemma all_set_flags nodes got : all_set (flags_of nodes got) = true -> incl_b N.eqb nodes got = true.
Proof.
  unfold all_set, flags_of, incl_b. rewrite !forallb_forall. intros H x Hx.
  apply (H (x, mem x got)), (in_map (fun k => (k, mem k got))), nodup_In, Hx.
Qed.

Lemma incl_b_refl_entry l : incl_b entry_eqb l l = true.
Proof.
  unfold incl_b. apply forallb_forall. intros x Hx. apply existsb_exists. exists x. split; [exact Hx|].
  unfold entry_eqb. rewrite !N.eqb_refl. reflexivity.
Qed.

Lemma listN_eqb_refl l : listN_eqb l l = true.
Proof. induction l as [|x l IH]; [reflexivity|]. cbn [listN_eqb]. rewrite N.eqb_refl. exact IH. Qed.

Lemma snap_eqb_refl s : snap_eqb s s = true.
Proof. unfold snap_eqb. rewrite N.eqb_refl, Nat.eqb_refl, incl_b_refl_entry, listN_eqb_refl. reflexivity. Qed.

Lemma nodupb_app_single l x : nodupb l = true -> mem x l = false -> nodupb (l ++ [x]) = true.
Proof.
  induction l as [|y l IH]; [reflexivity|]. unfold mem. cbn [app nodupb existsb]. intros Hn Hx.
  apply andb_prop in Hn. destruct Hn as [Hy Hn]. apply orb_false_elim in Hx. destruct Hx as [Hxy Hx].
  rewrite mem_app_single, (N.eqb_sym y x), Hxy, orb_false_r, Hy. exact (IH Hn Hx).
Qed.

Lemma max_snap_some b l : (forall y, In y l -> sn_id y <= sn_id b) -> max_snap (Some b) l = Some b.
Proof.
  induction l as [|y l IH]; intros H; [reflexivity|].
  cbn [max_snap]. destruct (N.ltb_spec (sn_id b) (sn_id y)) as [E|_]; [apply N.lt_nge in E; destruct (E (H y (or_introl eq_refl)))|].
  apply IH. intros z Hz. apply H. right. exact Hz.
Qed.

Definition uniq (l : list snapobs) : Prop := forall x y, In x l -> In y l -> sn_id x = sn_id y -> x = y.
Definition top (l : list snapobs) (b : snapobs) : Prop := In b l /\ forall x, In x l -> sn_id x <= sn_id b.

(* a search with a start value answers an element that dominates the start value and the list *)
Lemma max_snap_from l : forall b, exists r, max_snap (Some b) l = Some r /\ top (b :: l) r.
Proof.
  induction l as [|x l IH]; intros b; cbn [max_snap].
  - exists b. split; [reflexivity|]. split; [left; reflexivity|]. intros y [<-|[]]. apply N.le_refl.
  - (* the search goes on from [c], the greater of [b] and [x] *)
    assert (exists c, (if sn_id b <? sn_id x then max_snap (Some x) l else max_snap (Some b) l) = max_snap (Some c) l /\
                      (c = b \/ c = x) /\ sn_id b <= sn_id c /\ sn_id x <= sn_id c) as (c & -> & Hc & Hb & Hx).
    { destruct (N.ltb_spec (sn_id b) (sn_id x)); [exists x|exists b]; (split; [reflexivity|]); (split; [auto|lia]). }
    destruct (IH c) as (r & -> & Hin & Hle). exists r. split; [reflexivity|].
    pose proof (Hle c (or_introl eq_refl)) as Hcr. split.
    + destruct Hin as [<-|Hin]; [destruct Hc as [->| ->]; cbn [In]; auto|right; right; exact Hin].
    + intros y [<-|[<-|Hy]]; [lia..|]. apply Hle. right. exact Hy.
Qed.

(* a search without a start value: the first element is the start value *)
Lemma max_snap_cases l : match max_snap None l with Some b => top l b | None => l = [] end.
Proof.
  destruct l as [|x l]; [reflexivity|]. cbn [max_snap]. destruct (max_snap_from l x) as (r & -> & H). exact H.
Qed.

Lemma top_max l b : uniq l -> top l b -> max_snap None l = Some b.
Proof.
  intros Hu [Hb Hle]. pose proof (max_snap_cases l) as E. destruct (max_snap None l) as [r|]; [|subst l; destruct Hb].
  destruct E as [Hr Hge]. f_equal. apply Hu; [assumption..|]. apply N.le_antisymm; auto.
Qed.

Lemma In_without x ids l : In x (without ids l) <-> In x l /\ ~ In (sn_id x) ids.
Proof. unfold without. rewrite filter_In, negb_true_iff, <- mem_false. reflexivity. Qed.

(* a write of [s] replaces the file of the same id *)
Lemma In_put x s l : In x (s :: without [sn_id s] l) <-> s = x \/ In x l /\ sn_id x <> sn_id s.
Proof. cbn [In]. rewrite In_without. cbn [In]. intuition congruence. Qed.

Lemma uniq_put s l : uniq l -> uniq (s :: without [sn_id s] l).
Proof.
  intros Hu x y Hx Hy E. apply In_put in Hx, Hy.
  destruct Hx as [<-|[Hx Nx]], Hy as [<-|[Hy Ny]]; [reflexivity|congruence..|]. apply Hu; assumption.
Qed.

Lemma top_put s l b : top (s :: without [sn_id s] l) b -> s = b \/ top l b /\ sn_id s < sn_id b.
Proof.
  intros [Hb Hle]. apply In_put in Hb. destruct Hb as [E|[Hb Nb]]; [left; exact E|right].
  pose proof (Hle s (or_introl eq_refl)) as Hs. split; [|lia]. split; [exact Hb|].
  intros x Hx. destruct (N.eq_dec (sn_id x) (sn_id s)) as [E|E]; [lia|]. apply Hle, In_put. right. split; assumption.
Qed.

(* storage against the monitor's record of the latest publication of every id: every file is such a publication,
   and the one of the greatest id ever published is still there (stale files of an abandoned timeline included) *)
Definition Stor (files pubs : list snapobs) : Prop :=
  uniq pubs /\ incl files pubs /\ forall b, top pubs b -> In b files.

(* so a restart finds the newest publication *)
Lemma Stor_max files pubs : Stor files pubs -> max_snap None files = max_snap None pubs.
Proof.
  intros (Hu & Hsub & Htop). pose proof (max_snap_cases pubs) as E. destruct (max_snap None pubs) as [b|].
  - apply top_max.
    + intros x y Hx Hy. apply Hu; apply Hsub; assumption.
    + split; [exact (Htop b E)|]. intros x Hx. apply (proj2 E), Hsub, Hx.
  - rewrite E in Hsub.
    destruct files as [|f l]; [reflexivity|]. destruct (Hsub f (or_introl eq_refl)).
Qed.

(* a publication writes [s] and may remove obsolete files, all of smaller ids *)
Lemma Stor_publish files pubs s obs (b : bool) :
  Stor files pubs -> (forall i, In i obs -> i < sn_id s) ->
  Stor (if b then without obs (s :: without [sn_id s] files) else s :: without [sn_id s] files)
       (s :: without [sn_id s] pubs).
Proof.
  intros (Hu & Hsub & Htop) Hobs. set (files1 := s :: without [sn_id s] files).
  assert (Hin : forall x, In x (if b then without obs files1 else files1) -> In x files1).
  { intros x Hx. destruct b; [apply In_without in Hx; tauto|exact Hx]. }
  assert (Hkeep : forall x, In x files1 -> ~ In (sn_id x) obs -> In x (if b then without obs files1 else files1)).
  { intros x Hx Hn. destruct b; [apply In_without; tauto|exact Hx]. }
  split; [exact (uniq_put s pubs Hu)|]. split.
  - intros x Hx. apply In_put. apply Hin, In_put in Hx. destruct Hx as [E|[Hx Nx]]; auto.
  - intros t Ht. apply top_put in Ht. apply Hkeep.
    + apply In_put. destruct Ht as [E|[Ht Hlt]]; [left; exact E|right]. split; [exact (Htop t Ht)|lia].
    + intros Ho. apply Hobs in Ho. destruct Ht as [<-|[_ Hlt]]; lia.
Qed.

(* The pending snapshot against the monitor's record of the counted acknowledgements.  The first five fields are the
   simulation: the pending snapshot is a function of the record (and of its savepoint flag).  The last three are the
   conjuncts of the monitor's [content_ok] that the equations do not give; they are carried for [complete_content]. *)
Record PInv (p : pending) (mp : mpend) : Prop := {
  pi_id : p_id p = mp_id mp;
  pi_entries : p_entries p = mp_got_ops mp;
  pi_splits : p_splits p = concat (map snd (mp_got_srs mp));
  pi_ops : p_ops p = flags_of (mp_ops mp) (map entry_op (mp_got_ops mp));
  pi_srs : p_srs p = flags_of (mp_srs mp) (map fst (mp_got_srs mp));
  pi_nodup : nodupb (map entry_op (mp_got_ops mp)) = true;
  pi_cid : forallb (fun e => entry_cid e =? mp_id mp) (mp_got_ops mp) = true;
  pi_incl : incl_b N.eqb (map entry_op (mp_got_ops mp)) (mp_ops mp) = true }.

(* store and monitor agree on whether a checkpoint is in progress; its id is the counter *)
Definition Pend (st : store) (mo : option mpend) : Prop :=
  match pend st, mo with
  | None, None => True
  | Some p, Some mp => PInv p mp /\ p_id p = ckpt_id st
  | _, _ => False
  end.

(* ids in use - published since the last start, or of the current checkpoint - stay below the pending id, which
   is the counter; without a pending snapshot the counter itself may be in use *)
Definition bnd (st : store) (x : N) : Prop := if pend st then x < ckpt_id st else x <= ckpt_id st.

(* [last], [cur]: the monitor's [m_last] (the id handed out last in this lifetime) and [m_cur] (the ids new ids have to
   exceed) *)
Definition Ids (st : store) (last : N) (cur : list N) : Prop :=
  last <= ckpt_id st /\ forall x, In x cur \/ In x (ids_of (completed st)) -> bnd st x.

Definition Inv (w : world) (m : mon) : Prop :=
  Pend (w_store w) (m_pend m) /\ Ids (w_store w) (m_last m) (m_cur m) /\ Stor (w_files w) (m_pub m) /\
  w_sps w = m_sps m.

Lemma Inv_init : Inv init mon_init.
Proof.
  split; [exact I|]. split; [split; [apply N.le_refl|intros x [[]|[]]]|]. split; [|reflexivity].
  split; [intros x y []|]. split; [intros x []|intros b [[] _]].
Qed.

(* the goals of the fields, to be selected by name *)
Ltac pinv_fields :=
  refine {| pi_id := ?[id]; pi_entries := ?[entries]; pi_splits := ?[splits]; pi_ops := ?[ops]; pi_srs := ?[srs];
            pi_nodup := ?[nodup]; pi_cid := ?[cid]; pi_incl := ?[incl] |}.

Lemma PInv_new id ops srs sp : PInv (new_pending id ops srs sp) (MkMPend id ops srs [] []).
Proof. constructor; reflexivity. Qed.

(* a savepoint joins the pending checkpoint: only the flag changes *)
Lemma PInv_set_sp p mp sp : PInv p mp -> PInv (MkPending (p_id p) (p_ops p) (p_srs p) (p_entries p) (p_splits p) sp) mp.
Proof. intros []. constructor; assumption. Qed.

(* an operator acknowledgement for the pending id is counted by both sides or by neither *)
Lemma PInv_add_op p mp op pl : PInv p mp ->
  PInv (add_op p (op, mp_id mp, pl))
       (if mem op (mp_ops mp) && negb (mem op (map entry_op (mp_got_ops mp)))
        then MkMPend (mp_id mp) (mp_ops mp) (mp_srs mp) (mp_got_ops mp ++ [(op, mp_id mp, pl)]) (mp_got_srs mp) else mp).
Proof.
  intros HP. pose proof HP as [Hid Hentries Hsplits Hops Hsrs Hnodup Hcid Hincl].
  unfold add_op. cbn [fst]. rewrite Hops, flag_of_flags.
  destruct (mem op (mp_ops mp)) eqn:Eop; [destruct (mem op (map entry_op (mp_got_ops mp))) eqn:Egot|]; try exact HP.
  cbn [andb negb].
  pinv_fields; cbn [p_id p_ops p_srs p_entries p_splits mp_id mp_ops mp_srs mp_got_ops mp_got_srs]; try assumption.
  [entries]: { rewrite Hentries. reflexivity. }
  [ops]: { rewrite map_app. apply set_flags. }
  [nodup]: { rewrite map_app. apply nodupb_app_single; assumption. }
  [cid]: { rewrite forallb_app, Hcid. cbn [forallb entry_cid fst snd]. rewrite N.eqb_refl. reflexivity. }
  [incl]: { rewrite map_app. apply incl_b_N. intros x [Hx| <-]%in_snoc; [|apply mem_In, Eop].
    exact (proj1 (incl_b_N _ _) Hincl x Hx). }
Qed.

(* a source-runner acknowledgement for the pending id is accepted exactly when the monitor counts it *)
Lemma PInv_add_sr p mp sr sts : PInv p mp ->
  if mem sr (mp_srs mp) && negb (mem sr (map fst (mp_got_srs mp)))
  then exists p', add_sr repaired p sr sts = Some p' /\
         PInv p' (MkMPend (mp_id mp) (mp_ops mp) (mp_srs mp) (mp_got_ops mp) (mp_got_srs mp ++ [(sr, sts)]))
  else add_sr repaired p sr sts = None.
Proof.
  intros [Hid Hentries Hsplits Hops Hsrs Hnodup Hcid Hincl]. unfold add_sr. rewrite Hsrs, flag_of_flags. cbn [dup_sr_ack_appends repaired].
  destruct (mem sr (mp_srs mp)); [destruct (mem sr (map fst (mp_got_srs mp)))|]; try reflexivity.
  eexists. split; [reflexivity|].
  pinv_fields; cbn [p_id p_ops p_srs p_entries p_splits mp_id mp_ops mp_srs mp_got_ops mp_got_srs]; try assumption.
  [splits]: { rewrite map_app, concat_app, Hsplits. cbn [map concat snd]. rewrite app_nil_r. reflexivity. }
  [srs]: { rewrite map_app. apply set_flags. }
Qed.

(* what the monitor asks of a publication (codes 11, 12) holds of a pending snapshot that is complete *)
Lemma complete_content {p mp} : PInv p mp -> is_complete p = true ->
  content_ok mp (snap_of p) = true /\ all_acked mp = true.
Proof.
  intros [Hid Hentries Hsplits Hops Hsrs Hnodup Hcid Hincl] Hc. apply andb_prop in Hc. rewrite Hops, Hsrs in Hc. destruct Hc as [Hs Ho].
  unfold content_ok, all_acked, snap_of. cbn [sn_id sn_entries sn_splits].
  rewrite Hid, N.eqb_refl, Hentries, Hnodup, incl_b_refl_entry, Hcid, Hincl, Hsplits, listN_eqb_refl.
  rewrite (all_set_flags _ _ Ho), (all_set_flags _ _ Hs). split; reflexivity.
Qed.

Lemma Inv_update {w p mp p' mp' lst pubs cur sps} :
  Inv w (MkMon (Some mp) lst pubs cur sps) -> pend (w_store w) = Some p ->
  PInv p' mp' -> mp_id mp' = mp_id mp ->
  Inv (with_pending w (Some p')) (MkMon (Some mp') lst pubs cur sps).
Proof.
  unfold Inv, Pend, Ids, bnd. cbn.
  intros (HP & HI & HS) Ep HP' Eid. rewrite Ep in *. destruct HP as [HP Hid].
  split; [split; [exact HP'|]|split; [exact HI|exact HS]].
  rewrite <- Hid, (pi_id _ _ HP), <- Eid. exact (pi_id _ _ HP').
Qed.

(* the pending snapshot is dropped (abort, failed write): the counter stays, so its id is used up *)
Lemma Inv_clear {w mo lst pubs cur sps} :
  Inv w (MkMon mo lst pubs cur sps) -> Inv (with_pending w None) (MkMon None lst pubs cur sps).
Proof.
  intros (_ & [Hl Hb] & HS). split; [exact I|]. split; [|exact HS]. split; [exact Hl|].
  intros x Hx. apply Hb in Hx. unfold bnd in *. cbn. destruct (pend (w_store w)); [apply N.lt_le_incl|]; exact Hx.
Qed.

(* a new store lifetime: storage stays, the ids in use are those of the loaded checkpoint *)
Lemma Inv_load {w m} comp ck {cur} :
  Inv w m -> (forall x, In x cur \/ In x (ids_of comp) -> x <= ck) ->
  Inv (MkWorld (MkStore comp None ck) (w_files w) false (w_sps w) false) (MkMon None 0 (m_pub m) cur (m_sps m)).
Proof. intros (_ & _ & HS) H. split; [exact I|]. split; [|exact HS]. split; [apply N.le_0_l|exact H]. Qed.

Lemma create_ok {w lst pubs cur sps ops srs sp id} :
  Inv w (MkMon None lst pubs cur sps) -> pend (w_store w) = None -> id = ckpt_id (w_store w) + 1 ->
  snd (mon_create (MkMon None lst pubs cur sps) id ops srs) = [] /\
  Inv (MkWorld (MkStore (completed (w_store w)) (Some (new_pending id ops srs sp)) id) (w_files w) (w_lose w) (w_sps w) (w_failw w))
      (fst (mon_create (MkMon None lst pubs cur sps) id ops srs)).
Proof.
  intros (_ & [Hl Hb] & HS) Ep Eid. unfold bnd in Hb. rewrite Ep in Hb. cbn [m_cur m_last] in Hb, Hl.
  assert (Hcur : existsb (fun i => id <=? i) cur = false).
  { apply existsb_false. intros i Hi. apply N.leb_gt. specialize (Hb i (or_introl Hi)). lia. }
  unfold mon_create. cbn [m_pend m_last m_cur m_pub m_sps fst snd app]. rewrite Hcur, (proj2 (N.leb_gt id lst)) by lia.
  split; [reflexivity|]. split; [split; [apply PInv_new|reflexivity]|]. split; [|exact HS].
  split; [apply N.le_refl|]. intros x Hx. apply Hb in Hx. unfold bnd. cbn. lia.
Qed.

(* after an acknowledgement has been taken in: publication, failed write, or still pending *)
Lemma finish_ok {w p m} :
  Inv (with_pending w (Some p)) m ->
  let wr := finish_if_complete w p in
  res_err (snd wr) = false /\ snd (mon_ack m (snd wr)) = [] /\ Inv (fst wr) (fst (mon_ack m (snd wr))).
Proof.
  destruct m as [[mp|] lst pubs cur sps]; intros HI; [|destruct HI as ([] & _)].
  unfold finish_if_complete. destruct (is_complete p) eqn:Ec; [|split; [reflexivity|]; split; [reflexivity|exact HI]].
  destruct (w_failw w).
  - (* the write of the snapshot file fails: nothing happens but the loss of the pending snapshot *)
    cbn [fst snd res_err mon_ack m_pend m_last m_pub m_cur m_sps andb].
    replace (match cur_of w with Some c => c =? mp_id mp | None => false end) with false.
    { split; [reflexivity|]. split; [reflexivity|exact (Inv_clear HI)]. }
    destruct HI as ([HP Hid] & [_ Hb] & _). unfold cur_of. destruct (completed (w_store w)) as [|c l] eqn:Ecs; [reflexivity|].
    symmetry. apply N.eqb_neq, N.lt_neq. rewrite <- (pi_id _ _ HP), Hid. apply (Hb (sn_id c)). right.
    cbn [with_pending w_store completed]. rewrite Ecs. left. reflexivity.
  - (* the snapshot is published: the monitor sees what it expects, and storage follows by Stor_publish *)
    destruct HI as ([HP Hid] & [Hl Hb] & HS & Es). unfold bnd in Hb. cbn in Hid, Hl, Hb, HS, Es.
    assert (Hobs : forall i, In i (ids_of (completed (w_store w))) -> i < sn_id (snap_of p)).
    { intros i Hi. cbn [snap_of sn_id]. rewrite Hid. apply Hb. right. exact Hi. }
    destruct (complete_content HP Ec) as [C1 C2].
    unfold publish, mon_ack, mon_pub.
    rewrite existsb_false by (intros c Hc; apply N.ltb_ge, N.lt_le_incl, Hobs, in_map, Hc).
    cbn [fst snd res_err pb_snap pb_sp m_pend m_last m_cur m_pub m_sps]. rewrite C1, C2.
    split; [reflexivity|]. split; [reflexivity|]. split; [exact I|]. split; [|split].
    + split; [exact Hl|]. unfold bnd. cbn [w_store pend completed ckpt_id ids_of map snap_of sn_id].
      rewrite <- Hid. intros x [[<-|Hx]|[<-|[]]]; [apply N.le_refl| |apply N.le_refl].
      apply N.lt_le_incl. rewrite Hid. apply Hb. left. exact Hx.
    + apply Stor_publish; assumption.
    + cbn [w_sps m_sps]. rewrite Es. reflexivity.
Qed.

Theorem step_preserves w m a : Inv w m ->
  snd (mon_step m (a, snd (step repaired w a))) = [] /\
  Inv (fst (step repaired w a)) (fst (mon_step m (a, snd (step repaired w a)))).
Proof.
  destruct m as [mpe lst pubs cur sps]. intros HI. pose proof (proj1 HI) as HP. unfold Pend in HP. cbn [m_pend] in HP.
  unfold step.
  destruct a as [ops srs|ops srs|cid op pl|cid sr sts| |b|rid| |].
  - (* CreateCheckpoint *)
    destruct (pend (w_store w)) as [p|] eqn:Ep, mpe as [mp|]; try contradiction.
    + exact (conj eq_refl HI).
    + exact (create_ok HI Ep eq_refl).
  - (* CreateSavepoint: joins the pending checkpoint *)
    destruct (pend (w_store w)) as [p|] eqn:Ep, mpe as [mp|]; try contradiction.
    + destruct (p_sp p); [exact (conj eq_refl HI)|]. cbn [fst snd mon_step m_pend].
      rewrite <- (pi_id _ _ (proj1 HP)), N.eqb_refl. split; [reflexivity|].
      exact (Inv_update HI Ep (PInv_set_sp _ _ true (proj1 HP)) eq_refl).
    + exact (create_ok HI Ep eq_refl).
  - (* AddOperatorSnapshot *)
    destruct (pend (w_store w)) as [p|] eqn:Ep, mpe as [mp|]; try contradiction; [|exact (conj eq_refl HI)].
    destruct HP as [HP _]. cbn [mon_step m_pend]. rewrite <- (pi_id _ _ HP).
    destruct (N.eqb_spec (p_id p) cid) as [<-|_]; [|exact (conj eq_refl HI)]. rewrite (pi_id _ _ HP). cbn [negb andb].
    pose proof (PInv_add_op p mp op pl HP) as HP'. refine (proj2 (finish_ok _)).
    destruct (mem op (mp_ops mp) && negb (mem op (map entry_op (mp_got_ops mp))));
      exact (Inv_update HI Ep HP' eq_refl).
  - (* AddSourceSnapshot *)
    destruct (pend (w_store w)) as [p|] eqn:Ep, mpe as [mp|]; try contradiction; [|exact (conj eq_refl HI)].
    destruct HP as [HP _]. cbn [mon_step m_pend]. rewrite <- (pi_id _ _ HP).
    destruct (N.eqb_spec (p_id p) cid) as [<-|_]; [|exact (conj eq_refl HI)]. rewrite (pi_id _ _ HP). cbn [negb].
    pose proof (PInv_add_sr p mp sr sts HP) as HP'.
    destruct (mem sr (mp_srs mp)), (mem sr (map fst (mp_got_srs mp))); cbn [andb negb] in HP';
      try (rewrite HP'; exact (conj eq_refl HI)).
    destruct HP' as (p' & -> & HP').
    destruct (finish_ok (Inv_update HI Ep HP' eq_refl)) as (Er & H).
    rewrite Er. exact H.
  - (* Restart *)
    cbn [fst snd mon_step m_pub m_sps]. unfold load_store. rewrite (Stor_max _ _ (proj1 (proj2 (proj2 HI)))). cbn [m_pub].
    pose proof (max_snap_cases pubs) as Eb. destruct (max_snap None pubs) as [b|].
    + cbn [completed hd_error]. rewrite snap_eqb_refl. split; [reflexivity|]. apply (Inv_load [b] (sn_id b) HI).
      intros x [Hx|[<-|[]]]; [|apply N.le_refl]. apply in_map_iff in Hx. destruct Hx as (y & <- & Hy).
      exact (proj2 Eb y Hy).
    + split; [reflexivity|]. apply (Inv_load [] 0 HI).
      rewrite Eb. intros x [[]|[]].
  - (* fault injection: Remove calls get lost from now on *)
    exact (conj eq_refl HI).
  - (* start from the savepoint of id [rid] *)
    pose proof (proj2 (proj2 (proj2 HI))) as Es. cbn [m_sps] in Es. subst sps.
    destruct (find_snap rid (w_sps w)) as [a|] eqn:Ea; cbn [fst snd mon_step m_sps]; rewrite Ea, ?snap_eqb_refl; (split; [reflexivity|]).
    + apply (Inv_load [a] (sn_id a) HI). intros x [[<-|[]]|[<-|[]]]; apply N.le_refl.
    + apply (Inv_load [] 0 HI). intros x [[]|[]].
  - (* AbortPendingCheckpoint *)
    split; [reflexivity|exact (Inv_clear HI)].
  - (* fault injection: the next snapshot write fails *)
    exact (conj eq_refl HI).
Qed.

Theorem run_accepted : forall acts w m, Inv w m -> mon_run m (combine acts (run repaired w acts)) = [].
Proof.
  induction acts as [|a acts IH]; intros w m HI; [reflexivity|].
  cbn [run]. destruct (step_preserves w m a HI) as [Hc Hi].
  destruct (step repaired w a) as [w' r]. cbn [fst snd combine mon_run] in *.
  destruct (mon_step m (a, r)) as [m' codes]. cbn [fst snd] in *. subst codes. exact (IH w' m' Hi).
Qed.
