(* C04: every non-empty operator batch has a time-out on its way (MaxDelay > 0): the timer armed for the batch's token
   is still armed, or has expired and its callback has not run yet, or the sender goroutine holds the token and is
   about to flush. A late callback of an earlier batch (stale token) never takes that away: Flush(stale) leaves the
   timer alone (batching.go stops the timer only after the stale-token / empty guard). *)
From Coq Require Import List NArith Bool Arith Lia.
Import ListNotations.
From RV Require Import Model.RunnerPipe Proofs.C04_RunnerPipe.

Lemma remove1_in_other : forall t u l r, remove1 t l = Some r -> In u l -> u = t \/ In u r.
Proof.
  induction l as [|a l IH]; intros r H Hin; [discriminate|]. cbn in H.
  destruct (N.eqb a t) eqn:E.
  - inversion H; subst. destruct Hin as [->|Hin]; [left; now apply N.eqb_eq|right; exact Hin].
  - destruct (remove1 t l) as [r'|] eqn:Er; [|discriminate]. inversion H; subst.
    destruct Hin as [->|Hin]; [right; now left|]. destruct (IH r' eq_refl Hin); [now left|right; now right].
Qed.

Definition timeout_ok (o : opst) : Prop :=
  o_batch o <> [] -> o_slot o = Some (o_tok o) \/ In (o_tok o) (o_late o) \/ o_snd o = STok (o_tok o).

Lemma timeout_ok_add : forall o e, timeout_ok o -> timeout_ok (b_add true o e).
Proof.
  intros o e H _. unfold timeout_ok, b_add in *. cbn [o_slot o_tok o_late o_snd o_batch].
  destruct (o_batch o) eqn:E; [now left|]. apply H. discriminate.
Qed.
Lemma timeout_ok_flush : forall o o' b, b_flush o = (o', b) -> timeout_ok o'.
Proof. intros o o' b H Hne. destruct (b_flush_spec _ _ _ H) as (_ & E & _). contradiction. Qed.

(* the sender goroutine moves on without having held the batch's token; batcher and timer are as before *)
Lemma timeout_ok_sender : forall o o', timeout_ok o -> o_snd o <> STok (o_tok o) ->
  o_batch o' = o_batch o -> o_tok o' = o_tok o -> o_slot o' = o_slot o -> o_late o' = o_late o -> timeout_ok o'.
Proof.
  intros o o' H Hs Eb Et Esl El Hne. rewrite Eb in Hne. rewrite Et, Esl, El.
  destruct (H Hne) as [A|[A|A]]; auto. contradiction.
Qed.

Section Timeout.
  Variable R : rstage.
  Variable route : list N -> nat.
  Variables (nops mx : nat).

  Definition OInv (ops : nat -> opst) : Prop := forall i, timeout_ok (ops i).
  Definition TInv (s : st R) : Prop := OInv (s_ops R s).

  Lemma OInv_upd : forall ops i o, OInv ops -> timeout_ok o -> OInv (upd ops i o).
  Proof. intros ops i o H Ho k. unfold upd. destruct (Nat.eqb k i); [exact Ho|apply H]. Qed.

  Lemma TInv_j_flush : forall s w i, TInv s -> TInv (j_flush R s w i).
  Proof.
    intros s w i H. unfold j_flush. destruct (b_flush (s_ops R s i)) as [o' b] eqn:E.
    apply OInv_upd; [exact H|exact (timeout_ok_flush _ _ _ E)].
  Qed.

  Definition tkeeps (a : action R) : Prop := forall s s', TInv s -> step R route nops mx true s a = Some s' -> TInv s'.

  (* The read loop, the stage and the joiner's taking an element off outputStream leave the operators alone, and TInv reads
     nothing else: in these cases the new state has the s_ops of the old one by computation. *)
  Lemma TInv_read : tkeeps (ARead R).
  Proof.
    intros s s' H Hs. cbn [step] in Hs. destruct (s_todo R s) as [|[x|m|] t]; [discriminate|..].
    - (* IRec *) destruct (rs_add R _ x); [|discriminate]. now injection Hs as <-.
    - (* IMark *) now injection Hs as <-.
    - (* IClose *) destruct (rs_flush R _); [|discriminate]. now injection Hs as <-.
  Qed.

  Lemma TInv_rint : forall a, tkeeps (ARInt R a).
  Proof. intros a s s' H Hs. cbn [step] in Hs. destruct (rs_int R (s_r R s) a); [|discriminate]. now injection Hs as <-. Qed.

  Lemma TInv_join : tkeeps (AJoin R).
  Proof.
    intros s s' H Hs. cbn [step] in Hs. unfold j_step in Hs. destruct (s_pc R s) as [|i0|i0|i0 b0].
    - (* JIdle *) destruct (s_work R s) as [|[i0 e|i0] w].
      + (* the next element of outputStream: a placeholder, or a marker *)
        destruct (s_outq R s) as [|[|m] q]; [discriminate| |now injection Hs as <-].
        destruct (rs_out R _) as [[res r']|]; [|discriminate]. now injection Hs as <-.
      + (* batcher.Add: arms the timer if the batch was empty *)
        injection Hs as <-. apply OInv_upd, timeout_ok_add, H. exact H.
      + (* operators.flush() *) injection Hs as <-. apply TInv_j_flush, H.
    - (* JAdded: IsFull *) now injection Hs as <-.
    - (* JFull: Flush(CurrentBatch) *) injection Hs as <-. apply TInv_j_flush, H.
    - (* JHand *) discriminate Hs.
  Qed.

  (* the token moves from the timer to the expired callbacks *)
  Lemma TInv_expire : forall i, tkeeps (AExpire R i).
  Proof.
    intros i s s' H Hs. cbn [step] in Hs.
    destruct (o_slot (s_ops R s i)) as [t|] eqn:E; [|discriminate]. injection Hs as <-.
    apply OInv_upd; [exact H|]. intro Hne. cbn in *. rewrite in_app_iff. cbn.
    destruct (H i Hne) as [A|[A|A]]; auto. rewrite E in A. injection A as ->. auto.
  Qed.

  (* ... and from the expired callbacks to the sender *)
  Lemma TInv_timer : forall i t, tkeeps (ATimer R i t).
  Proof.
    intros i t s s' H Hs. cbn [step] in Hs. destruct (o_snd (s_ops R s i)) eqn:Es; try discriminate.
    destruct (remove1 t (o_late (s_ops R s i))) as [ar|] eqn:Er; [|discriminate]. injection Hs as <-.
    apply OInv_upd; [exact H|]. intro Hne. cbn in *.
    destruct (H i Hne) as [A|[A|A]]; auto; [|congruence].
    destruct (remove1_in_other _ _ _ _ Er A) as [->|B]; auto.
  Qed.

  (* the batch's own token empties the batcher; a stale one changes nothing *)
  Lemma TInv_snd_flush : forall i, tkeeps (ASndFlush R i).
  Proof.
    intros i s s' H Hs. cbn [step] in Hs. destruct (o_snd (s_ops R s i)) eqn:Es; try discriminate.
    destruct (b_flush_tok (s_ops R s i) t) as [o' b] eqn:Ef. injection Hs as <-.
    apply OInv_upd; [exact H|]. unfold b_flush_tok in Ef. destruct (N.eqb_spec (o_tok (s_ops R s i)) t) as [Et|Et].
    - destruct (b_flush_spec _ _ _ Ef) as (_ & B & _). intro Hne. cbn in Hne. contradiction.
    - injection Ef as <- <-. apply (timeout_ok_sender (s_ops R s i)); auto. congruence.
  Qed.

  Lemma TInv_snd_recv : forall i, tkeeps (ASndRecv R i).
  Proof.
    intros i s s' H Hs. cbn [step] in Hs. destruct (o_snd (s_ops R s i)) eqn:Es; try discriminate.
    destruct (s_pc R s) as [| | |j b0]; try discriminate. destruct (Nat.eqb j i); [|discriminate]. injection Hs as <-.
    apply OInv_upd; [exact H|]. apply (timeout_ok_sender (s_ops R s i)); auto. congruence.
  Qed.

  Lemma TInv_snd_done : forall i, tkeeps (ASndDone R i).
  Proof.
    intros i s s' H Hs. cbn [step] in Hs. destruct (o_snd (s_ops R s i)) eqn:Es; try discriminate. injection Hs as <-.
    apply OInv_upd; [exact H|]. apply (timeout_ok_sender (s_ops R s i)); auto. congruence.
  Qed.

  Lemma TInv_step : forall a, tkeeps a.
  Proof.
    intros [|a| |i|i t|i|i|i];
      [exact TInv_read|exact (TInv_rint a)|exact TInv_join|exact (TInv_expire i)|exact (TInv_timer i t)
      |exact (TInv_snd_flush i)|exact (TInv_snd_recv i)|exact (TInv_snd_done i)].
  Qed.

  Theorem reachable_TInv : forall input sched s, run R route nops mx true (init R input) sched = Some s -> TInv s.
  Proof.
    intros input sched s. apply (run_invariant _ _ _ _ _ TInv); [exact (fun s a => TInv_step a s)|]. now intros i Hne.
  Qed.
End Timeout.
