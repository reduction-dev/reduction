(* Table.Get on a table fresh from the writer, for every index spacing and every Bloom filter size: Bloom check,
   binary search over the sparse index, then the bounded linear scan, returns exactly the entry with that key
   (tombstone value dropped) or "not found".  The run is seen as a list of blocks, each begun by a sampled entry; the
   index is the list of the byte offsets at which the blocks start, and the search picks the one block that can hold
   the key.  A failed read of an index key surfaces as an error; the code before 4aa2ab7 panics exactly on the keys
   below the first key that pass the filter (a table on which that happens at the end). *)
From RV Require Import Model.SstTable Proofs.C17_Codec Proofs.C17_Table.
From RV Require Import Base.Lists Base.KeySorted.
From Coq Require Import ZifyN ZifyNat ZifyBool.
Open Scope N_scope.

Definition run_ok (es : list entry) : Prop :=
  Forall entry_ok es /\ keys_sorted es = true /\ blen (ser_entries es) < 4294967296.

(* start offset of entry number i; nothing below uses it (offsets are handled by [starts] / [nth_starts]) *)
Definition eoff (es : list entry) (i : nat) : N := blen (ser_entries (firstn i es)).

Lemma eoff_total es : eoff es (length es) = blen (ser_entries es).
Proof. unfold eoff. rewrite firstn_all. reflexivity. Qed.

Lemma scan_get_rd_entry f d off en key : d <> [] ->
  scan_get (S f) d off en key =
  if off <? en then
    match rd_entry d with
    | Some (e, r) => if beqb (e_key e) key then GFound e else scan_get f r (off + (blen d - blen r)) en key
    | None => GErr
    end
  else GNotFound.
Proof.
  intros Hd. destruct d as [|b d0]; [congruence|]. cbn [scan_get]. unfold rd_entry.
  destruct (off <? en); [|reflexivity].
  destruct (rd_var (b :: d0)) as [[k r1]|]; [|reflexivity]. destruct (rd_u64 r1) as [[s r2]|]; [|reflexivity].
  destruct (rd_tomb r2) as [[[] r3]|]; [reflexivity| |reflexivity]. destruct (rd_var r3) as [[v r4]|]; reflexivity.
Qed.

(* the end bound falls exactly where [a] ends, or anywhere beyond it when nothing follows *)
Lemma scan_get_ser : forall a b fuel off en key,
  Forall entry_ok (a ++ b) -> (length (a ++ b) < fuel)%nat ->
  off + blen (ser_entries a) <= en -> (b <> [] -> en <= off + blen (ser_entries a)) ->
  scan_get fuel (ser_entries (a ++ b)) off en key = get_spec a key.
Proof.
  induction a as [|e a IH]; intros b fuel off en key Hok Hf Hle Hb; cbn [app] in *.
  - destruct fuel as [|f]; [lia|]. destruct b as [|e b]; [cbn; destruct (off <? en); reflexivity|].
    rewrite ser_entries_cons, scan_get_rd_entry by apply ser_entry_nonempty.
    replace (off <? en) with false; [reflexivity|]. specialize (Hb ltac:(discriminate)). cbn in Hb. lia.
  - destruct fuel as [|f]; cbn [length] in Hf; [lia|]. inversion Hok as [|? ? He Hab]; subst.
    rewrite ser_entries_cons, scan_get_rd_entry, (rd_entry_ser _ _ He), norm_key by apply ser_entry_nonempty.
    rewrite ser_entries_cons, blen_app in Hle, Hb. pose proof (ser_entry_len e) as Hp.
    replace (off <? en) with true by (unfold blen in *; lia).
    unfold get_spec. cbn [find_key]. destruct (beqb (e_key e) key); [reflexivity|].
    rewrite blen_app. replace (_ + _ - _) with (blen (ser_entry e)) by lia.
    apply IH; [exact Hab|lia|lia|]. intros H. specialize (Hb H). lia.
Qed.

(* The run is A ++ B ++ C, the key is in neither A nor C, the scan starts where B starts and is bounded by the
   start of C (by anything beyond the file when C is empty): it answers as the specification does on the run. *)
Lemma scan_isolated A B C key en :
  Forall entry_ok (A ++ B ++ C) -> find_key key A = None -> find_key key C = None ->
  blen (ser_entries (A ++ B)) <= en -> (C <> [] -> en <= blen (ser_entries (A ++ B))) ->
  let body := ser_entries (A ++ B ++ C) in
  let st := blen (ser_entries A) in
  (if st <=? blen body then scan_get (S (length body)) (skipn (N.to_nat st) body) st en key else GPanic)
  = get_spec (A ++ B ++ C) key.
Proof.
  intros Hok HA HC Hle Hge body st. subst body st. rewrite ser_entries_app, blen_app in *.
  replace (_ <=? _) with true by lia. rewrite skipn_blen.
  transitivity (get_spec B key).
  - apply Forall_app in Hok as [_ Hok]. apply scan_get_ser; [exact Hok| |exact Hle|exact Hge].
    rewrite (app_length (ser_entries A)). pose proof (ser_entries_len (B ++ C)). lia.
  - unfold get_spec. rewrite !find_key_app, HA, HC. destruct (find_key key B); reflexivity.
Qed.

(* the byte offsets at which the blocks [bs] start, the first one at [o]: what IndexOffset collects *)
Fixpoint starts (o : N) (bs : list (list entry)) : list N :=
  match bs with
  | [] => []
  | b :: r => o :: starts (o + blen (ser_entries b)) r
  end.

(* the sampled offsets cut the run into blocks, each begun by a sampled entry; [b] is what is left of the block
   that was open when the counter stood at [c] *)
Lemma sample_starts sp : forall es c o, o + blen (ser_entries es) < 4294967296 ->
  exists b bs, es = b ++ concat bs /\ (c = 0%nat -> b = []) /\ Forall (fun x => x <> []) bs /\
               sample sp c (entry_offsets o es) = starts (o + blen (ser_entries b)) bs.
Proof.
  induction es as [|e es IH]; intros c o Hsz; [exists [], []; repeat split; constructor|].
  cbn [entry_offsets sample]. rewrite ser_entries_cons, blen_app, N.add_assoc in Hsz. destruct c as [|c].
  - destruct (IH (sp - 1)%nat _ Hsz) as (b & bs & -> & _ & Hne & ->).
    exists [], ((e :: b) :: bs). cbn [app concat starts]. rewrite N.add_0_r, ser_entries_cons, blen_app, N.add_assoc, u32_small by lia.
    repeat split. constructor; [discriminate|exact Hne].
  - destruct (IH c _ Hsz) as (b & bs & -> & _ & Hne & ->).
    exists (e :: b), bs. rewrite ser_entries_cons, blen_app, N.add_assoc. repeat split; [discriminate|exact Hne].
Qed.

Lemma index_blocks tp es : blen (ser_entries es) < 4294967296 ->
  exists bs, es = concat bs /\ Forall (fun x => x <> []) bs /\ index_of tp es = starts 0 bs.
Proof.
  intros Hsz. destruct (sample_starts (tp_spacing tp) es 0 0 Hsz) as (b & bs & E & Hb & Hne & Hi).
  rewrite (Hb eq_refl) in *. exists bs. repeat split; [exact E|exact Hne|exact Hi].
Qed.

Lemma nth_starts : forall bs o h, (h < length bs)%nat ->
  nth h (starts o bs) 0 = o + blen (ser_entries (concat (firstn h bs))).
Proof.
  induction bs as [|b bs IH]; intros o [|h] Hh; cbn [length] in Hh; try lia; cbn [starts nth firstn concat].
  - apply eq_sym, N.add_0_r.
  - rewrite IH, ser_entries_app, blen_app by lia. lia.
Qed.

Lemma starts_length : forall bs o, length (starts o bs) = length bs.
Proof. induction bs as [|b bs IH]; intros o; cbn [starts length]; [|rewrite IH]; reflexivity. Qed.

(* the comparison search_index_with hands to the binary search, for the readKey callback [rk] *)
Definition cmp_at (rk : N -> option (option bytes)) (key : bytes) (off : N) : option (option comparison) :=
  match rk off with
  | None => None
  | Some None => Some None
  | Some (Some k) => Some (Some (bcmp k key))
  end.

(* as long as the reads succeed, the search of the model is the bisection over positions *)
Lemma bsearch_bisect cmpf offs (c : nat -> comparison) n :
  (forall h, (h < n)%nat -> cmpf (nth h offs 0) = Some (Some (c h))) ->
  forall fuel i j, (j <= n)%nat -> bsearch fuel cmpf offs i j = BsIdx (bisect fuel c i j).
Proof.
  intros Hc. induction fuel as [|f IH]; intros i j Hj; [reflexivity|]. cbn [bsearch bisect].
  destruct (Nat.ltb_spec i j) as [E|E]; [|reflexivity].
  pose proof (div2_mid i j E). rewrite Hc by lia. destruct (c (Nat.div2 (i + j))); apply IH; lia.
Qed.

(* for a below b: whatever b is not above, a is below; whatever a is not below, b is above *)
Lemma bcmp_lt_sides a b k : bcmp a b = Lt ->
  (bcmp b k <> Gt -> bcmp a k = Lt) /\ (bcmp a k <> Lt -> bcmp b k = Gt).
Proof.
  intros H. split; intros Hc.
  - destruct (bcmp b k) eqn:E; [apply bcmp_eq in E as <-; exact H|exact (bcmp_lt_trans _ _ _ H E)|congruence].
  - rewrite bcmp_antisym. destruct (bcmp a k) eqn:E; [apply bcmp_eq in E as <-|congruence|apply bcmp_gt_lt in E].
    + rewrite H. reflexivity.
    + rewrite (bcmp_lt_trans _ _ _ E H). reflexivity.
Qed.

Lemma bltb_gt a b : bltb a b = match bcmp b a with Gt => true | _ => false end.
Proof. unfold bltb. rewrite (bcmp_antisym b a). destruct (bcmp b a); reflexivity. Qed.

Section Blocks.
  Variable bs : list (list entry).
  Variable key : bytes.
  Hypothesis Hne : Forall (fun x => x <> []) bs.
  Hypothesis Hok : Forall entry_ok (concat bs).
  Hypothesis Hs : keys_sorted (concat bs) = true.

  Local Notation m := (length bs).
  Local Open Scope nat_scope.

  (* the entry that begins block h, the rest of the run after it, how its key compares with the key looked for *)
  Definition bhead (h : nat) : entry := hd (mkE [] [] 0 false) (nth h bs []).
  Definition brest (h : nat) : list entry := tl (nth h bs []) ++ concat (skipn (S h) bs).
  Definition block_cmp (h : nat) : comparison := bcmp (e_key (bhead h)) key.

  Lemma block_split h : h < m ->
    nth h bs [] = bhead h :: tl (nth h bs []) /\
    concat bs = concat (firstn h bs) ++ nth h bs [] ++ concat (skipn (S h) bs).
  Proof.
    intros Hh. split.
    - rewrite Forall_forall in Hne. specialize (Hne _ (nth_In bs [] Hh)). unfold bhead.
      destruct (nth h bs []); [congruence|reflexivity].
    - rewrite <- (firstn_skipn h bs) at 1. rewrite concat_app, (skipn_nth_cons [] bs h Hh). reflexivity.
  Qed.

  (* every entry before block h is below its head, every entry after the head is above it *)
  Lemma block_order h : h < m ->
    (forall y, In y (concat (firstn h bs)) -> bcmp (e_key y) (e_key (bhead h)) = Lt) /\
    (forall y, In y (brest h) -> bcmp (e_key (bhead h)) (e_key y) = Lt).
  Proof.
    intros Hh. destruct (block_split h Hh) as (Et & E). rewrite E, Et in Hs.
    apply keys_sorted_asc, asc_app in Hs as (_ & [Hr _] & Hlr).
    split; [intros y Hy; apply Hlr; [exact Hy|left; reflexivity]|exact Hr].
  Qed.

  Lemma bhead_before h' h : h' < h -> h < m -> In (bhead h') (concat (firstn h bs)).
  Proof.
    intros Hlt Hh. destruct (block_split h' ltac:(lia)) as (Et & _).
    apply in_concat. exists (nth h' bs []). split; [|rewrite Et; left; reflexivity].
    rewrite <- (firstn_skipn h bs) at 1. rewrite app_nth1 by (rewrite firstn_length; lia).
    apply nth_In. rewrite firstn_length. lia.
  Qed.

  Lemma block_cmp_sides h' h : h' < h -> h < m ->
    (block_cmp h <> Gt -> block_cmp h' = Lt) /\ (block_cmp h' <> Lt -> block_cmp h = Gt).
  Proof. intros Hlt Hh. apply bcmp_lt_sides, (block_order h Hh), bhead_before; assumption. Qed.

  Lemma block_cmp_mono h' h : h' <= h -> h < m -> block_cmp h = Lt -> block_cmp h' = Lt.
  Proof.
    intros Hle Hh Hc. destruct (Nat.eq_dec h' h) as [->|Hn]; [exact Hc|].
    apply (block_cmp_sides h' h); [lia|exact Hh|congruence].
  Qed.

  (* a block head that is not above the key: nothing before that block has the key *)
  Lemma absent_before h y : h < m -> block_cmp h <> Gt -> In y (concat (firstn h bs)) -> e_key y <> key.
  Proof.
    intros Hh Hc Hy E. apply (block_order h Hh) in Hy.
    apply (bcmp_lt_sides _ _ key Hy) in Hc. rewrite E, bcmp_refl in Hc. discriminate.
  Qed.

  (* a block head above the key: nothing from that block on has the key *)
  Lemma absent_from h y : h < m -> block_cmp h = Gt -> In y (concat (skipn h bs)) -> e_key y <> key.
  Proof.
    intros Hh Hc Hy E. destruct (block_split h Hh) as (Et & _). unfold block_cmp in Hc.
    rewrite (skipn_nth_cons [] bs h Hh), Et in Hy. destruct Hy as [<-|Hy]; [rewrite E, bcmp_refl in Hc; discriminate|].
    apply (block_order h Hh), (bcmp_lt_sides _ _ key) in Hy as [_ Hy]. rewrite Hc, E, bcmp_refl in Hy.
    specialize (Hy ltac:(discriminate)). discriminate Hy.
  Qed.

  Lemma read_block_head h : h < m ->
    read_key_at (ser_entries (concat bs)) (blen (ser_entries (concat (firstn h bs)))) = Some (Some (e_key (bhead h))).
  Proof.
    intros Hh. destruct (block_split h Hh) as (Et & E).
    assert (Hk : (blen (e_key (bhead h)) < 4294967296)%N).
    { rewrite Forall_forall in Hok. apply (Hok (bhead h)). rewrite E, Et. apply in_or_app. right. left. reflexivity. }
    rewrite E, Et, ser_entries_app. unfold read_key_at. rewrite blen_app. replace (_ <=? _)%N with true by lia.
    rewrite skipn_blen. cbn [app]. rewrite ser_entries_cons. unfold ser_entry.
    rewrite <- !app_assoc, (rd_var_w _ _ Hk). reflexivity.
  Qed.

  Let cmpf := cmp_at (read_key_at (ser_entries (concat bs))) key.

  Lemma cmpf_at h : h < m -> cmpf (nth h (starts 0 bs) 0%N) = Some (Some (block_cmp h)).
  Proof. intros Hh. unfold cmpf, cmp_at. rewrite (nth_starts bs 0 h Hh), N.add_0_l, (read_block_head h Hh). reflexivity. Qed.

  (* only block fi can hold the key *)
  Definition isolated (fi : nat) : Prop :=
    (forall y, In y (concat (firstn fi bs)) -> e_key y <> key) /\
    (forall y, In y (concat (skipn (S fi) bs)) -> e_key y <> key).

  Lemma isolated_at h : h < m -> (0 < h -> block_cmp h <> Gt) -> (S h < m -> block_cmp (S h) = Gt) -> isolated h.
  Proof.
    intros Hh Hc Hn. split; intros y Hy.
    - destruct h; [destruct Hy|]. exact (absent_before _ y Hh (Hc ltac:(lia)) Hy).
    - destruct (Nat.lt_ge_cases (S h) m) as [Hlt|Hge]; [|rewrite skipn_all2 in Hy by exact Hge; destruct Hy].
      exact (absent_from _ y Hlt (Hn Hlt) Hy).
  Qed.

  (* The old code's panic needs the first head above the key.  A lemma and not an assertion inside the next proof:
     as a hypothesis there, an implication between boolean facts makes every [lia] of that proof several times
     dearer (ZifyBool works through it at each call). *)
  Lemma not_below_first clamp : block_cmp 0 <> Gt -> negb clamp && bltb key (e_key (bhead 0)) = false.
  Proof. intros H. rewrite bltb_gt. fold (block_cmp 0). destruct (block_cmp 0); [apply andb_false_r..|congruence]. Qed.

  Hypothesis Hm : 0 < m.

  (* The search answers with the one block that can hold the key, as start and end offset; [clamp = false] is the
     code before 4aa2ab7. *)
  Lemma search_index_spec clamp :
    exists fi, fi < m /\ isolated fi /\
      search_index clamp (starts 0 bs) (ser_entries (concat bs)) key =
      if negb clamp && bltb key (e_key (bhead 0)) then SPanic
      else SRange (nth fi (starts 0 bs) 0%N) (if Nat.eqb fi (m - 1) then max_int64 else nth (S fi) (starts 0 bs) 0%N).
  Proof.
    unfold search_index, search_index_with.
    destruct (starts 0 bs) as [|o0 offs0] eqn:Eoffs.
    { apply (f_equal (@length N)) in Eoffs. rewrite starts_length in Eoffs. cbn [length] in Eoffs. lia. }
    cbv iota zeta. rewrite <- Eoffs. clear Eoffs o0 offs0. rewrite !starts_length.
    fold (cmp_at (read_key_at (ser_entries (concat bs))) key). fold cmpf.
    rewrite (bsearch_bisect cmpf (starts 0 bs) block_cmp m cmpf_at) by apply le_n.
    (* r <= m; the heads before r are below the key; those from r on are not *)
    destruct (bisect_all block_cmp m block_cmp_mono) as (Hrm & Hlo & Hhi).
    set (r := bisect (S m) block_cmp 0 m) in *. clearbody r.
    (* a head that is not below the key is followed by a head above it *)
    assert (Hnext : forall h, block_cmp h <> Lt -> S h < m -> block_cmp (S h) = Gt).
    { intros h Hc Hn. apply (block_cmp_sides h (S h)); [lia|exact Hn|exact Hc]. }
    (* in each case: the block chosen, then fi < m, [isolated fi], and what the code returns *)
    destruct (Nat.ltb_spec r m) as [Hlt|Hge].
    2:{ (* every head is below the key: the last block *)
        exists (Nat.pred m). assert (r = m) by lia. subst r. destruct (Nat.eqb_spec m 0); [lia|].
        rewrite not_below_first by (rewrite Hlo by lia; discriminate).
        split; [|split].
        - lia.
        - apply isolated_at; [lia|intros _; rewrite Hlo by lia; discriminate|lia].
        - reflexivity. }
    pose proof (cmpf_at r Hlt) as Hcr. unfold cmpf, cmp_at in Hcr. rewrite Hcr. clear Hcr.
    destruct (block_cmp r) eqn:Ecr; [|destruct (Hhi r (le_n r) Hlt Ecr)|destruct r as [|r]].
    - (* the head of block r is the key: block r *)
      exists r. rewrite not_below_first by (destruct r; [congruence|rewrite Hlo by lia; discriminate]).
      split; [|split].
      + exact Hlt.
      + apply isolated_at; [exact Hlt|congruence|apply Hnext; congruence].
      + reflexivity.
    - (* the first head is above the key: block 0, where the old code indexes offsets[-1] *)
      exists 0. rewrite bltb_gt. fold (block_cmp 0). rewrite Ecr.
      split; [|split].
      + exact Hm.
      + apply isolated_at; [exact Hm|lia|apply Hnext; congruence].
      + destruct clamp; reflexivity.
    - (* the head of block r + 1 is the first above the key: block r *)
      exists r. rewrite not_below_first by (rewrite Hlo by lia; discriminate).
      split; [|split].
      + lia.
      + apply isolated_at; [lia|intros _; rewrite Hlo by lia; discriminate|intros _; exact Ecr].
      + reflexivity.
  Qed.
End Blocks.

(* Table.Get on a written table, for both values of [clamp] *)
Theorem table_get_gen_spec clamp tp es key :
  run_ok es -> (forall e, In e es -> bf_might_have (bloom_of tp es) (e_key e) = true) ->
  table_get_gen clamp (write_table tp es) key =
  if bf_might_have (bloom_of tp es) key && (negb clamp && bltb key (first_key es)) then GPanic else get_spec es key.
Proof.
  intros (Hok & Hs & Hsz) Hbloom.
  unfold table_get_gen, table_meta. rewrite body_of_write_table. cbn [write_table t_meta].
  destruct (bf_might_have (bloom_of tp es) key) eqn:Ebf; cbn [andb].
  2:{ unfold get_spec. rewrite find_key_none; [reflexivity|].
      intros e Hin Heq. rewrite <- Heq, (Hbloom e Hin) in Ebf. discriminate. }
  destruct (index_blocks tp es Hsz) as (bs & E & Hne & ->). subst es.
  destruct bs as [|b0 bs0] eqn:Ebs; [destruct key; rewrite andb_false_r; reflexivity|]. rewrite <- Ebs in *.
  assert (Hm : (0 < length bs)%nat) by (rewrite Ebs; cbn [length]; lia).
  destruct (search_index_spec bs key Hne Hok Hs Hm clamp) as (fi & Hfi & (Hb & Ha) & ->).
  destruct (block_split bs Hne 0 Hm) as (Et & E0). cbn [firstn concat app] in E0.
  replace (first_key (concat bs)) with (e_key (bhead bs 0)) by (rewrite E0, Et; reflexivity).
  destruct (negb clamp && _); [reflexivity|].
  destruct (block_split bs Hne fi Hfi) as (_ & E). rewrite (nth_starts bs 0 fi Hfi), N.add_0_l.
  rewrite E in Hok |- *. destruct (Nat.eqb_spec fi (length bs - 1)) as [El|El].
  - (* the last block: the end bound lies beyond the file and nothing follows *)
    apply scan_isolated; [exact Hok|apply find_key_none, Hb|apply find_key_none, Ha|..].
    + rewrite E, !ser_entries_app, !blen_app in Hsz. rewrite ser_entries_app, blen_app. unfold max_int64. lia.
    + intros []. rewrite skipn_all2 by lia. reflexivity.
  - (* another block follows: the end bound is where it starts *)
    rewrite (nth_starts bs 0 (S fi)), (firstn_S_nth bs fi (nth fi bs [])), concat_app by (try apply nth_error_nth'; lia).
    cbn [concat]. rewrite app_nil_r.
    apply scan_isolated; [exact Hok|apply find_key_none, Hb|apply find_key_none, Ha|..].
    + apply N.le_refl.
    + intros _. apply N.le_refl.
Qed.

Theorem table_get_is_find_gen tp es key :
  run_ok es -> (forall e, In e es -> bf_might_have (bloom_of tp es) (e_key e) = true) ->
  table_get (write_table tp es) key = get_spec es key.
Proof. intros H Hb. unfold table_get. rewrite (table_get_gen_spec true tp es key H Hb), andb_false_r. reflexivity. Qed.

(* D26: the code before the repair panics on every key below the first key that passes the filter *)
Theorem table_get_old_panics tp es key :
  run_ok es -> (forall e, In e es -> bf_might_have (bloom_of tp es) (e_key e) = true) ->
  bf_might_have (bloom_of tp es) key = true -> bltb key (first_key es) = true ->
  table_get_old (write_table tp es) key = GPanic.
Proof. intros H Hb Hf Hk. unfold table_get_old. rewrite (table_get_gen_spec false tp es key H Hb), Hf, Hk. reflexivity. Qed.

(* Transient read failures during the index search of Table.Get: a search whose reads fail at some offsets (and
   otherwise read what the healthy storage reads) either reports the error or did not touch a failing offset and
   returns what the healthy search returns. It never turns a failure into an answer. *)
Section Fault.
  Variables rk rk' : N -> option (option bytes).
  Variable key : bytes.
  Hypothesis Hrk : forall off, rk' off = Some None \/ rk' off = rk off.

  Let cmpf := cmp_at rk key.
  Let cmpf' := cmp_at rk' key.

  Lemma cmpf'_cases off : cmpf' off = Some None \/ cmpf' off = cmpf off.
  Proof. unfold cmpf', cmpf, cmp_at. destruct (Hrk off) as [-> | ->]; auto. Qed.

  Lemma bsearch_fault offs : forall fuel i j,
    bsearch fuel cmpf' offs i j = BsErr \/ bsearch fuel cmpf' offs i j = bsearch fuel cmpf offs i j.
  Proof.
    induction fuel as [|f IH]; intros i j; [right; reflexivity|].
    cbn [bsearch]. destruct (Nat.ltb i j); [|right; reflexivity].
    destruct (cmpf'_cases (nth (Nat.div2 (i + j)) offs 0)) as [E|E]; rewrite E; [left; reflexivity|].
    destruct (cmpf (nth (Nat.div2 (i + j)) offs 0)) as [[[]|]|]; try (right; reflexivity); apply IH.
  Qed.

  Theorem search_faults_surface clamp offs :
    search_index_with rk' clamp offs key = SErr \/
    search_index_with rk' clamp offs key = search_index_with rk clamp offs key.
  Proof.
    unfold search_index_with. destruct offs as [|o offs]; [right; reflexivity|].
    cbv zeta. fold (cmp_at rk key) (cmp_at rk' key). fold cmpf cmpf'. set (l := o :: offs).
    destruct (bsearch_fault l (S (length l)) 0 (length l)) as [E|E]; rewrite E; [left; reflexivity|].
    destruct (bsearch (S (length l)) cmpf l 0 (length l)) as [i| |]; try (right; reflexivity).
    destruct (Nat.ltb i (length l)); [|right; reflexivity].
    destruct (cmpf'_cases (nth i l 0)) as [E2|E2]; unfold cmpf', cmpf, cmp_at in E2; rewrite E2; [left; reflexivity|right; reflexivity].
  Qed.
End Fault.

(* D26 is reachable (Props.C17.old_get_panics_before_first_key_refuted): five keys "m??" whose filter bits cover
   the five bits of the absent key "a", which sorts before them *)
Definition d26_es : list entry :=
  map (fun p => mkE (109 :: fst p) [] (snd p) false)
      [([1; 138], 1); ([16; 244], 2); ([24; 221], 3); ([28; 177], 4); ([59; 186], 5)].
Definition d26_key : bytes := [97].
