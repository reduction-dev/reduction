(* C03 over the LSM model: the composition of [refines_trace] (Proofs/C03_Store.v, stated for every KV with
   [refines_sm]) with the refinement proof of the LSM state machine of C07 (Proofs/C07_Refine.v [step_ok]: every
   enabled action from a state with the invariant keeps the invariant, changes the abstract map [absm] as the
   specification says, and every completed scan returns [sm_scan p absm]).

   The KV instance: states are (database with the invariant and no read in flight, schedule); put / delete / scan are
   the foreground actions of Model/StateStoreLsm.v, each preceded (the scan also split) by the background steps the
   schedule prescribes; contents = absm.  [over_lsm_refines] is the refinement for every DKV whose states carry such an
   LSM side; [lsm_kv] and the two records of the restore files are its instances. *)
From Coq Require Import List NArith Bool Lia.
From RV Require Import Base.Lists Model.StateStore Model.StateStoreLsm Proofs.C03_Store.
From RV Require Model.LsmBase Model.LsmCompaction Model.Lsm Proofs.C07_Sorted Proofs.C07_Spec Proofs.C07_Refine.
Import ListNotations.
Open Scope N_scope.

Lemma lsm_sm_put_eq k v m : Lsm.sm_put k v m = StateStore.sm_put k v m.
Proof. reflexivity. Qed.

Lemma lsm_sm_del_above k m : (forall y, In y m -> C07_Sorted.klt k (fst y)) -> Lsm.sm_del k m = m.
Proof. exact (C07_Spec.sm_del_above k m). Qed.

(* Lsm.sm_del walks the whole list, StateStore.sm_del stops at the first greater key: the same on ascending lists *)
Lemma lsm_sm_del_eq k m : C07_Spec.ksorted m -> Lsm.sm_del k m = StateStore.sm_del k m.
Proof. intros H. now rewrite (C07_Spec.sm_del_kdel k m H), C03_Store.sm_del_kdel. Qed.

Lemma lsm_sm_scan_eq p m : Lsm.sm_scan p m = StateStore.sm_scan p m.
Proof. reflexivity. Qed.

Section OverLsm.
  Variable cfg : Lsm.dbcfg.
  Hypothesis Hcfg : C07_Refine.cfg_ok cfg.

  Definition good (st : Lsm.db) : Prop := C07_Refine.DBInv st /\ Lsm.rd st = Lsm.RNone.

  Lemma bg_step_rd st a : Lsm.rd (bg_step cfg st a) = Lsm.rd st.
  Proof.
    unfold bg_step. destruct a; cbn [is_bg]; try reflexivity; cbn [Lsm.step].
    - (* AF1 *) destruct (Lsm.ft st); [destruct (Lsm.fpend st)|]; reflexivity.
    - (* AF2 *) destruct (Lsm.ft st); reflexivity.
    - (* AC1 *) destruct (LsmCompaction.compact LsmBase.table_size (Lsm.d_comp cfg) (Lsm.mcl st) (Lsm.lv st)) as [[cs|] m];
        destruct (Lsm.ct st); try destruct (Lsm.cpend st); reflexivity.
    - (* AC2 *) destruct (Lsm.ct st); reflexivity.
  Qed.

  Lemma bg_step_ok st a : C07_Refine.DBInv st ->
    C07_Refine.DBInv (bg_step cfg st a) /\ C07_Refine.absm (bg_step cfg st a) = C07_Refine.absm st.
  Proof.
    intros HI. unfold bg_step. destruct (is_bg a) eqn:B; [|split; [exact HI|reflexivity]].
    destruct (Lsm.step cfg st a) as [[st' o]|] eqn:E; [|split; [exact HI|reflexivity]].
    destruct (C07_Refine.step_ok cfg st a st' o Hcfg HI E) as (H1 & H2 & _). split; [exact H1|].
    rewrite H2. destruct a; try discriminate; reflexivity.
  Qed.

  Lemma bg_run_ok acts : forall st, C07_Refine.DBInv st ->
    C07_Refine.DBInv (bg_run cfg st acts) /\ C07_Refine.absm (bg_run cfg st acts) = C07_Refine.absm st /\
    Lsm.rd (bg_run cfg st acts) = Lsm.rd st.
  Proof.
    intros st HI. unfold bg_run.
    apply (fold_left_inv (bg_step cfg) (fun s => C07_Refine.DBInv s /\ C07_Refine.absm s = C07_Refine.absm st /\ Lsm.rd s = Lsm.rd st));
      [|now split]. intros s a (H1 & H2 & H3). destruct (bg_step_ok s a H1) as [J1 J2]. rewrite bg_step_rd. split; [exact J1|]. split; congruence.
  Qed.

  Lemma pend_none r : C07_Refine.pend_of r = None -> r = Lsm.RNone.
  Proof. destruct r; [reflexivity|discriminate|discriminate]. Qed.

  Lemma fg_enabled x a st2 o :
    Lsm.step cfg (bg_run cfg (fst x) (fst (next_bg (snd x)))) a = Some (st2, o) ->
    fg cfg x a = ((st2, snd (next_bg (snd x))), o).
  Proof. intros E. unfold fg. destruct (next_bg (snd x)) as [b sc]. cbn [fst snd] in *. now rewrite E. Qed.

  (* a foreground action of the operator is a step of the state machine from a database that background steps have
     made of the present one: same invariant, same map, same read in flight *)
  Lemma fg_step x a : C07_Refine.DBInv (fst x) ->
    (forall st, Lsm.rd st = Lsm.rd (fst x) -> Lsm.step cfg st a <> None) ->
    exists st1, C07_Refine.DBInv st1 /\ C07_Refine.absm st1 = C07_Refine.absm (fst x) /\ Lsm.rd st1 = Lsm.rd (fst x) /\
                Lsm.step cfg st1 a = Some (fst (fst (fg cfg x a)), snd (fg cfg x a)).
  Proof.
    intros HI En. destruct (bg_run_ok (fst (next_bg (snd x))) (fst x) HI) as (H1 & H2 & H3).
    exists (bg_run cfg (fst x) (fst (next_bg (snd x)))). split; [exact H1|]. split; [exact H2|]. split; [exact H3|].
    destruct (Lsm.step cfg _ a) as [[st2 o]|] eqn:E; [rewrite (fg_enabled _ _ _ _ E); reflexivity|destruct (En _ H3 E)].
  Qed.

  (* DB.Put / DB.Delete under any background steps before it *)
  Lemma raw_put_spec k v x : good (fst x) ->
    good (fst (raw_put cfg k v x)) /\ C07_Refine.absm (fst (raw_put cfg k v x)) = StateStore.sm_put k v (C07_Refine.absm (fst x)).
  Proof.
    intros [HI Hrd]. unfold raw_put. destruct (fg_step x (Lsm.APut k v) HI) as (st1 & H1 & H2 & H3 & E).
    { intros st R. cbn [Lsm.step]. rewrite R, Hrd. now destruct (Lsm.write cfg st k v false). }
    destruct (C07_Refine.step_ok cfg _ _ _ _ Hcfg H1 E) as (J1 & J2 & _ & J4). rewrite H3, Hrd in J4.
    split; [split; [exact J1|now apply pend_none]|]. rewrite J2, H2. apply lsm_sm_put_eq.
  Qed.

  Lemma raw_del_spec k x : good (fst x) ->
    good (fst (raw_del cfg k x)) /\ C07_Refine.absm (fst (raw_del cfg k x)) = StateStore.sm_del k (C07_Refine.absm (fst x)).
  Proof.
    intros [HI Hrd]. unfold raw_del. destruct (fg_step x (Lsm.ADel k) HI) as (st1 & H1 & H2 & H3 & E).
    { intros st R. cbn [Lsm.step]. rewrite R, Hrd. now destruct (Lsm.write cfg st k [] true). }
    destruct (C07_Refine.step_ok cfg _ _ _ _ Hcfg H1 E) as (J1 & J2 & _ & J4). rewrite H3, Hrd in J4.
    split; [split; [exact J1|now apply pend_none]|]. rewrite J2, H2. apply lsm_sm_del_eq, C07_Refine.absm_sorted.
  Qed.

  (* DB.ScanPrefix: memtable snapshot, background steps, level-list snapshot - still exactly the prefix scan of the map *)
  Lemma raw_scan_spec p x : good (fst x) ->
    fst (raw_scan cfg p x) = StateStore.sm_scan p (C07_Refine.absm (fst x)) /\
    good (fst (snd (raw_scan cfg p x))) /\ C07_Refine.absm (fst (snd (raw_scan cfg p x))) = C07_Refine.absm (fst x).
  Proof.
    intros [HI Hrd]. unfold raw_scan.
    (* Scan1 from a database [st1] that background steps made of [fst x] *)
    destruct (fg_step x (Lsm.AScan1 p) HI) as (st1 & Inv1 & Map1 & Rd1 & Scan1).
    { intros st R. cbn [Lsm.step]. now rewrite R, Hrd. }
    destruct (fg cfg x (Lsm.AScan1 p)) as [x1 o1]. cbn [fst snd] in Scan1.
    destruct (C07_Refine.step_ok cfg _ _ _ _ Hcfg Inv1 Scan1) as (InvX1 & MapX1 & _ & _).
    assert (RdX1 : exists m, Lsm.rd (fst x1) = Lsm.RScan p m).
    { cbn [Lsm.step] in Scan1. rewrite Rd1, Hrd in Scan1. injection Scan1 as <- _. eexists. reflexivity. }
    destruct RdX1 as [m RdX1].
    (* Scan2 from a database [st2] that background steps made of [fst x1] *)
    destruct (fg_step x1 Lsm.AScan2 InvX1) as (st2 & Inv2 & Map2 & Rd2 & Scan2).
    { intros st R. cbn [Lsm.step]. now rewrite R, RdX1. }
    destruct (fg cfg x1 Lsm.AScan2) as [x2 o]. cbn [fst snd] in *.
    destruct (C07_Refine.step_ok cfg _ _ _ _ Hcfg Inv2 Scan2) as (InvX2 & MapX2 & Out & RdX2). rewrite Rd2, RdX1 in Out, RdX2.
    destruct Out as (p0 & [= <-] & ->).
    split; [now rewrite Map2, MapX1, Map1|]. split; [split; [exact InvX2|now apply pend_none]|]. now rewrite MapX2, Map2, MapX1, Map1.
  Qed.

  (* A DKV whose states carry an LSM side [raw] with the invariant, whose put / delete / scan are the raw operations on it
     and whose restore leaves a database holding the saved one's map, refines the sorted map - whatever else its states
     carry (a durable database, a second schedule: Proofs/C03_Restore.v, C03_RestoreBg.v). *)
  Lemma over_lsm_refines (K : KV) (raw : kv_st K -> lsm_raw) :
    (forall s, good (fst (raw s))) ->
    (forall k v s, raw (kv_put K k v s) = raw_put cfg k v (raw s)) ->
    (forall k s, raw (kv_del K k s) = raw_del cfg k (raw s)) ->
    (forall p s, fst (kv_scan K p s) = Some (fst (raw_scan cfg p (raw s))) /\
                 raw (snd (kv_scan K p s)) = snd (raw_scan cfg p (raw s))) ->
    (forall cur s, C07_Refine.absm (fst (raw (kv_restore K cur s))) = C07_Refine.absm (fst (raw s))) ->
    refines_sm K (fun s => C07_Refine.absm (fst (raw s))).
  Proof.
    intros G Hput Hdel Hscan Hrestore. split.
    - intros k v s. rewrite Hput. apply raw_put_spec, G.
    - intros k s. rewrite Hdel. apply raw_del_spec, G.
    - intros p s. destruct (Hscan p s) as [E1 E2]. rewrite E1, E2. split; [f_equal|]; apply raw_scan_spec, G.
    - exact Hrestore.
  Qed.

  (* what dkv.Open makes of a captured database: any function with the contract of C08 (a database with the invariant,
     no read in flight, the same contents) *)
  Variable reopen : Lsm.db -> Lsm.db.
  Hypothesis Hreopen : forall st, good st -> good (reopen st) /\ C07_Refine.absm (reopen st) = C07_Refine.absm st.

  Definition lsm_st : Type := { x : lsm_raw | good (fst x) }.

  Definition lsm_put (k v : bytes) (s : lsm_st) : lsm_st :=
    exist _ (raw_put cfg k v (proj1_sig s)) (proj1 (raw_put_spec k v _ (proj2_sig s))).
  Definition lsm_del (k : bytes) (s : lsm_st) : lsm_st :=
    exist _ (raw_del cfg k (proj1_sig s)) (proj1 (raw_del_spec k _ (proj2_sig s))).
  Definition lsm_scan (p : bytes) (s : lsm_st) : option kvlist * lsm_st :=
    (Some (fst (raw_scan cfg p (proj1_sig s))),
     exist _ (snd (raw_scan cfg p (proj1_sig s))) (proj1 (proj2 (raw_scan_spec p _ (proj2_sig s))))).
  Definition lsm_restore (cur saved : lsm_st) : lsm_st :=
    exist _ (raw_restore reopen (proj1_sig cur) (proj1_sig saved)) (proj1 (Hreopen _ (proj2_sig saved))).

  (* the DKV that is the LSM model alone, redeployed by [reopen]: Props/C03.v keyed_state_is_map_over_lsm and the timers
     of Props/C10.v are stated over it *)
  Definition lsm_kv : KV :=
    {| kv_st := lsm_st; kv_put := lsm_put; kv_del := lsm_del; kv_scan := lsm_scan; kv_restore := lsm_restore |}.

  Definition lsm_contents (s : lsm_st) : kvlist := C07_Refine.absm (fst (proj1_sig s)).

  Lemma init_good : good (Lsm.init cfg).
  Proof. split; [exact (C07_Refine.init_inv cfg Hcfg)|reflexivity]. Qed.

  Definition lsm_init (sc : schedule) : lsm_st := exist _ (Lsm.init cfg, sc) init_good.

  Lemma lsm_refines : refines_sm lsm_kv lsm_contents.
  Proof.
    apply (over_lsm_refines lsm_kv (@proj1_sig _ _)); [|reflexivity|reflexivity|now split|].
    - intros s. exact (proj2_sig s).
    - intros cur s. exact (proj2 (Hreopen _ (proj2_sig s))).
  Qed.

  Lemma lsm_refines_sorted_map :
    (forall k v s, lsm_contents (kv_put lsm_kv k v s) = StateStore.sm_put k v (lsm_contents s)) /\
    (forall k s, lsm_contents (kv_del lsm_kv k s) = StateStore.sm_del k (lsm_contents s)) /\
    (forall p s, fst (kv_scan lsm_kv p s) = Some (StateStore.sm_scan p (lsm_contents s)) /\
                 lsm_contents (snd (kv_scan lsm_kv p s)) = lsm_contents s) /\
    (forall cur s, lsm_contents (kv_restore lsm_kv cur s) = lsm_contents s).
  Proof. destruct lsm_refines as [Hp Hd Hs Hr]. exact (conj Hp (conj Hd (conj Hs Hr))). Qed.

  Theorem refines_per_key_map_lsm kgf accept h steps sc :
    handler_ok h -> Forall step_ok steps ->
    exists y, StateStore.run lsm_kv kgf accept h (init_sys lsm_kv (lsm_init sc)) steps = Some y /\
              sy_trace y = o_trace (o_run h o_init steps).
  Proof. apply (refines_trace lsm_kv lsm_contents lsm_refines). exact (C07_Refine.absm_init cfg). Qed.
End OverLsm.

(* the contract asked of [reopen] is satisfiable: handing back the captured database itself *)
Lemma reopen_id_ok : forall st, good st -> good ((fun d => d) st) /\ C07_Refine.absm ((fun d : Lsm.db => d) st) = C07_Refine.absm st.
Proof. intros st H. split; [exact H|reflexivity]. Qed.
