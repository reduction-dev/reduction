(* C10 over the LSM model: Model/TimerStoreKV.v (the timer store and registry over an abstract DKV) computes, over every
   DKV that refines the sorted map, exactly what the list model of Model/TimerStore.v / TimerRegistry.v computes (the
   keys of the DKV's contents being the list model's [db]); so [refinement] (Proofs/C10_Registry.v) holds over it; the
   instance is the LSM state machine of C07 under any schedule of background steps (Proofs/C03_OverLsm.v [lsm_kv], which
   packages [step_ok] of Proofs/C07_Refine.v). *)
From RV Require Import Base.Lists Base.Bytes Model.TimerStore Model.TimerRegistry Model.TimerStoreKV.
From RV Require Import Proofs.C10_Spec Proofs.C10_Registry.
From RV Require Model.StateStore Proofs.C03_OverLsm Proofs.C07_Refine Model.Lsm.
From Coq Require Import Permutation.
Open Scope N_scope.

(* the sorted association list of C03/C07 and the sorted key list of C10 *)
Lemma keys_sm_put k v m : map fst (StateStore.sm_put k v m) = sins k (map fst m).
Proof.
  induction m as [|[k' v'] m IH]; cbn; [reflexivity|].
  destruct (bcmp k k'); cbn; [reflexivity|reflexivity|now rewrite IH].
Qed.
Lemma keys_sm_del k m : map fst (StateStore.sm_del k m) = sdel k (map fst m).
Proof.
  induction m as [|[k' v'] m IH]; cbn; [reflexivity|].
  destruct (bcmp k k'); cbn; [reflexivity|reflexivity|now rewrite IH].
Qed.
Lemma keys_sm_scan p m : map fst (StateStore.sm_scan p m) = db_scan p (map fst m).
Proof.
  unfold StateStore.sm_scan, db_scan. induction m as [|[k' v'] m IH]; cbn; [reflexivity|].
  destruct (is_prefix p k'); cbn; now rewrite IH.
Qed.
Lemma filter_all_true (l : list bytes) : filter (is_prefix []) l = l.
Proof. now apply filter_all. Qed.

(* the list model, cut where the generic model is cut *)
Lemma kq_load_cut q d p :
  kq_load q d p = if negb (c_empty (k_cache p)) || k_all p then p else kq_loaded q (db_scan (k_prefix p) d) p.
Proof. reflexivity. Qed.
Lemma kq_push_cut q v d p : kq_push q v d p = (kq_push_cache q v (kq_load q d p), db_put v d).
Proof. reflexivity. Qed.
Lemma kq_delete_cut q v d p : kq_delete q v d p = (kq_delete_cache v (kq_load q d p), db_delete v d).
Proof. reflexivity. Qed.

Section Sim.
Variable K : StateStore.KV.
Variable contents : StateStore.kv_st K -> StateStore.kvlist.
Hypothesis Hput : forall k v s, contents (StateStore.kv_put K k v s) = StateStore.sm_put k v (contents s).
Hypothesis Hdel : forall k s, contents (StateStore.kv_del K k s) = StateStore.sm_del k (contents s).
Hypothesis Hscan : forall p s, fst (StateStore.kv_scan K p s) = Some (StateStore.sm_scan p (contents s)) /\
                               contents (snd (StateStore.kv_scan K p s)) = contents s.
Hypothesis Hrestore : forall cur s, contents (StateStore.kv_restore K cur s) = contents s.

Definition keys (s : StateStore.kv_st K) : db := map fst (contents s).

(* Every function of the list model, run on the keys of the DKV state, gives what its generic counterpart gives.  Such
   a statement about a pair of results is proved ([sim_pair]) and used ([pair_sim]) as one equation that rewrites the list
   model's call away, after which only the generic model's result remains to be named.  The functions that only read
   ([scan_keys], [kq_load], [load_all], [ts_peek]) return no db in the list model: of their two equations the first
   rewrites the call away and the second says that the keys are the same. *)
Lemma sim_pair {A S T} {f : S -> T} {x : A * T} {r : A * S} : x = (fst r, f (snd r)) -> fst r = fst x /\ f (snd r) = snd x.
Proof. intros ->. split; reflexivity. Qed.
Lemma pair_sim {A S T} {f : S -> T} {x : A * T} {r : A * S} : fst r = fst x /\ f (snd r) = snd x -> x = (fst r, f (snd r)).
Proof. destruct x. cbn. intros [<- <-]. reflexivity. Qed.

Lemma scan_keys_sim p s : fst (scan_keys K p s) = db_scan p (keys s) /\ keys (snd (scan_keys K p s)) = keys s.
Proof.
  unfold scan_keys, keys. destruct (Hscan p s) as [E1 E2].
  destruct (StateStore.kv_scan K p s) as [o s']. cbn [fst snd] in *. subst o. rewrite E2. split; [apply keys_sm_scan|reflexivity].
Qed.

Lemma kq_load_sim q s p : fst (kq_load_kv K q s p) = kq_load q (keys s) p /\ keys (snd (kq_load_kv K q s p)) = keys s.
Proof.
  unfold kq_load_kv. rewrite kq_load_cut. destruct (negb (c_empty (k_cache p)) || k_all p); [split; reflexivity|].
  destruct (scan_keys_sim (k_prefix p) s) as [E1 E2]. rewrite <- E1. destruct (scan_keys K (k_prefix p) s). split; [reflexivity|exact E2].
Qed.

Lemma kq_push_sim q v s p :
  fst (kq_push_kv K q v s p) = fst (kq_push q v (keys s) p) /\ keys (snd (kq_push_kv K q v s p)) = snd (kq_push q v (keys s) p).
Proof.
  apply sim_pair. unfold kq_push_kv. rewrite kq_push_cut. destruct (kq_load_sim q s p) as [E1 E2]. rewrite <- E1, <- E2.
  destruct (kq_load_kv K q s p) as [p1 s1]. unfold keys. cbn [fst snd]. rewrite Hput, keys_sm_put. reflexivity.
Qed.

Lemma kq_delete_sim q v s p :
  fst (kq_delete_kv K q v s p) = fst (kq_delete q v (keys s) p) /\ keys (snd (kq_delete_kv K q v s p)) = snd (kq_delete q v (keys s) p).
Proof.
  apply sim_pair. unfold kq_delete_kv. rewrite kq_delete_cut. destruct (kq_load_sim q s p) as [E1 E2]. rewrite <- E1, <- E2.
  destruct (kq_load_kv K q s p) as [p1 s1]. unfold keys. cbn [fst snd]. rewrite Hdel, keys_sm_del. reflexivity.
Qed.

Lemma load_all_sim q ps : forall s,
  fst (load_all K q ps s) = map (kq_load q (keys s)) ps /\ keys (snd (load_all K q ps s)) = keys s.
Proof.
  induction ps as [|p r IH]; intros s; cbn [load_all map]; [split; reflexivity|].
  destruct (kq_load_sim q s p) as [E1 E2]. rewrite <- E1, <- E2. destruct (kq_load_kv K q s p) as [p' s1]. cbn [fst snd].
  destruct (IH s1) as [F1 F2]. rewrite <- F1. destruct (load_all K q r s1) as [r' s2]. split; [reflexivity|exact F2].
Qed.

Lemma ts_peek_sim q s t :
  fst (ts_peek_kv K q s t) = ts_peek q (keys s) t /\ keys (snd (ts_peek_kv K q s t)) = keys s.
Proof.
  unfold ts_peek_kv, ts_peek. destruct (load_all_sim q (ts_parts t) s) as [E1 E2]. rewrite <- E1.
  destruct (load_all K q (ts_parts t) s) as [ps s']. split; [reflexivity|exact E2].
Qed.

Lemma ts_push_sim q k s t :
  fst (ts_push_kv K q k s t) = fst (ts_push q k (keys s) t) /\ keys (snd (ts_push_kv K q k s t)) = snd (ts_push q k (keys s) t).
Proof.
  apply sim_pair. unfold ts_push_kv, ts_push. destruct (part_index t k) as [i|]; [|reflexivity].
  destruct (nth_error (ts_parts t) i) as [p|]; [|reflexivity].
  rewrite (pair_sim (kq_push_sim q k s p)). destruct (kq_push_kv K q k s p) as [p' s']. reflexivity.
Qed.

Lemma ts_delete_sim q k s t :
  fst (ts_delete_kv K q k s t) = fst (ts_delete q k (keys s) t) /\ keys (snd (ts_delete_kv K q k s t)) = snd (ts_delete q k (keys s) t).
Proof.
  apply sim_pair. unfold ts_delete_kv, ts_delete. destruct (part_index t k) as [i|]; [|reflexivity].
  destruct (nth_error (ts_parts t) i) as [p|]; [|reflexivity].
  rewrite (pair_sim (kq_delete_sim q k s p)). destruct (kq_delete_kv K q k s p) as [p' s']. reflexivity.
Qed.

Lemma store_set_sim q kgf wm key t ts s :
  fst (store_set_kv K q kgf wm key t ts s) = fst (store_set q kgf wm key t ts (keys s)) /\
  keys (snd (store_set_kv K q kgf wm key t ts s)) = snd (store_set q kgf wm key t ts (keys s)).
Proof. unfold store_set_kv, store_set. destruct (negb (wm <? t)%Z); [split; reflexivity|apply ts_push_sim]. Qed.

Lemma during_sets_sim q kgf wm n during : forall ts s,
  fst (during_sets_kv K q kgf wm n during ts s) = fst (during_sets q kgf wm n during ts (keys s)) /\
  keys (snd (during_sets_kv K q kgf wm n during ts s)) = snd (during_sets q kgf wm n during ts (keys s)).
Proof.
  unfold during_sets_kv, during_sets. induction during as [|[[a k] t] r IH]; intros ts s; cbn [fold_left fst snd]; [split; reflexivity|].
  destruct (Nat.eqb a n); [|apply IH].
  rewrite (pair_sim (store_set_sim q kgf wm k t ts s)). destruct (store_set_kv K q kgf wm k t ts s) as [ts1 s1]. apply IH.
Qed.

Lemma fire_sim q kgf fuel : forall wm n during ts s acc,
  fst (fire_kv K q kgf fuel wm n during ts s acc) = fst (fire q kgf fuel wm n during ts (keys s) acc) /\
  keys (snd (fire_kv K q kgf fuel wm n during ts s acc)) = snd (fire q kgf fuel wm n during ts (keys s) acc).
Proof.
  induction fuel as [|f IH]; intros wm n during ts s acc; cbn [fire_kv fire]; [split; reflexivity|].
  destruct (ts_peek_sim q s ts) as [E1 E2]. rewrite <- E1, <- E2. destruct (ts_peek_kv K q s ts) as [[o ts1] s1]. cbn [fst snd].
  destruct o as [k|]; [destruct (wm <? key_time k)%Z|]; try (split; reflexivity).
  rewrite (pair_sim (ts_delete_sim q k s1 ts1)). destruct (ts_delete_kv K q k s1 ts1) as [ts2 s2]. cbn [fst snd].
  rewrite (pair_sim (during_sets_sim q kgf wm (S n) during ts2 s2)). destruct (during_sets_kv K q kgf wm (S n) during ts2 s2) as [ts3 s3]. apply IH.
Qed.

(* the systems: same registry, the DKV's keys are the list model's db *)
Definition sys_of (st : sys_kv K) : sys := (fst st, keys (snd st)).

Lemma set_timer_sim q kgf key t st : sys_of (set_timer_kv K q kgf key t st) = set_timer q kgf key t (sys_of st).
Proof.
  destruct st as [r s]. unfold set_timer_kv, set_timer, sys_of. cbn [fst snd].
  rewrite (pair_sim (store_set_sim q kgf (r_wm r) key t (r_store r) s)). destruct (store_set_kv K q kgf (r_wm r) key t (r_store r) s). reflexivity.
Qed.

Lemma advance_sim q kgf stop sender wm during st :
  fst (advance_kv K q kgf stop sender wm during st) = fst (advance q kgf stop sender wm during (sys_of st)) /\
  sys_of (snd (advance_kv K q kgf stop sender wm during st)) = snd (advance q kgf stop sender wm during (sys_of st)).
Proof.
  apply sim_pair. destruct st as [r s]. unfold advance_kv, advance, sys_of. cbn [fst snd].
  destruct (scan_keys_sim [] s) as [A1 A2]. unfold db_scan in A1. rewrite filter_all_true in A1.
  destruct (scan_keys K [] s) as [all s0]. cbn [fst snd] in *. subst all. rewrite <- A2, (pair_sim (fire_sim _ _ _ _ _ _ _ _ _)).
  destruct (fire_kv K q kgf _ _ 0 during (r_store r) s0 []) as [[out ts'] s']. reflexivity.
Qed.

Lemma step_sim c o st :
  fst (step_kv K c o st) = fst (step c o (sys_of st)) /\ sys_of (snd (step_kv K c o st)) = snd (step c o (sys_of st)).
Proof.
  apply sim_pair. destruct o as [k t|sender wm|sender wm during|sender wm k during|]; cbn [step_kv step].
  - (* SetTimer *) rewrite <- set_timer_sim. reflexivity.
  - (* Advance *) rewrite (pair_sim (advance_sim _ _ _ _ _ _ _)). destruct (advance_kv K _ _ None sender wm [] st). reflexivity.
  - (* AdvanceSet *) rewrite (pair_sim (advance_sim _ _ _ _ _ _ _)). destruct (advance_kv K _ _ None sender wm during st). reflexivity.
  - (* AdvancePartial *) rewrite (pair_sim (advance_sim _ _ _ _ _ _ _)). destruct (advance_kv K _ _ (Some k) sender wm during st). reflexivity.
  - (* Restore *) unfold sys_of, sys_new_kv, sys_new, keys. cbn [fst snd]. rewrite Hrestore. reflexivity.
Qed.

Lemma run_sim c ops : forall st,
  fst (run_kv K c ops st) = fst (run c ops (sys_of st)) /\ sys_of (snd (run_kv K c ops st)) = snd (run c ops (sys_of st)).
Proof.
  induction ops as [|o r IH]; intros st; cbn [run_kv run]; [split; reflexivity|].
  rewrite (pair_sim (step_sim c o st)). destruct (step_kv K c o st) as [out st1]. cbn [fst snd].
  rewrite (pair_sim (IH st1)). destruct (run_kv K c r st1). split; reflexivity.
Qed.

(* the theorem of the list model, over every DKV that refines the sorted map and starts empty *)
Theorem refinement_over_kv kgf start size cache srids ops s0 :
  start + size <= 65536 -> contents s0 = [] ->
  Forall (op_okc kgf start size) ops ->
  let c := cfg kgf start size cache srids in
  let res := run_kv K c ops (sys_new_kv K c s0) in
  Forall2 out_ok (fst res) (fst (spec_run srids ops (fst res) (spec_new srids []))) /\
  Permutation (keys (snd (snd res))) (map (enc kgf) (sp_pending (snd (spec_run srids ops (fst res) (spec_new srids []))))) /\
  cache_inv (fst (snd res), keys (snd (snd res))).
Proof.
  intros Hr H0 Hok c res.
  pose proof (refinement kgf start size cache srids Hr ops Hok) as R. cbn zeta in R. fold c in R.
  replace (sys_new c []) with (sys_of (sys_new_kv K c s0)) in R by (unfold sys_of, sys_new_kv, keys; cbn; rewrite H0; reflexivity).
  rewrite (pair_sim (run_sim _ _ _)) in R. exact R.
Qed.
End Sim.

(* the instance: the LSM model of C07 under any schedule of flushes and compactions *)
Section Lsm.
Variable lcfg : Lsm.dbcfg.
Hypothesis Hcfg : C07_Refine.cfg_ok lcfg.
Variable reopen : Lsm.db -> Lsm.db.
Hypothesis Hreopen : forall st, C03_OverLsm.good st -> C03_OverLsm.good (reopen st) /\ C07_Refine.absm (reopen st) = C07_Refine.absm st.

Definition lsmK : StateStore.KV := C03_OverLsm.lsm_kv lcfg Hcfg reopen Hreopen.
Definition lsm_keys (s : StateStore.kv_st lsmK) : list bytes := map fst (C03_OverLsm.lsm_contents s).

Theorem timers_over_lsm kgf start size cache srids ops (sc : StateStoreLsm.schedule) :
  start + size <= 65536 ->
  Forall (op_okc kgf start size) ops ->
  let c := cfg kgf start size cache srids in
  let res := run_kv lsmK c ops (sys_new_kv lsmK c (C03_OverLsm.lsm_init lcfg Hcfg sc)) in
  Forall2 out_ok (fst res) (fst (spec_run srids ops (fst res) (spec_new srids []))) /\
  Permutation (lsm_keys (snd (snd res))) (map (enc kgf) (sp_pending (snd (spec_run srids ops (fst res) (spec_new srids []))))) /\
  cache_inv (fst (snd res), lsm_keys (snd (snd res))).
Proof.
  intros Hr Hok.
  destruct (C03_OverLsm.lsm_refines_sorted_map lcfg Hcfg reopen Hreopen) as (Hp & Hd & Hs & Hre).
  apply (refinement_over_kv lsmK C03_OverLsm.lsm_contents Hp Hd Hs Hre); auto.
  unfold C03_OverLsm.lsm_contents, C03_OverLsm.lsm_init. cbn. apply C07_Refine.absm_init.
Qed.
End Lsm.
