(* keyGroupRanges in closed form: range j of kg_ranges count n is [rs_start j, rs_start (j+1)), where
   rs_start j = j * (count / n) + min j (count mod n) (kg_ranges_spec); what C05 says of the ranges is arithmetic on
   rs_start.  The lookup table is built by writing consecutive spans (build_lookup_spans, for any monotone span
   function); count <= 65535 is the only guard its soundness needs (range_index_sound). *)
From RV Require Import Model.KeyCodec.
From Coq Require Import ZifyN ZifyNat ZifyBool Lia.
Open Scope N_scope.

(* start of range i: the first [count mod n] ranges have one group more than [count / n] *)
Definition rs_start (count n i : N) : N := i * (count / n) + N.min i (count mod n).

Lemma rs_size count n i :
  rs_start count n (i + 1) = rs_start count n i + count / n + (if i <? count mod n then 1 else 0).
Proof.
  (* with quotient and remainder abstracted the goal is linear; left in place, lia works through the division axioms *)
  unfold rs_start. generalize (count / n) (count mod n). intros q r.
  rewrite N.mul_add_distr_r, N.mul_1_l. destruct (N.ltb_spec i r); lia.
Qed.

Lemma rs_start_mono count n i j : i <= j -> rs_start count n i <= rs_start count n j.
Proof. intros H. unfold rs_start. apply N.add_le_mono; [apply N.mul_le_mono_r; exact H | apply N.min_le_compat_r, H]. Qed.

Lemma rs_start_0 count n : rs_start count n 0 = 0.
Proof. apply N.min_0_l. Qed.

Lemma rs_start_n count n : 0 < n -> rs_start count n n = count.
Proof.
  intros H. unfold rs_start. pose proof (N.mod_lt count n). rewrite N.min_r by lia.
  symmetry. apply N.div_mod. lia.
Qed.

Lemma kg_ranges_spec count n :
  kg_ranges count n = map (fun j => (rs_start count n (N.of_nat j), rs_start count n (N.of_nat (S j)))) (seq 0 (N.to_nat n)).
Proof.
  assert (L : forall todo i, kg_ranges_loop todo (N.of_nat i) (rs_start count n (N.of_nat i)) (count mod n) (count / n) =
            map (fun j => (rs_start count n (N.of_nat j), rs_start count n (N.of_nat (S j)))) (seq i todo)).
  { induction todo as [|todo IH]; intros i; [reflexivity|].
    cbn [kg_ranges_loop seq map]. rewrite <- rs_size, N.add_1_r, <- Nat2N.inj_succ. f_equal. apply IH. }
  rewrite <- L, rs_start_0. reflexivity.
Qed.

Lemma kg_ranges_length count n : length (kg_ranges count n) = N.to_nat n.
Proof. rewrite kg_ranges_spec, map_length, seq_length. reflexivity. Qed.

Lemma kg_ranges_nth count n i : (i < N.to_nat n)%nat ->
  nth i (kg_ranges count n) (0, 0) = (rs_start count n (N.of_nat i), rs_start count n (N.of_nat (S i))).
Proof.
  intros H. rewrite kg_ranges_spec. set (f := fun j => _).
  rewrite (nth_indep _ _ (f O)), map_nth, seq_nth by (rewrite ?map_length, ?seq_length; exact H). reflexivity.
Qed.

Lemma includes_nth count n i kg : (i < N.to_nat n)%nat ->
  includes_kg (nth i (kg_ranges count n) (0,0)) kg = true <->
  rs_start count n (N.of_nat i) <= kg < rs_start count n (N.of_nat (S i)).
Proof. intros H. rewrite kg_ranges_nth by exact H. unfold includes_kg. cbn [fst snd]. lia. Qed.

Lemma range_unique count n kg i j : (i < N.to_nat n)%nat -> (j < N.to_nat n)%nat ->
  includes_kg (nth i (kg_ranges count n) (0,0)) kg = true ->
  includes_kg (nth j (kg_ranges count n) (0,0)) kg = true -> i = j.
Proof.
  intros Hi Hj. rewrite !includes_nth by assumption. intros A B.
  destruct (Nat.lt_trichotomy i j) as [L|[E|L]]; [exfalso| exact E | exfalso].
  - pose proof (rs_start_mono count n (N.of_nat (S i)) (N.of_nat j)). lia.
  - pose proof (rs_start_mono count n (N.of_nat (S j)) (N.of_nat i)). lia.
Qed.

Lemma kg_ranges_partition count n kg : 0 < n -> kg < count ->
  exists j, (j < N.to_nat n)%nat /\ includes_kg (nth j (kg_ranges count n) (0,0)) kg = true /\
    forall j', (j' < N.to_nat n)%nat -> includes_kg (nth j' (kg_ranges count n) (0,0)) kg = true -> j' = j.
Proof.
  intros Hn Hkg.
  assert (E : forall m : nat, kg < rs_start count n (N.of_nat m) ->
            exists j, (j < m)%nat /\ rs_start count n (N.of_nat j) <= kg < rs_start count n (N.of_nat (S j))).
  { induction m as [|m IH]; intros Hm; [cbn in Hm; lia|].
    destruct (N.ltb_spec kg (rs_start count n (N.of_nat m))) as [Hlt|Hge].
    - destruct (IH Hlt) as (j & Hj & Hr). exists j. split; [lia|exact Hr].
    - exists m. auto. }
  destruct (E (N.to_nat n)) as (j & Hj & Hr); [rewrite N2Nat.id, rs_start_n; assumption|].
  apply includes_nth in Hr; [|exact Hj]. exists j. split; [exact Hj|]. split; [exact Hr|].
  intros j' Hj' Hin'. eapply range_unique; eassumption.
Qed.

Lemma kg_ranges_contiguous_cover count n : 0 < n ->
  let rs := kg_ranges count n in
  length rs = N.to_nat n /\
  fst (nth 0 rs (0,0)) = 0 /\
  (forall i, (S i < N.to_nat n)%nat -> snd (nth i rs (0,0)) = fst (nth (S i) rs (0,0))) /\
  snd (nth (N.to_nat n - 1) rs (0,0)) = count /\
  (forall i, (i < N.to_nat n)%nat -> fst (nth i rs (0,0)) <= snd (nth i rs (0,0))).
Proof.
  intros Hn rs. subst rs. split; [apply kg_ranges_length|]. split; [|split; [|split]].
  - rewrite kg_ranges_nth by lia. apply rs_start_0.
  - intros i Hi. rewrite !kg_ranges_nth by lia. reflexivity.
  - rewrite kg_ranges_nth by lia. cbn [snd]. replace (N.of_nat (S (N.to_nat n - 1))) with n by lia. apply rs_start_n, Hn.
  - intros i Hi. rewrite kg_ranges_nth by lia. apply rs_start_mono. lia.
Qed.

Lemma kg_ranges_size count n i : (i < N.to_nat n)%nat ->
  let r := nth i (kg_ranges count n) (0,0) in
  snd r - fst r = count / n + (if N.of_nat i <? count mod n then 1 else 0).
Proof.
  intros Hi r. subst r. rewrite kg_ranges_nth by exact Hi. cbn [fst snd].
  rewrite Nat2N.inj_succ, <- N.add_1_r, rs_size. generalize (rs_start count n (N.of_nat i)) (count / n). intros a b.
  destruct (N.of_nat i <? count mod n); lia.
Qed.

Lemma fill_span_spec t : forall len v, (len <= length t)%nat ->
  length (fill_span t len v) = length t /\
  forall k, nth k (fill_span t len v) 0 = if (k <? len)%nat then v else nth k t 0.
Proof.
  induction t as [|x t IH]; intros [|len] v H; cbn [fill_span length] in *; try lia; try (split; [|intros []]; reflexivity).
  destruct (IH len v) as [L Nt]; [lia|]. split; [rewrite L; reflexivity|]. intros [|k]; [reflexivity|apply Nt].
Qed.

Lemma set_span_spec : forall start tbl len v, (start + len <= length tbl)%nat ->
  length (set_span tbl start len v) = length tbl /\
  forall k, nth k (set_span tbl start len v) 0 = if ((start <=? k) && (k <? start + len))%nat then v else nth k tbl 0.
Proof.
  induction start as [|s IH]; intros tbl len v H.
  - replace (set_span tbl 0 len v) with (fill_span tbl len v) by (destruct tbl; reflexivity). apply fill_span_spec, H.
  - destruct tbl as [|x t]; cbn in H; [lia|]. cbn [set_span length]. destruct (IH t len v) as [L Nt]; [lia|].
    split; [rewrite L; reflexivity|]. intros [|k]; [reflexivity|apply Nt].
Qed.

(* build_lookup over consecutive spans [f j, f (S j)), j = i0 .. i0+m-1: a position in span j gets u16 j, positions in
   earlier spans are left alone *)
Lemma build_lookup_spans (f : nat -> N) : (forall i j, (i <= j)%nat -> f i <= f j) -> forall (m i0 : nat) tbl j kg,
  (N.to_nat (f (i0 + m)%nat) <= length tbl)%nat -> (j < i0 + m)%nat -> f j <= kg < f (S j) ->
  nth (N.to_nat kg) (build_lookup tbl (N.of_nat i0) (map (fun j => (f j, f (S j))) (seq i0 m))) 0 =
  if (j <? i0)%nat then nth (N.to_nat kg) tbl 0 else u16 (N.of_nat j).
Proof.
  intros Hf. induction m as [|m IH]; intros i0 tbl j kg Hlen Hj Hkg; cbn [seq map build_lookup].
  - replace (j <? i0)%nat with true by lia. reflexivity.
  - rewrite Nat.add_succ_r in *. pose proof (Hf i0 (S i0)). pose proof (Hf (S i0) (S (i0 + m))). pose proof (Hf (S j) i0).
    destruct (set_span_spec (N.to_nat (f i0)) tbl (N.to_nat (f (S i0) - f i0)) (u16 (N.of_nat i0))) as [El Nt]; [lia|].
    rewrite N.add_1_r, <- Nat2N.inj_succ, (IH (S i0) _ j kg), Nt; [|rewrite El; exact Hlen|lia|exact Hkg].
    destruct (Nat.ltb_spec j (S i0)), (Nat.ltb_spec j i0); try lia.
    + (* an earlier span lies outside the one just written *) destruct (_ && _) eqn:E; [lia|reflexivity].
    + (* the span just written *) assert (j = i0) as -> by lia. destruct (_ && _) eqn:E; [reflexivity|lia].
Qed.

Lemma range_lookup_spec count n j kg : 0 < n -> (j < N.to_nat n)%nat ->
  includes_kg (nth j (kg_ranges count n) (0,0)) kg = true ->
  nth (N.to_nat kg) (range_lookup count n) 0 = u16 (N.of_nat j).
Proof.
  intros Hn Hj Hr. apply includes_nth in Hr; [|exact Hj]. unfold range_lookup. rewrite kg_ranges_spec.
  apply (build_lookup_spans (fun j => rs_start count n (N.of_nat j))) with (m := N.to_nat n) (i0 := O); auto.
  - intros a b Hab. apply rs_start_mono. lia.
  - cbn [Nat.add]. rewrite repeat_length, N2Nat.id, rs_start_n by exact Hn. lia.
Qed.

Lemma key_group_lt count key : 0 < count -> key_group count key < count.
Proof. intros H. unfold key_group. apply N.mod_lt. lia. Qed.

(* a range that holds a key group has an index below the group count, however many ranges there are: with fewer
   groups than ranges the non-empty ranges are the first [count mod n], each of one group *)
Lemma owner_lt_count count n j kg :
  rs_start count n j <= kg < rs_start count n (j + 1) -> kg < count -> j < count.
Proof.
  rewrite rs_size. unfold rs_start. generalize (count / n) (count mod n). intros q r H Hk.
  destruct (N.eq_dec q 0) as [->|Hq]; [destruct (N.ltb_spec j r); lia|].
  assert (j * 1 <= j * q) by (apply N.mul_le_mono_l; lia). lia.
Qed.

(* [count <= 65535] keeps both uint16 conversions of RangeIndex exact: that of the key group, and that of the range
   index stored in the table, which is below [count] by [owner_lt_count]; the number of ranges needs no bound *)
Lemma range_index_sound count n key : 0 < count -> count <= 65535 -> 0 < n ->
  let i := range_index count n key in
  i < n /\ includes_kg (nth (N.to_nat i) (kg_ranges count n) (0,0)) (key_group count key) = true.
Proof.
  intros Hc Hc2 Hn i. subst i. unfold range_index.
  pose proof (key_group_lt count key Hc) as Hkg.
  destruct (kg_ranges_partition count n _ Hn Hkg) as (j & Hj & Hin & _).
  assert (Hjc : N.of_nat j < count).
  { apply (owner_lt_count count n _ (key_group count key)); [|exact Hkg].
    rewrite N.add_1_r, <- Nat2N.inj_succ. apply includes_nth; assumption. }
  unfold u16. rewrite wrap_small, (range_lookup_spec count n j _ Hn Hj Hin) by (cbn; lia).
  unfold u16. rewrite wrap_small, Nat2N.id by (cbn; lia). split; [lia|exact Hin].
Qed.

Lemma firstn2_be16 x rest : firstn 2 (be16 x ++ rest) = be16 x.
Proof. reflexivity. Qed.

Lemma owns_key_be16 r kg rest : kg < 65536 -> owns_key r (be16 kg ++ rest) = Some (includes_kg r kg).
Proof. intros H. rewrite <- (be16_decode kg H) at 2. reflexivity. Qed.

(* an operator owns a key stored under the group of [subject], whatever follows the two group bytes, exactly when the
   router sends [subject] to it *)
Lemma owns_stored_iff_routed count n own subject rest :
  0 < count -> count <= 65535 -> 0 < n -> own < n ->
  owns_key (nth (N.to_nat own) (kg_ranges count n) (0,0)) (be16 (key_group count subject) ++ rest) =
  Some (range_index count n subject =? own).
Proof.
  intros Hc Hc2 Hn Hown.
  pose proof (key_group_lt count subject Hc) as Hkg.
  destruct (range_index_sound count n subject Hc Hc2 Hn) as [Hi Hin].
  rewrite owns_key_be16 by lia. f_equal.
  destruct (N.eqb_spec (range_index count n subject) own) as [<-|Hne]; [exact Hin|].
  apply not_true_is_false. intros E. apply Hne, N2Nat.inj. eapply range_unique; try eassumption; lia.
Qed.

(* the check computes the expected index by searching the ranges; equal to the table lookup *)
Fixpoint find_range (rs : list kgrange) (kg : N) (i : N) : N :=
  match rs with
  | [] => 0
  | r :: rs' => if includes_kg r kg then i else find_range rs' kg (i + 1)
  end.

Lemma find_range_spec rs kg : forall i0 j, (j < length rs)%nat -> includes_kg (nth j rs (0,0)) kg = true ->
  (forall j', (j' < j)%nat -> includes_kg (nth j' rs (0,0)) kg = false) ->
  find_range rs kg i0 = i0 + N.of_nat j.
Proof.
  induction rs as [|r rs IH]; intros i0 j Hj Hin Hbefore; cbn in Hj; [lia|].
  cbn [find_range]. destruct j as [|j].
  - cbn in Hin. rewrite Hin. lia.
  - pose proof (Hbefore O ltac:(lia)) as H0. cbn [nth] in H0. rewrite H0, (IH (i0 + 1) j); try lia; [exact Hin|].
    intros j' Hj'. apply (Hbefore (S j')). lia.
Qed.

Lemma range_index_is_find_range count n key : 0 < count -> count <= 65535 -> 0 < n ->
  range_index count n key = find_range (kg_ranges count n) (key_group count key) 0.
Proof.
  intros Hc Hc2 Hn. destruct (range_index_sound count n key Hc Hc2 Hn) as [Hi Hin].
  rewrite (find_range_spec _ _ 0 (N.to_nat (range_index count n key))); [lia|rewrite kg_ranges_length; lia|exact Hin|].
  intros j' Hj'. apply not_true_is_false. intros E.
  assert (j' = N.to_nat (range_index count n key)); [|lia].
  apply (range_unique count n (key_group count key)); [lia|lia|exact E|exact Hin].
Qed.
