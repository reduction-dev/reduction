(* C04: the assumption on the reorder stage, discharged by C20's thread-level model of the repaired
   batching.ReorderFetcher (Model/Reorder.v, rp_fixed = true) through C20's invariant (Proofs/C20_Reorder.v).

   The stage of RunnerPipe is C20's state plus a cursor into Output:
     Add x / Flush   the read loop starts a call: possible when the adder thread is idle (previous call returned);
                     the call becomes the adder's script, its steps are internal actions (AAdder)
     internal        any action of C20's model (adder step, time-out goroutine step, timer expiry, fetch completion, drain)
     receive         the next element of Output not yet received by the joiner *)
From Coq Require Import List NArith Bool Arith Lia.
Import ListNotations.
From RV Require Import Model.RunnerPipe Proofs.C04_RunnerPipe Model.Reorder Proofs.C20_Reorder.
From RV Require Import Base.Lists.

Section Adapter.
  Variable kb : N -> list kev.
  Variable p : rparams.
  Hypothesis Hfixed : rp_fixed p = true.

  Notation rst := (rstate N (list kev)).
  Definition fetchK : list N -> list (list kev) := map kb.

  Definition set_script (sc : list (aop N)) (s : rst) : rst :=
    mkR (bt s) sc (apc s) (tpc s) (inflight s) (flock s) (reserved s) (nextseq s) (Reorder.drained s) (items s)
        (fetchers s) (out s) (added s) (flushed s).
  Definition inject (op : aop N) (s : rst) : option rst :=
    match apc s, script s with
    | PIdle, [] => Some (set_script [op] s)
    | _, _ => None
    end.

  Definition reorder_stage : rstage := {|
    RS := (rst * nat)%type;
    RA := Reorder.action;
    rs_init := (r_init [], 0);
    rs_add := fun sn x => match inject (AddOp x) (fst sn) with Some s' => Some (s', snd sn) | None => None end;
    rs_flush := fun sn => match inject FlushOp (fst sn) with Some s' => Some (s', snd sn) | None => None end;
    rs_int := fun sn a => match step_opt fetchK p a (fst sn) with Some s' => Some (s', snd sn) | None => None end;
    rs_out := fun sn => match nth_error (out (fst sn)) (snd sn) with
                        | Some r => Some (r, (fst sn, S (snd sn)))
                        | None => None
                        end
  |}.

  (* records whose Add call has been started but not yet executed by the adder thread *)
  Definition pend_adds (sc : list (aop N)) : list N :=
    flat_map (fun o => match o with AddOp x => [x] | FlushOp => [] end) sc.

  (* everything the read loop has handed to the stage (the Adds of its history): those the adder thread has executed, then
     those started and not yet executed *)
  Definition given (s : rst) : list N := added s ++ pend_adds (script s).

  Lemma inject_frame : forall op s s', inject op s = Some s' -> Inv fetchK s ->
    Inv fetchK s' /\ given s' = given s ++ pend_adds [op] /\ out s' = out s.
  Proof.
    unfold inject, given. intros op s s' E I. destruct (apc s) eqn:Ea; try discriminate.
    destruct (script s) eqn:Es; [|discriminate]. injection E as <-. cbn [set_script script added out].
    split; [now apply InvC_core with s|now rewrite app_nil_r].
  Qed.

  Lemma rstep_frame : forall a (s s' : rst), rstep fetchK p a s s' -> given s' = given s /\ prefix (out s) (out s').
  Proof.
    pose proof (@prefix_refl (list kev)) as Hrefl. unfold given. destruct 1; cbn; auto.
    - (* RAdd *) rewrite Es. cbn. now rewrite <- app_assoc.
    - (* RCall *) now rewrite Es.
    - (* RAFlush *) now destruct (fstep_frame _ _ _ _ _ F) as (_ & _ & -> & _ & -> & ->).
    - (* RTFlush *) now destruct (fstep_frame _ _ _ _ _ F) as (_ & _ & -> & _ & -> & ->).
    - (* RDrain *) split; [reflexivity|]. apply (drain_loop_out _ _ _ _ _ _ _ _ _ Ed).
  Qed.

  Lemma adapter_inv : forall tr sn, rrun reorder_stage tr sn ->
    Inv fetchK (fst sn) /\
    ladds reorder_stage tr = given (fst sn) /\
    louts reorder_stage tr = firstn (snd sn) (out (fst sn)) /\ snd sn <= length (out (fst sn)).
  Proof.
    intros tr sn H. induction H as [|tr r x r' H IH Eadd|tr r r' H IH Eflush|tr r a r' H IH Eint|tr r res r' H IH Eout];
      [|destruct IH as (I & A & O & L); rewrite ladds_snoc, louts_snoc, A, O, ?app_nil_r..].
    - cbn. auto using Inv_init.
    - cbn in Eadd. destruct (inject _ _) as [s'|] eqn:Ei; [|discriminate]. injection Eadd as <-.
      cbn [fst snd]. now destruct (inject_frame _ _ _ Ei I) as (I' & -> & ->).
    - cbn in Eflush. destruct (inject _ _) as [s'|] eqn:Ei; [|discriminate]. injection Eflush as <-.
      cbn [fst snd]. destruct (inject_frame _ _ _ Ei I) as (I' & -> & ->). now rewrite app_nil_r.
    - cbn in Eint. destruct (step_opt _ _ _ _) as [s'|] eqn:Es; [|discriminate]. injection Eint as <-. apply step_opt_rstep in Es.
      cbn [fst snd]. destruct (rstep_frame _ _ _ Es) as (-> & o2 & Eo). rewrite Eo, app_length, firstn_app_le by lia.
      split; [now apply (rstep_inv _ _ Hfixed _ _ _ Es)|]. repeat split. lia.
    - cbn in Eout. destruct (nth_error _ _) as [r0|] eqn:En; [|discriminate]. injection Eout as <- <-. cbn [fst snd].
      rewrite (firstn_S_nth _ _ _ En). split; [assumption|]. repeat split. exact (nth_error_lt _ _ _ En).
  Qed.

  Theorem adapter_inorder : rs_inorder kb reorder_stage.
  Proof.
    intros tr sn H. destruct (adapter_inv _ _ H) as (I & A & O & L). destruct sn as [s n]. cbn [fst snd] in *.
    destruct (inv_itemwise kb s I) as [[c Hc] _].
    exists (skipn n (out s) ++ c ++ map kb (pend_adds (script s))).
    rewrite A, O. unfold given. rewrite map_app, Hc, <- !app_assoc.
    rewrite (app_assoc (firstn n (out s))), firstn_skipn. reflexivity.
  Qed.
End Adapter.
