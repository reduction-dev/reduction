(* C03: what the fold of mutations is (a finite map: last write wins, deletes stay deleted) and what grouping by
   namespace does to it (every namespace exactly once, nothing lost, nothing added). *)
From Coq Require Import Sorted.
From RV Require Import Base.Lists Model.StateStore Proofs.C03_Codec Proofs.C03_Store.
Open Scope N_scope.

Fixpoint fm_lt_all (x : ekey) (m : flatmap) : Prop :=
  match m with [] => True | (y, _) :: m' => ekey_cmp x y = Lt /\ fm_lt_all x m' end.
Fixpoint fm_sorted (m : flatmap) : Prop :=
  match m with [] => True | (x, _) :: m' => fm_lt_all x m' /\ fm_sorted m' end.

(* Order facts about (namespace, entry key) are read off byte strings, where they are facts about [bcmp]
   ([ekey_cmp_enc], no guard): in particular sortedness of the fold comes from [sorted_sm_write] of Proofs/C03_Store.v. *)
Lemma fm_lt_all_enc x m : fm_lt_all x m <-> lt_all (ekey_enc x) (map (emb ekey_enc) m).
Proof. induction m as [|[y w] m IH]; cbn [fm_lt_all map lt_all emb fst]; [tauto|]. now rewrite ekey_cmp_enc, IH. Qed.

Lemma fm_sorted_enc m : fm_sorted m <-> sorted (map (emb ekey_enc) m).
Proof. induction m as [|[x w] m IH]; cbn [fm_sorted map sorted emb fst]; [tauto|]. now rewrite fm_lt_all_enc, IH. Qed.

Definition fm_good (m : flatmap) : Prop := fm_ok m /\ fm_sorted m.

Lemma fm_sorted_write x o m : fm_sorted m -> fm_sorted (fm_write x o m).
Proof.
  rewrite !fm_sorted_enc, (map_emb_fm_write ekey_enc (fun _ => True)); [apply sorted_sm_write| |exact I|].
  - intros a b _ _. symmetry. apply ekey_cmp_enc.
  - apply Forall_forall. trivial.
Qed.

(* [fm_of_responses] is a fold of folds of [fm_apply], four levels deep; whatever the responses hold, it ascends *)
Lemma fm_sorted_of_responses k log : fm_sorted (fm_of_responses k log).
Proof.
  apply (fold_left_inv (fm_apply_response k) fm_sorted); [|exact I].
  intros m rs. apply (fold_left_inv _ fm_sorted). intros m1 kr. destruct (beqb (kr_key kr) k); [|trivial].
  apply (fold_left_inv fm_apply_ns fm_sorted). intros m2 nm. apply (fold_left_inv (fm_apply (fst nm)) fm_sorted).
  intros m3 [e v|e]; [apply (fm_sorted_write (fst nm, e) (Some v))|apply (fm_sorted_write (fst nm, e) None)].
Qed.

Fixpoint fm_find (x : ekey) (m : flatmap) : option bytes :=
  match m with
  | [] => None
  | (y, w) :: m' => match ekey_cmp x y with Eq => Some w | _ => fm_find x m' end
  end.

Lemma ekey_cmp_refl x : ekey_cmp x x = Eq.
Proof. now apply ekey_cmp_eq. Qed.

Lemma fm_find_lt_all x m : fm_lt_all x m -> fm_find x m = None.
Proof. induction m as [|[y w] m IH]; cbn; [reflexivity|]. intros [-> H]. auto. Qed.

Lemma fm_find_skip x y w m : x <> y -> fm_find y ((x, w) :: m) = fm_find y m.
Proof.
  intros H. cbn [fm_find]. destruct (ekey_cmp y x) eqn:E; [|reflexivity..]. apply ekey_cmp_eq in E. congruence.
Qed.

Lemma ekey_cmp_gt_lt x y : ns_ok (fst x) -> ns_ok (fst y) -> ekey_cmp x y = Gt -> ekey_cmp y x = Lt.
Proof. intros _ _. apply ekey_gt_lt. Qed.

Lemma fm_find_put_same x v m : fm_find x (fm_put x v m) = Some v.
Proof.
  induction m as [|[y w] m IH]; cbn [fm_put fm_find]; [now rewrite ekey_cmp_refl|].
  destruct (ekey_cmp x y) eqn:E; cbn [fm_find]; rewrite ?ekey_cmp_refl, ?E; auto.
Qed.

Lemma fm_find_put_other x y v m : x <> y -> fm_find y (fm_put x v m) = fm_find y m.
Proof.
  intros Hxy. induction m as [|[z w] m IH]; cbn [fm_put]; [now apply fm_find_skip|].
  destruct (ekey_cmp x z) eqn:E.
  - apply ekey_cmp_eq in E as <-. now rewrite !fm_find_skip.
  - now apply fm_find_skip.
  - cbn [fm_find]. now rewrite IH.
Qed.

Lemma fm_lt_all_trans x y m : ekey_cmp x y = Lt -> fm_lt_all y m -> fm_lt_all x m.
Proof. rewrite ekey_cmp_enc, !fm_lt_all_enc. apply lt_all_trans. Qed.

Lemma fm_find_del_same x m : fm_sorted m -> fm_find x (fm_del x m) = None.
Proof.
  induction m as [|[y w] m IH]; cbn [fm_del]; [reflexivity|]. intros [Hlt Hs].
  destruct (ekey_cmp x y) eqn:E.
  - apply ekey_cmp_eq in E as <-. now apply fm_find_lt_all.
  - apply fm_find_lt_all. split; [exact E|]. exact (fm_lt_all_trans x y m E Hlt).
  - cbn [fm_find]. rewrite E. auto.
Qed.

Lemma fm_find_del_other x y m : x <> y -> fm_find y (fm_del x m) = fm_find y m.
Proof.
  intros Hxy. induction m as [|[z w] m IH]; cbn [fm_del]; [reflexivity|].
  destruct (ekey_cmp x z) eqn:E; [|reflexivity|cbn [fm_find]; now rewrite IH].
  apply ekey_cmp_eq in E as <-. symmetry. now apply fm_find_skip.
Qed.

Definition ungroup (g : list ns_state) : list (bytes * entry) :=
  flat_map (fun nse => map (fun e => (fst nse, e)) (snd nse)) g.

(* grouping neither loses nor invents nor reorders an entry *)
Lemma ungroup_group_ns l : ungroup (group_ns l) = l.
Proof.
  induction l as [|[ns e] l IH]; [reflexivity|]. cbn [group_ns].
  destruct (group_ns l) as [|[ns' es] g]; [now rewrite <- IH|].
  destruct (beqb ns ns') eqn:E; [apply beqb_eq in E as <-|]; unfold ungroup in *; cbn [flat_map fst snd map app] in *;
    now rewrite IH.
Qed.

Lemma group_ns_nonempty l : Forall (fun nse : ns_state => snd nse <> []) (group_ns l).
Proof.
  induction l as [|[ns e] l IH]; [constructor|]. cbn [group_ns].
  destruct (group_ns l) as [|[ns' es] g]; [repeat constructor; discriminate|].
  inversion IH; subst. destruct (beqb ns ns'); repeat constructor; try discriminate; assumption.
Qed.

Definition ns_lt (a b : bytes) : Prop := ns_cmp a b = Lt.

Lemma ns_strict_nodup l : StronglySorted ns_lt l -> NoDup l.
Proof. apply StronglySorted_NoDup. intros a H. unfold ns_lt in H. now rewrite (proj2 (ns_cmp_eq a a)) in H. Qed.

Lemma view_cons x v m : view ((x, v) :: m) =
  match view m with
  | (ns', es) :: g => if beqb (fst x) ns' then (fst x, (snd x, v) :: es) :: g else (fst x, [(snd x, v)]) :: (ns', es) :: g
  | [] => [(fst x, [(snd x, v)])]
  end.
Proof. reflexivity. Qed.

Lemma view_head x v m : exists es g, view ((x, v) :: m) = (fst x, es) :: g.
Proof. rewrite view_cons. destruct (view m) as [|[ns' es] g]; [|destruct (beqb (fst x) ns')]; eauto. Qed.

(* in ascending order of stored keys the namespaces ascend (by length, then bytes): a new group starts only at a
   namespace greater than the previous one, hence than all later ones *)
Lemma view_ns_strict m : fm_sorted m -> StronglySorted ns_lt (map fst (view m)).
Proof.
  induction m as [|[[ns e] v] m IH]; [constructor|]. intros [Hlt Hs]. specialize (IH Hs). rewrite view_cons. cbn [fst snd].
  destruct m as [|[[ns' e'] v'] m']; [repeat constructor|].
  destruct (view_head (ns', e') v' m') as (es & g & Ev). cbn [fst] in Ev. rewrite Ev in *. cbn [map fst] in IH.
  apply StronglySorted_inv in IH as [J2 J1]. destruct (beqb ns ns') eqn:E; cbn [map fst].
  - apply beqb_eq in E as <-. now constructor.
  - assert (Hlt' : ns_lt ns ns').
    { destruct Hlt as [Hlt _]. unfold ekey_cmp in Hlt. cbn [fst snd] in Hlt. unfold ns_lt.
      destruct (ns_cmp ns ns') eqn:C; try discriminate; [|reflexivity].
      apply ns_cmp_eq in C as <-. now rewrite beqb_refl in E. }
    repeat constructor; try assumption. exact (Forall_impl _ (fun c => ns_lt_trans ns ns' c Hlt') J1).
Qed.

(* namespaces_contiguous, on the fold of any responses whatever *)
Theorem namespaces_contiguous_fold k log :
  let m := fm_of_responses k log in
  ungroup (view m) = map unflat m /\ NoDup (map fst (view m)) /\ Forall (fun nse : ns_state => snd nse <> []) (view m).
Proof.
  intros m. split; [apply ungroup_group_ns|]. split; [|apply group_ns_nonempty].
  apply ns_strict_nodup, view_ns_strict, fm_sorted_of_responses.
Qed.
