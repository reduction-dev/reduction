(* C16, Kinesis splitter: one AssignSplits call hands every pending shard, with its checkpointed cursor, to exactly one
   runner index < n. *)
From Coq Require Import List NArith Bool Lia ZifyN ZifyNat ZifyBool Permutation.
From RV Require Import Base.Lists Model.SplitTracker Model.Splitters Proofs.C16_Static.
Import ListNotations.
Open Scope N_scope.

(* Lists.filter_all for a test that holds of everything *)
Lemma filter_all {A} (p : A -> bool) l : (forall x, p x = true) -> filter p l = l.
Proof. intro H. apply Lists.filter_all. intros x _. apply H. Qed.

Lemma filter_split_perm {A} (p q : A -> bool) l : (forall x, p x && q x = false) ->
  Permutation (filter p l ++ filter q l) (filter (fun x => p x || q x) l).
Proof.
  intro H. induction l as [|x r IH]; cbn [filter]; [constructor|]. specialize (H x).
  destruct (p x) eqn:Ep, (q x) eqn:Eq; cbn [orb andb] in *; try discriminate.
  - cbn [app]. constructor. exact IH.
  - etransitivity; [symmetry; apply Permutation_middle|]. constructor. exact IH.
  - exact IH.
Qed.

Lemma flat_map_filter_range {A} (f : A -> N) (l : list A) : forall k s,
  Permutation (flat_map (fun r => filter (fun x => f x =? r) l) (iota_from s k))
              (filter (fun x => (s <=? f x) && (f x <? s + N.of_nat k)) l).
Proof.
  induction k as [|k IH]; intro s; cbn [iota_from flat_map].
  - rewrite filter_nil; [constructor|]. intros x _. lia.
  - rewrite (IH (s + 1)). etransitivity.
    + apply filter_split_perm. intro x. lia.
    + erewrite filter_ext; [apply Permutation_refl|]. intro x. cbn beta. lia.
Qed.

Lemma runner_index_lt : forall lo hi n, 1 <= n -> runner_index lo hi n < n.
Proof. intros. unfold runner_index. cbn zeta. lia. Qed.

Lemma assign_out_ids_flat : forall (f : shard -> N) cs shards rs,
  map (fun a => snd (fst a)) (flat_map (fun r => map (fun s => (r, sid s, cursor_of cs (sid s)))
       (filter (fun s => f s =? r) shards)) rs)
  = map sid (flat_map (fun r => filter (fun s => f s =? r) shards) rs).
Proof.
  intros f cs shards rs. induction rs as [|r rs IH]; cbn [flat_map map]; [reflexivity|].
  rewrite !map_app, IH, map_map. reflexivity.
Qed.

(* ANY choice of runners into range: grouping a list by a function with values in [s, s + k) is a partition of the list *)
Theorem grouping_is_a_partition {A} : forall (f : A -> N) (l : list A) k s, (forall x, In x l -> s <= f x < s + N.of_nat k) ->
  Permutation (flat_map (fun r => filter (fun x => f x =? r) l) (iota_from s k)) l.
Proof.
  intros f l k s Hf. rewrite (flat_map_filter_range f l k s).
  rewrite Lists.filter_all by (intros x Hx; specialize (Hf x Hx); lia). reflexivity.
Qed.

(* the shard ids of one AssignSplits call are a permutation of the pending shards - each exactly once - for every
   assignment function into range *)
Theorem assign_out_with_each_once : forall f n cs shards, (forall s, In s shards -> f s < n) ->
  Permutation (map (fun a => snd (fst a)) (assign_out_with f n cs shards)) (map sid shards).
Proof.
  intros f n cs shards Hf. unfold assign_out_with. rewrite assign_out_ids_flat. apply Permutation_map.
  apply grouping_is_a_partition. intros x Hx. specialize (Hf x Hx). lia.
Qed.

Theorem assign_out_each_once : forall n cs shards, 1 <= n ->
  Permutation (map (fun a => snd (fst a)) (assign_out n cs shards)) (map sid shards).
Proof.
  intros n cs shards Hn. unfold assign_out. apply assign_out_with_each_once. intros s _. apply runner_index_lt. exact Hn.
Qed.

(* the checkpointed cursor travels with the shard *)
Theorem assignment_carries_cursor_with : forall f n cs shards r i c,
  In (r, i, c) (assign_out_with f n cs shards) -> c = cursor_of cs i /\ r < n /\ exists s, In s shards /\ sid s = i /\ f s = r.
Proof.
  intros f n cs shards r i c H. unfold assign_out_with in H.
  (* the triple was made for some runner [r'] < n from a shard [s] that [f] sends to [r'] *)
  apply in_flat_map in H as (r' & Hr & H). apply In_iota in Hr.
  apply in_map_iff in H as (s & E & Hs). apply filter_In in Hs as [Hs Hf]. apply N.eqb_eq in Hf.
  injection E as -> <- <-. split; [reflexivity|]. split; [lia|]. exists s. auto.
Qed.
