(* C07: the DB state machine of Model/Lsm.v refines a sorted association list, for every history, every background
   schedule and every option setting.  Invariant: the layout seen by readers - the level list with the memtables appended
   to level 0 in chronological order - is a valid layout (C18_Layout.LLInv). *)
From Coq Require Import List NArith Bool Lia.
From RV Require Import Base.Bytes Base.Lists Model.LsmBase Model.LsmCompaction Model.Lsm
  Proofs.C07_Sorted Proofs.C07_Spec Proofs.C18_Layout Proofs.C18_Apply Proofs.C18_Compact Proofs.C18_Reader.
Import ListNotations.
Open Scope N_scope.

Lemma snoc_ne {A} (l : list A) a : l ++ [a] <> [].
Proof. destruct l; discriminate. Qed.

Lemma ml_get_spec M k : sep M -> (forall t, In t M -> sorted t) -> newest (ents_of M) k (ml_get k M).
Proof.
  unfold ml_get. induction M as [|x M IH] using rev_ind; intros Hsep Hs; [intros e' (? & [] & _)|].
  rewrite rev_app_distr. cbn [rev app map first_some]. apply sep_app in Hsep as (Hsep' & _ & Hlt).
  apply (newest_ext (fun e => In e x \/ ents_of M e)); [intros e _; rewrite ents_of_snoc; apply or_comm|].
  apply newest_first.
  - apply sorted_newest, Hs, in_or_app. right. left. reflexivity.
  - apply IH; [exact Hsep'|]. intros t Ht. apply Hs, in_or_app. left. exact Ht.
  - intros e1 e2 H1 (y & Hy & H2) _. exact (Hlt y x e2 e1 Hy (or_introl eq_refl) H2 H1).
Qed.

(* What the first half of a read has taken from the memtables, against the layout as it is now.  Get: an entry found is
   still what the view holds for the key; nothing found means no memtable holds the key.  Scan: every entry of the merged
   memtable scan has the prefix and is answered by the view with an entry at least as new, itself on equal numbers
   ([C07_Sorted.dominated]), and what the view holds under the prefix is in that scan or in the level list. *)
Definition rd_inv (r : rtask) (M : list table) (ll : levels) : Prop :=
  match r with
  | RNone => True
  | RGet k (Some e) => tbl_get k (view (vlay ll M)) = Some e
  | RGet k None => forall t e, In t M -> In e t -> ekey e <> k
  | RScan p mres =>
      sorted mres /\
      (forall e, In e mres -> has_prefix p e = true /\
          exists m, tbl_get (ekey e) (view (vlay ll M)) = Some m /\ eseq e <= eseq m /\ (eseq e = eseq m -> e = m)) /\
      (forall k m, is_prefix p k = true -> tbl_get k (view (vlay ll M)) = Some m -> In m mres \/ ents ll m)
  end.

(* Over the components memtables, level list, seqNum, flush task, compaction task, read in flight.
   i_ll: the layout a reader searches is valid; i_len, i_mts: two levels and an active memtable at least; i_real, i_sealed:
   no table of the level list and no sealed memtable is empty; i_seq: no entry is numbered above seqNum; i_ft: the snapshot
   of a running flush is a proper prefix of the memtable list; i_ct: the change set of a running compaction is good for the
   reader layout and removes no memtable; i_rd: the read in flight. *)
Record Inv (M : list table) (ll : levels) (sq : N) (f : ftask) (c : ctask) (r : rtask) : Prop := mkInv {
  i_ll : LLInv (vlay ll M);
  i_len : (2 <= length ll)%nat;
  i_mts : M <> [];
  i_real : forall l t, In l ll -> In t l -> t <> [];
  i_sealed : forall t, In t (removelast M) -> t <> [];
  i_seq : forall e, ents (vlay ll M) e -> eseq e <= sq;
  i_ft : forall snap, f = FSwap snap -> exists rest, M = snap ++ rest /\ rest <> [];
  i_ct : forall cs, c = CSwap cs -> good_cs (vlay ll M) cs /\ forall t, In t M -> ~ In t (cs_rem cs);
  i_rd : rd_inv r M ll
}.

Arguments i_ll {M ll sq f c r} _.
Arguments i_len {M ll sq f c r} _.
Arguments i_mts {M ll sq f c r} _.
Arguments i_sealed {M ll sq f c r} _.
Arguments i_seq {M ll sq f c r} _.
Arguments i_ft {M ll sq f c r} _.
Arguments i_rd {M ll sq f c r} _.

Definition DBInv (st : db) : Prop := Inv (mts st) (lv st) (seqn st) (ft st) (ct st) (rd st).
(* the reader layout of a state; LsmReplay.rlayout is the same term *)
Definition vll (st : db) : levels := vlay (lv st) (mts st).
Definition absm (st : db) : smap := kvs (without_deletes (view (vll st))).

(* [C18_Main.good_cfg] of the compactor's options, and a base level beside level 0 *)
Definition cfg_ok (cfg : dbcfg) : Prop :=
  (2 <= d_levels cfg)%nat /\ 1 <= c_target (d_comp cfg) /\ 1 <= c_trigger (d_comp cfg).

Lemma len_ne {A} (l : list A) : (2 <= length l)%nat -> l <> [].
Proof. destruct l; cbn; [lia|discriminate]. Qed.

Lemma init_empty cfg e : ~ ents (vll (init cfg)) e.
Proof.
  unfold vll, init. cbn [lv mts]. rewrite ents_vlay. intros [(l & t & Hl & Ht & _)|(t & [<-|[]] & [])].
  apply repeat_spec in Hl. subst l. destruct Ht.
Qed.

Lemma init_inv cfg : cfg_ok cfg -> DBInv (init cfg).
Proof.
  intros (Hl & _). pose proof (init_empty cfg) as Hempty. unfold DBInv, vll, init in *. cbn [lv mts seqn ft ct rd] in *.
  assert (Hrep : forall l, In l (repeat (@nil table) (d_levels cfg)) -> l = []) by (intros l; apply repeat_spec).
  assert (Hhd : hd [] (repeat (@nil table) (d_levels cfg)) = []) by (destruct (d_levels cfg); reflexivity).
  constructor; try discriminate.
  - (* i_ll *) constructor.
    + (* v_sorted *) intros l t Hl' Ht. destruct t as [|e t]; [exact I|]. destruct (Hempty e). exists l, (e :: t). cbn. auto.
    + (* v_deep *) intros i l Hi. rewrite vlay_nth_S in Hi. apply nth_error_In, Hrep in Hi. subst l. split; [exact I|intros ? []].
    + (* v_sep *) intros l [= <-]. rewrite Hhd. cbn. split; [intros ? ? ? []|exact I].
    + (* v_ord *) intros i j li lj t t' e e' _ Hi _ Ht _ He. destruct (Hempty e). exists li, t. split; [eapply nth_error_In; exact Hi|auto].
  - (* i_len *) rewrite repeat_length. exact Hl.
  - (* i_real *) intros l t Hl' Ht. apply Hrep in Hl'. subst l. destruct Ht.
  - (* i_sealed *) intros t [].
  - (* i_seq *) intros e He. destruct (Hempty e He).
  - (* i_rd *) exact I.
Qed.

Lemma rd_inv_same_view {r M M' ll ll'} :
  LLInv (vlay ll M) -> view (vlay ll' M') = view (vlay ll M) ->
  (forall e, ents_of M' e -> ents_of M e) -> rd_inv r M ll -> rd_inv r M' ll'.
Proof.
  intros Hv Hview Hsub. destruct r as [|k [e|]|p mres]; cbn [rd_inv]; rewrite ?Hview; auto.
  - intros H t e Ht He. destruct (Hsub e (ex_intro _ t (conj Ht He))) as (t0 & Ht0 & He0). exact (H t0 e Ht0 He0).
  - intros (H1 & H2 & H3). split; [exact H1|]. split; [exact H2|]. intros k m Hp Hg.
    destruct (H3 k m Hp Hg) as [H|H]; [left; exact H|right]. rewrite <- Hview in Hg. apply view_get in Hg as (G & _).
    apply ents_vlay in G as [G|G]; [exact G|]. apply Hsub in G as (t & Ht & Hm).
    pose proof (mem_above Hv Ht Hm H eq_refl). lia.
Qed.

(* Any replacement of the memtable list: the new memtables are sorted and in chronological order after level 0, and each
   of their entries is an entry of the old ones or carries a new, larger sequence number (the hypothesis on [ents_of M']). *)
Lemma Inv_new_mem {M M' ll sq sq' f f' c r r'} :
  Inv M ll sq f c r -> sq <= sq' ->
  M' <> [] -> (forall t, In t (removelast M') -> t <> []) ->
  (forall t, In t M' -> sorted t) -> sep (hd [] ll ++ M') ->
  (forall e, ents_of M' e -> ents_of M e \/ sq < eseq e <= sq') ->
  (forall snap, f' = FSwap snap -> exists rest, M' = snap ++ rest /\ rest <> []) ->
  rd_inv r' M' ll ->
  Inv M' ll sq' f' c r'.
Proof.
  intros [Hll Hlen Hmts Hreal Hsealed Hseq Hft Hct Hrd] Hsq HM' Hseal Hsort Hsep Hsrc Hf Hr. pose proof (len_ne _ Hlen) as Hne.
  assert (Hv' : LLInv (vlay ll M')).
  { apply (LLInv_new_mem ll M); auto. intros e He. destruct (Hsrc e He) as [H|H]; [left; exact H|right].
    intros e0 H0. apply Hseq in H0. lia. }
  constructor; auto.
  - (* i_seq *) intros e He. enough (ents (vlay ll M) e \/ eseq e <= sq') as [H|H]; [apply Hseq in H; lia|exact H|].
    apply ents_vlay in He as [He|He]; [left; apply ents_vlay; auto|]. destruct (Hsrc e He) as [H|H]; [left; apply ents_vlay; auto|right; lia].
  - (* i_ct: the change set is good for the level list alone, hence for every valid reader layout over it *)
    intros cs Hc. destruct (Hct cs Hc) as [Hg Hd]. apply good_cs_vlay; auto.
    rewrite <- (vlay_nil ll Hne). apply (good_cs_new_mem ll M [] cs Hne Hg Hd); [intros ? []|].
    rewrite app_nil_r. apply mem_sep, sep_app in Hll. apply Hll.
Qed.

Lemma put_inv {Ms a ll sq f c e} :
  Inv (Ms ++ [a]) ll sq f c RNone -> eseq e = sq + 1 -> Inv (Ms ++ [mt_put e a]) ll (sq + 1) f c RNone.
Proof.
  intros HI Hseq. pose proof (i_ll HI) as Hv. apply (Inv_new_mem HI).
  - (* seqNum *) lia.
  - (* active *) apply snoc_ne.
  - (* sealed *) rewrite removelast_last. intros t Ht. apply (i_sealed HI). rewrite removelast_last. exact Ht.
  - (* sorted *) intros t Ht. apply in_snoc in Ht as [Ht|<-]; [|apply mt_put_sorted]; apply (mem_sorted Hv), in_snoc; auto.
  - (* sep: the new entry is numbered above everything *)
    pose proof (mem_sep Hv) as Hsep. rewrite app_assoc in Hsep |- *. apply sep_app in Hsep as (H1 & _ & H3). apply sep_snoc; [exact H1|].
    intros y e0 e' Hy He0 He'. apply mt_put_in in He' as [->|He']; [|exact (H3 y a e0 e' Hy (or_introl eq_refl) He0 He')].
    enough (eseq e0 <= sq) by lia. apply (i_seq HI). exists (hd [] ll ++ Ms ++ [a]), y.
    split; [left; reflexivity|]. split; [rewrite app_assoc; apply in_or_app; left; exact Hy|exact He0].
  - (* entries *) intros e'. rewrite !ents_of_snoc. intros [H|H]; [auto|]. apply mt_put_in in H as [->|H]; [right; lia|auto].
  - (* i_ft *) intros snap Hf. destruct (i_ft HI snap Hf) as (rest & H1 & H2). exists (removelast rest ++ [mt_put e a]).
    split; [|apply snoc_ne]. rewrite app_assoc. f_equal. rewrite <- (removelast_last Ms a), H1. apply removelast_app, H2.
  - (* i_rd *) exact I.
Qed.

Lemma put_view {Ms a ll sq f c e} k :
  Inv (Ms ++ [a]) ll sq f c RNone -> eseq e = sq + 1 ->
  tbl_get k (view (vlay ll (Ms ++ [mt_put e a]))) = if beqb (ekey e) k then Some e else tbl_get k (view (vlay ll (Ms ++ [a]))).
Proof.
  intros HI Hseq. pose proof (i_ll HI) as Hv0. pose proof (i_ll (put_inv HI Hseq)) as Hv1.
  assert (H10 : forall x, ents (vlay ll (Ms ++ [mt_put e a])) x -> x = e \/ ents (vlay ll (Ms ++ [a])) x).
  { intros x. rewrite !ents_vlay, !ents_of_snoc. intros [H|[H|H]]; auto. apply mt_put_in in H as [H|H]; auto. }
  destruct (beqb (ekey e) k) eqn:E.
  - apply beqb_eq in E as <-. apply view_is; [exact Hv1|]. split; [rewrite ents_vlay, ents_of_snoc; right; right; apply mt_put_has|]. split; [reflexivity|].
    intros x Hx _. apply H10 in Hx as [->|Hx]; [lia|]. apply (i_seq HI) in Hx. lia.
  - apply view_get_same; [exact Hv1|]. intros x Hk. split.
    + intros Hx. apply H10 in Hx as [->|Hx]; [rewrite Hk, beqb_refl in E; discriminate|exact Hx].
    + rewrite !ents_vlay, !ents_of_snoc. intros [H|[H|H]]; auto. right. right. apply mt_put_keeps; [exact H|].
      intros Hxe. rewrite <- Hxe, Hk, beqb_refl in E. discriminate.
Qed.

Lemma rot_inv {Ms a ll sq f c} :
  Inv (Ms ++ [a]) ll sq f c RNone -> a <> [] ->
  Inv ((Ms ++ [a]) ++ [[]]) ll sq f c RNone /\ view (vlay ll ((Ms ++ [a]) ++ [[]])) = view (vlay ll (Ms ++ [a])).
Proof.
  intros HI Ha. pose proof (i_ll HI) as Hv.
  assert (HI' : Inv ((Ms ++ [a]) ++ [[]]) ll sq f c RNone).
  { apply (Inv_new_mem HI).
    - (* seqNum *) lia.
    - (* active *) apply snoc_ne.
    - (* sealed *) rewrite removelast_last. intros t Ht. apply in_snoc in Ht as [Ht|<-]; [|exact Ha].
      apply (i_sealed HI). rewrite removelast_last. exact Ht.
    - (* sorted *) intros t Ht. apply in_snoc in Ht as [Ht|<-]; [exact (mem_sorted Hv Ht)|exact I].
    - (* sep *) rewrite app_assoc. apply sep_snoc; [exact (mem_sep Hv)|intros ? ? ? _ _ []].
    - (* entries *) intros e. rewrite (ents_of_snoc (Ms ++ [a])). intros [H|[]]. auto.
    - (* i_ft *) intros snap Hf. destruct (i_ft HI snap Hf) as (rest & -> & H2). exists (rest ++ [[]]).
      split; [apply app_assoc_reverse|apply snoc_ne].
    - (* i_rd *) exact I. }
  split; [exact HI'|]. apply sorted_ext; [apply merge_all_sorted..|]. intros k. apply view_get_same; [exact (i_ll HI')|].
  intros e _. rewrite !ents_vlay, (ents_of_snoc (Ms ++ [a])). cbn [In]. tauto.
Qed.

Lemma write_inv {M ll sq f c} e (rot : bool) :
  Inv M ll sq f c RNone -> eseq e = sq + 1 ->
  let M1 := removelast M ++ [mt_put e (last M [])] in
  let M' := if rot then M1 ++ [[]] else M1 in
  Inv M' ll (sq + 1) f c RNone /\
  forall k, tbl_get k (view (vlay ll M')) = if beqb (ekey e) k then Some e else tbl_get k (view (vlay ll M)).
Proof.
  intros HI Hseq. destruct (exists_last (i_mts HI)) as (Ms & a & ->). rewrite removelast_last, last_last.
  pose proof (put_inv HI Hseq) as H1. pose proof (fun k => put_view k HI Hseq) as Hv1.
  destruct rot; cbv zeta; [|auto].
  destruct (rot_inv H1) as [H2 Hv2]; [|rewrite Hv2; auto].
  intros E. pose proof (mt_put_has e a) as H. rewrite E in H. destruct H.
Qed.

Lemma f1_inv {M ll sq c r} : Inv M ll sq FIdle c r -> Inv M ll sq (FSwap (removelast M)) c r.
Proof.
  intros [Hll Hlen Hmts Hreal Hsealed Hseq Hft Hct Hrd]. constructor; auto. intros snap [= <-]. exists [last M []]. split; [apply app_removelast_last; exact Hmts|discriminate].
Qed.

Lemma f2_inv {snap rest ll sq f c r} :
  Inv (snap ++ rest) ll sq f c r -> rest <> [] -> Inv rest (add_l0 snap ll) sq FIdle c r.
Proof.
  intros [Hll Hlen Hmts Hreal Hsealed Hseq Hft Hct Hrd] Hrest. pose proof (len_ne _ Hlen) as Hne. pose proof (vlay_add_l0 ll snap rest Hne) as Hlay.
  assert (Hsnap : forall t, In t snap -> t <> []).
  { intros t Ht. apply Hsealed. rewrite removelast_app by exact Hrest. apply in_or_app. left. exact Ht. }
  constructor; rewrite ?Hlay; auto; try discriminate.
  - (* i_len *) destruct ll; [congruence|exact Hlen].
  - (* i_real *) intros l t Hl Ht. destruct ll as [|l0 ll]; [congruence|]. destruct Hl as [<-|Hl]; [|apply (Hreal l); [right|]; assumption].
    apply in_app_or in Ht as [Ht|Ht]; [apply (Hreal l0); [left; reflexivity|exact Ht]|auto].
  - (* i_sealed *) intros t Ht. apply Hsealed. rewrite removelast_app by exact Hrest. apply in_or_app. right. exact Ht.
  - (* i_ct *) intros cs Hc. destruct (Hct cs Hc) as [H1 H2]. split; [exact H1|]. intros t Ht. apply H2, in_or_app. right. exact Ht.
  - (* i_rd *) apply (rd_inv_same_view Hll); [rewrite Hlay; reflexivity| |exact Hrd].
    intros e (t & Ht & He). exists t. split; [apply in_or_app; right; exact Ht|exact He].
Qed.

Lemma ct_inv {M ll sq f c c' r} :
  Inv M ll sq f c r -> (forall cs, c' = CSwap cs -> good_cs (vlay ll M) cs /\ forall t, In t M -> ~ In t (cs_rem cs)) ->
  Inv M ll sq f c' r.
Proof. intros [] Hc. constructor; auto. Qed.

Lemma compact_ok {cfg M ll sq f c r mcl cs mcl'} :
  cfg_ok cfg -> Inv M ll sq f c r -> compact table_size (d_comp cfg) mcl ll = (Some cs, mcl') ->
  good_cs (vlay ll M) cs /\ forall t, In t M -> ~ In t (cs_rem cs).
Proof.
  intros (_ & Ht & Htr) [Hll Hlen Hmts Hreal Hsealed Hseq Hft Hct Hrd] Hc. apply good_cs_vlay; auto.
  eapply compact_good; eauto. exact (LLInv_real _ _ Hll (len_ne _ Hlen)).
Qed.

Lemma c2_inv {M ll sq f cs r} :
  Inv M ll sq f (CSwap cs) r -> Inv M (apply_cs cs ll) sq f CIter r /\ view (vlay (apply_cs cs ll) M) = view (vlay ll M).
Proof.
  intros [Hll Hlen Hmts Hreal Hsealed Hseq Hft Hct Hrd]. pose proof (len_ne _ Hlen) as Hne. destruct (Hct cs eq_refl) as [Hg Hd].
  pose proof (g_lvl _ _ Hg) as HT. rewrite vlay_length in HT by exact Hne.
  assert (Hav : apply_cs cs (vlay ll M) = vlay (apply_cs cs ll) M) by (apply apply_vlay; [exact Hne|lia|exact Hd]).
  assert (Hview : view (vlay (apply_cs cs ll) M) = view (vlay ll M)) by (rewrite <- Hav; apply apply_view; assumption).
  split; [|exact Hview]. constructor; auto; try discriminate.
  - (* i_ll *) rewrite <- Hav. apply apply_LLInv; assumption.
  - (* i_len *) rewrite length_apply. exact Hlen.
  - (* i_real *) exact (apply_nonempty ll cs (proj2 (g_add _ _ Hg)) Hreal).
  - (* i_seq *) intros e He. rewrite <- Hav in He. apply Hseq. eapply ents_apply_sub; eauto.
  - (* i_rd *) apply (rd_inv_same_view Hll); auto.
Qed.

Lemma set_rd_inv {M ll sq f c r} r' : Inv M ll sq f c r -> rd_inv r' M ll -> Inv M ll sq f c r'.
Proof. intros []. constructor; auto. Qed.

Lemma get1_inv {M ll sq f c} k : Inv M ll sq f c RNone -> Inv M ll sq f c (RGet k (ml_get k M)).
Proof.
  intros H. apply (set_rd_inv _ H). destruct H as [Hll Hlen Hmts Hreal Hsealed Hseq Hft Hct Hrd].
  pose proof (mem_sep Hll) as Hsep. apply sep_app in Hsep as (_ & Hsep & _).
  pose proof (ml_get_spec M k Hsep (fun t => mem_sorted Hll)) as Hm. unfold rd_inv. destruct (ml_get k M) as [e|].
  - destruct Hm as (Hin & <- & Hmax). apply view_is; [exact Hll|]. split; [apply ents_vlay; right; exact Hin|]. split; [reflexivity|].
    intros y Hy Hk. apply ents_vlay in Hy as [Hy|Hy]; [|auto]. destruct Hin as (x & Hx & Hex).
    pose proof (mem_above Hll Hx Hex Hy (eq_sym Hk)). lia.
  - intros t e Ht He. apply Hm. exists t. auto.
Qed.

Lemma get2_ok {M ll sq f c k m0} :
  Inv M ll sq f c (RGet k m0) ->
  match m0 with Some e => Some e | None => ll_get k ll end = tbl_get k (view (vlay ll M)).
Proof.
  intros [Hll Hlen Hmts Hreal Hsealed Hseq Hft Hct Hrd]. unfold rd_inv in Hrd. destruct m0 as [e|]; [symmetry; exact Hrd|].
  pose proof (LLInv_real _ _ Hll (len_ne _ Hlen)) as Hlv. rewrite ll_get_ok by exact Hlv.
  apply view_get_same; auto. intros e Hk. rewrite ents_vlay. split; [auto|]. intros [He|(t & Ht & He)]; [exact He|destruct (Hrd t e Ht He Hk)].
Qed.

Lemma ents_of_scan p M e : ents_of (map (tbl_scan p) M) e <-> ents_of M e /\ has_prefix p e = true.
Proof.
  unfold ents_of, tbl_scan. split.
  - intros (s & Hs & He). apply in_map_iff in Hs as (t & <- & Ht). apply filter_In in He as [He Hp]. eauto.
  - intros [(t & Ht & He) Hp]. exists (filter (has_prefix p) t). split; [apply in_map; exact Ht|apply filter_In; auto].
Qed.

Lemma scan1_inv {M ll sq f c} p : Inv M ll sq f c RNone -> Inv M ll sq f c (RScan p (ml_scan_entries p M)).
Proof.
  intros H. apply (set_rd_inv _ H). destruct H as [Hll Hlen Hmts Hreal Hsealed Hseq Hft Hct Hrd].
  destruct (Mx_merge_all (map (tbl_scan p) M)) as (HM1 & HM2 & HM3).
  assert (Hsrc : forall e, In e (ml_scan_entries p M) -> has_prefix p e = true /\ ents (vlay ll M) e).
  { intros e He. apply HM2, ents_of_scan in He as [He Hp]. split; [exact Hp|apply ents_vlay; auto]. }
  split; [exact HM1|]. split.
  - intros e He. destruct (Hsrc e He) as [Hp Hin]. split; [exact Hp|apply view_dominates; auto].
  - intros k m Hp Hg. apply view_get in Hg as (G1 & G2 & G3). apply ents_vlay in G1 as [G1|G1]; [right; exact G1|left].
    destruct (HM3 m) as (x & Hx & Hle); [apply ents_of_scan; split; [exact G1|unfold has_prefix; rewrite G2; exact Hp]|].
    apply tbl_get_some in Hx as [Hx1 Hx2]. destruct (Hsrc x Hx1) as [_ Hxe].
    assert (x = m); [|subst x; exact Hx1]. apply (LLInv_uniq _ Hll); auto; [apply ents_vlay; auto|].
    specialize (G3 x Hxe ltac:(congruence)). lia.
Qed.

Lemma scan2_ok {M ll sq f c p mres} :
  Inv M ll sq f c (RScan p mres) -> merge_all [mres; ll_scan_entries p ll] = tbl_scan p (view (vlay ll M)).
Proof.
  intros [Hll Hlen Hmts Hreal Hsealed Hseq Hft Hct Hrd]. destruct Hrd as (Hs & HI1 & HI2).
  pose proof (LLInv_real _ _ Hll (len_ne _ Hlen)) as Hlv. rewrite ll_scan_ok by exact Hlv.
  assert (Hvs : sorted (view (vlay ll M))) by apply merge_all_sorted.
  apply (Mx_dom_eq _ _ _ (Mx_merge_all _)); [apply sorted_filter; exact Hvs| |].
  - intros e He. enough (has_prefix p e = true /\ dominated (view (vlay ll M)) e) as [Hp Hd] by (apply dominated_scan; assumption).
    destruct He as (s & [<-|[<-|[]]] & He); [apply HI1; exact He|]. apply filter_In in He as [He Hp]. split; [exact Hp|].
    apply view_dominates; [exact Hll|]. apply ents_vlay. left. apply (ents_view ll). exact He.
  - intros m Hm. exists m. split; [|split; [reflexivity|lia]]. apply filter_In in Hm as [Hm Hp].
    pose proof (sorted_get _ _ Hvs Hm) as G. destruct (HI2 _ m Hp G) as [H|H]; [exists mres; cbn; auto|].
    exists (tbl_scan p (view ll)). split; [cbn; auto|]. apply filter_In. split; [|exact Hp].
    apply view_get in G as (_ & _ & G3). eapply tbl_get_some, view_is; [exact Hlv|]. split; [exact H|]. split; [reflexivity|].
    intros e He Hk. apply G3; [apply ents_vlay; auto|exact Hk].
Qed.

Definition pend_of (r : rtask) : option bytes := match r with RNone => None | RGet k _ => Some k | RScan p _ => Some p end.

(* what the specification demands of one observation: [m] is the map after the writes so far, [pend] the key / prefix
   of the read in flight *)
Definition obs_good (m : smap) (pend : option bytes) (a : act) (o : obs) : Prop :=
  match a with
  | AGet2 => exists k r, pend = Some k /\ o = OGet r /\ get_matches r (sm_get k m)
  | AScan2 => exists p, pend = Some p /\ o = OScan (sm_scan p m)
  | _ => True
  end.
Definition next_pend (pend : option bytes) (a : act) : option bytes :=
  match a with AGet1 k => Some k | AScan1 p => Some p | AGet2 | AScan2 => None | _ => pend end.
Fixpoint obs_ok (m : smap) (pend : option bytes) (acts : list act) (os : list obs) : Prop :=
  match acts, os with
  | [], [] => True
  | a :: ar, o :: or => obs_good m pend a o /\ obs_ok (spec_step m a) (next_pend pend a) ar or
  | _, _ => False
  end.

Lemma live_sorted ll : ksorted (kvs (without_deletes (view ll))).
Proof. apply kvs_sorted, sorted_filter, merge_all_sorted. Qed.
Lemma absm_sorted st : ksorted (absm st).
Proof. apply live_sorted. Qed.
Lemma absm_get st k : sm_get k (absm st) = vis (tbl_get k (view (vll st))).
Proof. unfold absm. apply sm_get_live. apply merge_all_sorted. Qed.

Lemma live_write {a b e} :
  (forall k, tbl_get k (view b) = if beqb (ekey e) k then Some e else tbl_get k (view a)) ->
  kvs (without_deletes (view b)) =
  if edel e then sm_del (ekey e) (kvs (without_deletes (view a))) else sm_put (ekey e) (eval e) (kvs (without_deletes (view a))).
Proof.
  intros H. apply kv_ext; [apply live_sorted|destruct (edel e); [apply sm_del_sorted|apply sm_put_sorted]; apply live_sorted|].
  intros k. rewrite sm_get_live, H by apply merge_all_sorted.
  destruct (edel e) eqn:D; [rewrite sm_del_get by apply live_sorted|rewrite sm_put_get]; rewrite sm_get_live by apply merge_all_sorted;
    destruct (beqb (ekey e) k); cbn [vis]; rewrite ?D; reflexivity.
Qed.

Lemma write_ok cfg st k v del st' rot :
  DBInv st -> rd st = RNone -> write cfg st k v del = (st', rot) ->
  DBInv st' /\ absm st' = (if del then sm_del k (absm st) else sm_put k v (absm st)) /\ rd st' = RNone.
Proof.
  unfold DBInv, absm, vll, write, active. intros HI Hrd. rewrite Hrd in HI.
  (* the sizes only decide whether the memtable rotates; either way the write is write_inv *)
  destruct (_ || _); intros [= <- <-]; cbn [mts lv seqn ft ct rd]; rewrite Hrd.
  - destruct (write_inv (mkE k (seqn st + 1) del v) true HI eq_refl) as [H1 H2]. exact (conj H1 (conj (live_write H2) eq_refl)).
  - destruct (write_inv (mkE k (seqn st + 1) del v) false HI eq_refl) as [H1 H2]. exact (conj H1 (conj (live_write H2) eq_refl)).
Qed.

(* bg.TaskQueue: a compaction step starts from the idle task with a request pending, or continues the loop *)
Lemma ctask_runs {A} (st : db) (run : nat -> option A) r :
  match ct st, cpend st with CIdle, S n => run n | CIter, n => run n | _, _ => None end = Some r -> exists n, run n = Some r.
Proof. destruct (ct st); [destruct (cpend st)| |]; try discriminate; eauto. Qed.

Theorem step_ok cfg st a st' o :
  cfg_ok cfg -> DBInv st -> step cfg st a = Some (st', o) ->
  DBInv st' /\ absm st' = spec_step (absm st) a /\ obs_good (absm st) (pend_of (rd st)) a o /\
  pend_of (rd st') = next_pend (pend_of (rd st)) a.
Proof.
  intros Hcfg HI Hs. destruct a; cbn [step] in Hs.
  - (* APut *) destruct (rd st) eqn:Hrd; try discriminate. destruct (write cfg st k v false) as [s r] eqn:Hw. injection Hs as <- <-.
    apply (write_ok _ _ _ _ _ _ _ HI Hrd) in Hw as (H1 & H2 & ->). cbn. auto.
  - (* ADel *) destruct (rd st) eqn:Hrd; try discriminate. destruct (write cfg st k [] true) as [s r] eqn:Hw. injection Hs as <- <-.
    apply (write_ok _ _ _ _ _ _ _ HI Hrd) in Hw as (H1 & H2 & ->). cbn. auto.
  - (* AGet1 *) unfold DBInv in *. destruct (rd st); try discriminate. injection Hs as <- <-.
    exact (conj (get1_inv k HI) (conj eq_refl (conj I eq_refl))).
  - (* AGet2 *) unfold DBInv in *. destruct (rd st) as [|k0 m0|] eqn:Hrd; try discriminate. injection Hs as <- <-.
    split; [exact (set_rd_inv RNone HI I)|]. split; [reflexivity|]. split; [|reflexivity].
    exists k0, (to_getres (match m0 with Some e => Some e | None => ll_get k0 (lv st) end)).
    split; [reflexivity|]. split; [reflexivity|]. rewrite absm_get. unfold vll. rewrite (get2_ok HI). apply to_getres_matches.
  - (* AScan1 *) unfold DBInv in *. destruct (rd st); try discriminate. injection Hs as <- <-.
    exact (conj (scan1_inv p HI) (conj eq_refl (conj I eq_refl))).
  - (* AScan2 *) unfold DBInv in *. destruct (rd st) as [| |p0 m0] eqn:Hrd; try discriminate. injection Hs as <- <-.
    split; [exact (set_rd_inv RNone HI I)|]. split; [reflexivity|]. split; [|reflexivity].
    exists p0. split; [reflexivity|]. f_equal.
    unfold absm, vll. rewrite sm_scan_live, <- (scan2_ok HI). reflexivity.
  - (* AF1 *) unfold DBInv in *. destruct (ft st); try discriminate. destruct (fpend st); try discriminate. injection Hs as <- <-.
    exact (conj (f1_inv HI) (conj eq_refl (conj I eq_refl))).
  - (* AF2 *) unfold DBInv, absm, vll in *. destruct (ft st) as [|snap] eqn:Hf; try discriminate. injection Hs as <- <-. cbn [mts lv seqn ft ct rd].
    destruct (i_ft HI snap eq_refl) as (rest & HM & Hrest). rewrite HM in *.
    rewrite skipn_app, Nat.sub_diag, skipn_all, vlay_add_l0 by exact (len_ne _ (i_len HI)).
    exact (conj (f2_inv HI Hrest) (conj eq_refl (conj I eq_refl))).
  - (* AC1 *) apply ctask_runs in Hs as (n & Hs).
    destruct (compact table_size (d_comp cfg) (mcl st) (lv st)) as [[cs|] m] eqn:Hc; injection Hs as <- <-.
    + (* a change set: it is good for the reader layout *)
      split; [|exact (conj eq_refl (conj I eq_refl))]. apply (ct_inv HI). intros cs' [= <-]. exact (compact_ok Hcfg HI Hc).
    + (* nil *) split; [|exact (conj eq_refl (conj I eq_refl))]. apply (ct_inv HI). discriminate.
  - (* AC2 *) unfold DBInv, absm, vll in *. destruct (ct st) as [| |cs] eqn:Hc; try discriminate. injection Hs as <- <-. cbn [mts lv seqn ft ct rd].
    destruct (c2_inv HI) as [H1 ->]. exact (conj H1 (conj eq_refl (conj I eq_refl))).
  - (* AC1F *) apply ctask_runs in Hs as (n & Hs). destruct (compact table_size (d_comp cfg) (mcl st) (lv st)) as [[cs|] m]; [|discriminate]. injection Hs as <- <-.
    split; [|exact (conj eq_refl (conj I eq_refl))]. apply (ct_inv HI). discriminate.
Qed.

Theorem run_refines cfg :
  cfg_ok cfg -> forall acts st st' os, DBInv st -> run cfg st acts = Some (st', os) ->
  obs_ok (absm st) (pend_of (rd st)) acts os /\ DBInv st' /\ absm st' = fold_left spec_step acts (absm st).
Proof.
  intros Hcfg. induction acts as [|a acts IH]; intros st st' os HI Hr; cbn [run] in Hr.
  - injection Hr as <- <-. cbn. auto.
  - destruct (step cfg st a) as [[s1 o]|] eqn:Hs; [|discriminate].
    destruct (run cfg s1 acts) as [[s2 os']|] eqn:Hr'; [|discriminate]. injection Hr as <- <-.
    destruct (step_ok _ _ _ _ _ Hcfg HI Hs) as (H1 & H2 & H3 & H4). destruct (IH _ _ _ H1 Hr') as (H5 & H6 & H7).
    cbn [obs_ok fold_left]. rewrite <- H2, <- H4. auto.
Qed.

Lemma absm_init cfg : absm (init cfg) = [].
Proof. unfold absm. rewrite view_nil; [reflexivity|apply init_empty]. Qed.

(* C07, main statement: every history of the DB state machine from the initial state, with any interleaving of the
   background half-steps and for every option setting, shows exactly the reads of the sorted map *)
Theorem dkv_refines_map_proof cfg acts st os :
  cfg_ok cfg -> run cfg (init cfg) acts = Some (st, os) -> obs_ok [] None acts os.
Proof.
  intros Hcfg Hr. destruct (run_refines cfg Hcfg acts _ _ _ (init_inv cfg Hcfg) Hr) as [H _].
  rewrite absm_init in H. exact H.
Qed.
