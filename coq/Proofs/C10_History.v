(* C10: computed witnesses.  The defects D12 and D13 (the switches [q_load_marks_all], [q_push_beyond_max] on) and the
   pre-1970 wrap-around refute the specification on the faithful model; the same histories are corpus cases of the engine
   `timers` (corpus/timers/). *)
From RV Require Import Base.Bytes Model.TimerStore Model.TimerRegistry Proofs.C10_Spec.
Open Scope N_scope.

Definition one_group (q : quirks) (cache : N) : config :=
  {| cf_q := q; cf_kgf := fun _ => 0; cf_start := 0; cf_size := 1; cf_cache := cache; cf_srids := [0] |}.
Definition model_out (q : quirks) (cache : N) (ops : list op) := fst (run (one_group q cache) ops (sys_new (one_group q cache) [])).
Definition spec_out (ops : list op) := map fst (fst (spec_run [0] ops [] (spec_new [0] []))).

Definition k1 : bytes := [107].
Definition maxt : Z := (2 ^ 63 - 1)%Z.

(* D12: 8 timers, 40-byte cache: 1..7 fire, 8 never *)
Definition h_D12 : list op := map (fun i => SetTimer k1 (Z.of_nat i)) (seq 1 8) ++ [Advance 0 100%Z; Advance 0 maxt].
(* D13: timers 10..50, 40-byte cache; advance 10; set 60; advance 45 fires 20,30 only; then 60,40,50 *)
Definition h_D13 : list op :=
  map (fun t => SetTimer k1 t) [10; 20; 30; 40; 50]%Z ++ [Advance 0 10%Z; SetTimer k1 60%Z; Advance 0 45%Z; Advance 0 maxt].
(* pre-1970 (the watermark first goes back to -10 ns, else the guard ignores the timer): the timer at -5 ns is encoded as
   2^64-5 and sorts after the one at +5 ns: nothing fires at watermark 0 *)
Definition h_pre_epoch : list op := [Advance 0 (-10)%Z; SetTimer k1 (-5)%Z; SetTimer k1 5%Z; Advance 0 0%Z; Advance 0 maxt].

Lemma D12_witness :
  model_out quirks_D12 40 h_D12 = [map (fun i => (k1, Z.of_nat i)) (seq 1 7); []] /\
  spec_out h_D12 = [rev (map (fun i => (k1, Z.of_nat i)) (seq 1 8)); []] /\
  model_out quirks_now 40 h_D12 = [map (fun i => (k1, Z.of_nat i)) (seq 1 8); []].
Proof. vm_compute. repeat split. Qed.

Lemma D13_witness :
  model_out quirks_D13 40 h_D13 = [[(k1, 10%Z)]; [(k1, 20%Z); (k1, 30%Z)]; [(k1, 60%Z); (k1, 40%Z); (k1, 50%Z)]] /\
  spec_out h_D13 = [[(k1, 10%Z)]; [(k1, 40%Z); (k1, 30%Z); (k1, 20%Z)]; [(k1, 60%Z); (k1, 50%Z)]] /\
  model_out quirks_now 40 h_D13 = [[(k1, 10%Z)]; [(k1, 20%Z); (k1, 30%Z); (k1, 40%Z)]; [(k1, 50%Z); (k1, 60%Z)]].
Proof. vm_compute. repeat split. Qed.

Lemma pre_epoch_witness :
  forallb op_ok h_pre_epoch = false /\
  model_out quirks_now 1000 h_pre_epoch = [[]; []; [(k1, 5%Z); (k1, (-5)%Z)]] /\
  spec_out h_pre_epoch = [[]; [(k1, (-5)%Z)]; [(k1, 5%Z)]].
Proof. vm_compute. repeat split. Qed.

(* a consumer that stops after two of four due timers (seeded bug C10r2-1 = yield before delete: the second one would be
   handed out again): the current code hands out 10, 20, then 30, 40 *)
Definition h_partial : list op :=
  map (fun t => SetTimer k1 t) [10; 20; 30; 40]%Z ++ [AdvancePartial 0 100%Z 2 []; Advance 0 100%Z; Restore; Advance 0 maxt].
Lemma partial_witness :
  model_out quirks_now 40 h_partial = [[(k1, 10%Z); (k1, 20%Z)]; [(k1, 30%Z); (k1, 40%Z)]; []].
Proof. vm_compute. reflexivity. Qed.
