(* C19: functional zip tree (Model/ZipTree.v) = sorted association list, for EVERY choice of ranks.
   Everything is read off the in-order listing: a tree is a search tree exactly when the listing is strictly sorted
   by key, and get / replace / insert at a node are al_get / al_put on  left ++ (k, v) :: right. *)
From RV Require Import Base.Lists Base.KeySorted Model.ZipTree.
From Coq Require Import Sorted.
Open Scope N_scope.

Lemma bcmp_gt_trans a b c : bcmp a b = Gt -> bcmp b c = Gt -> bcmp a c = Gt.
Proof.
  destruct (bcmp_spec a b) as [| |Hba]; try discriminate. destruct (bcmp_spec b c) as [| |Hcb]; try discriminate.
  intros _ _. rewrite (bcmp_antisym c a), (bcmp_lt_trans _ _ _ Hcb Hba). reflexivity.
Qed.

Lemma bcmp_neq_lt_or a b : a <> b -> bcmp a b <> Lt -> bcmp b a = Lt.
Proof. intros Hne. destruct (bcmp_spec a b); intros; congruence. Qed.

Lemma all_keys_Forall (P : bytes -> Prop) t :
  all_keys P t <-> Forall (fun kv => P (fst kv)) (inorder t).
Proof.
  induction t as [|l IHl k v rk r IHr]; cbn [all_keys inorder].
  - split; auto.
  - rewrite Forall_app, Forall_cons_iff, IHl, IHr. cbn [fst]. tauto.
Qed.

Lemma all_keys_In (P : bytes -> Prop) t :
  all_keys P t <-> (forall kv, In kv (inorder t) -> P (fst kv)).
Proof. rewrite all_keys_Forall, Forall_forall. tauto. Qed.

Lemma all_keys_and (P Q : bytes -> Prop) t :
  all_keys P t -> all_keys Q t -> all_keys (fun x => P x /\ Q x) t.
Proof.
  induction t as [|l IHl k v rk r IHr]; cbn [all_keys]; [auto|].
  intros (Hl & Hk & Hr) (Hl' & Hk' & Hr'). auto.
Qed.

Lemma all_keys_neq_Forall k t :
  all_keys (fun x => x <> k) t -> Forall (fun kv => fst kv <> k) (inorder t).
Proof. exact (proj1 (all_keys_Forall _ t)). Qed.

Lemma bst_node l k v rk r :
  bst (Node l k v rk r) <->
  bst l /\ bst r /\
  Forall (fun kv => bcmp (fst kv) k = Lt) (inorder l) /\ Forall (fun kv => bcmp k (fst kv) = Lt) (inorder r).
Proof. cbn [bst]. rewrite !all_keys_Forall. reflexivity. Qed.

Lemma bst_sorted t : bst t <-> StronglySorted (klt fst) (inorder t).
Proof.
  induction t as [|l IHl k v rk r IHr]; cbn [inorder]; [split; constructor|].
  rewrite bst_node, StronglySorted_app, IHl, IHr. split.
  - intros (Sl & Sr & Hal & Har). repeat split; [exact Sl | constructor; assumption |].
    eapply Forall_impl; [|exact Hal]. intros a Ha. constructor; [exact Ha|].
    eapply Forall_impl; [|exact Har]. intros b. apply bcmp_lt_trans, Ha.
  - intros (Sl & [Sr Har]%StronglySorted_inv & H). repeat split; try assumption.
    eapply Forall_impl; [|exact H]. intros a Ha. exact (Forall_inv Ha).
Qed.

Lemma al_get_app k l1 l2 :
  al_get k (l1 ++ l2) = match al_get k l1 with Some v => Some v | None => al_get k l2 end.
Proof.
  induction l1 as [|[a b] l1 IH]; cbn [app al_get]; [reflexivity|].
  destruct (beqb k a); [reflexivity|exact IH].
Qed.

Lemma al_put_kput k v l : al_put k v l = kput fst (k, v) l.
Proof. induction l as [|[a b] l IH]; cbn [al_put kput fst]; [|destruct (bcmp k a); rewrite ?IH]; reflexivity. Qed.

Lemma al_get_kget k l : al_get k l = option_map snd (kget fst k l).
Proof. induction l as [|[a b] l IH]; [reflexivity|]. cbn [al_get]. rewrite kget_cons, beqb_sym. cbn [fst]. now destruct (beqb a k). Qed.

Lemma al_get_above k l : Forall (fun kv => bcmp k (fst kv) = Lt) l -> al_get k l = None.
Proof. intros H. rewrite al_get_kget, (kget_above fst k l (proj1 (Forall_forall _ _) H)). reflexivity. Qed.

Lemma al_get_node k L k' v' R :
  Forall (fun kv => bcmp (fst kv) k' = Lt) L -> Forall (fun kv => bcmp k' (fst kv) = Lt) R ->
  al_get k (L ++ (k', v') :: R) = match bcmp k k' with Eq => Some v' | Lt => al_get k L | Gt => al_get k R end.
Proof.
  intros HL HR. induction HL as [|[a b] L Ha _ IH]; cbn [app al_get].
  - unfold beqb. destruct (bcmp k k') eqn:E; try reflexivity.
    apply al_get_above. eapply Forall_impl; [|exact HR]. intros kv. apply bcmp_lt_trans, E.
  - destruct (beqb k a) eqn:Eka; [|exact IH].
    apply beqb_eq in Eka as ->. cbn [fst] in Ha. rewrite Ha. reflexivity.
Qed.

Lemma al_put_node k v L k' v' R :
  Forall (fun kv => bcmp (fst kv) k' = Lt) L ->
  al_put k v (L ++ (k', v') :: R) =
  match bcmp k k' with
  | Eq => L ++ (k, v) :: R
  | Lt => al_put k v L ++ (k', v') :: R
  | Gt => L ++ (k', v') :: al_put k v R
  end.
Proof.
  induction 1 as [|[a b] L Ha _ IH]; cbn [app al_put].
  - destruct (bcmp k k'); reflexivity.
  - cbn [fst] in Ha. destruct (bcmp_spec k a) as [->|E|E].
    + rewrite Ha. reflexivity.
    + rewrite (bcmp_lt_trans _ _ _ E Ha). reflexivity.
    + rewrite IH. destruct (bcmp k k'); reflexivity.
Qed.

Lemma al_get_al_put x k v m : al_get x (al_put k v m) = if beqb x k then Some v else al_get x m.
Proof. rewrite al_put_kput, !al_get_kget, kget_kput, beqb_sym. cbn [fst]. destruct (beqb x k); reflexivity. Qed.

Lemma get_inorder : forall k t, bst t -> get k t = al_get k (inorder t).
Proof.
  intros k. induction t as [|l IHl k' v' rk r IHr]; [reflexivity|].
  intros (Hl & Hr & Hal & Har)%bst_node. cbn [get inorder]. rewrite al_get_node by assumption.
  destruct (bcmp k k'); auto.
Qed.

Lemma replace_spec k v t : bst t ->
  match replace k v t with
  | Some (t', old) => get k t = Some old /\ inorder t' = al_put k v (inorder t)
  | None => get k t = None
  end.
Proof.
  induction t as [|l IHl k' v' rk r IHr]; [reflexivity|].
  intros (Hl & Hr & Hal & Har)%bst_node. cbn [replace get inorder]. rewrite al_put_node by assumption.
  specialize (IHl Hl). specialize (IHr Hr). destruct (bcmp k k').
  - split; reflexivity.
  - destruct (replace k v l) as [[l' old]|]; [|exact IHl]. destruct IHl as [Hg Hi]. cbn [inorder]. rewrite Hi. auto.
  - destruct (replace k v r) as [[r' old]|]; [|exact IHr]. destruct IHr as [Hg Hi]. cbn [inorder]. rewrite Hi. auto.
Qed.

(* unzip is only reached for an absent key: it splits the listing where al_put inserts *)
Lemma inorder_unzip k v t : bst t -> get k t = None ->
  al_put k v (inorder t) = inorder (fst (unzip k t)) ++ (k, v) :: inorder (snd (unzip k t)).
Proof.
  induction t as [|l IHl k' v' rk r IHr]; [reflexivity|].
  intros (Hl & Hr & Hal & Har)%bst_node. cbn [get unzip inorder]. rewrite al_put_node by assumption.
  rewrite (bcmp_antisym k k'). destruct (bcmp k k'); cbn [CompOpp]; intros Hg; [discriminate Hg| |].
  - rewrite (IHl Hl Hg). destruct (unzip k l) as [a b]. cbn [fst snd inorder]. rewrite <- app_assoc. reflexivity.
  - rewrite (IHr Hr Hg). destruct (unzip k r) as [a b]. cbn [fst snd inorder]. rewrite <- app_assoc. reflexivity.
Qed.

Lemma inorder_insert k v rank t :
  bst t -> get k t = None -> inorder (insert k v rank t) = al_put k v (inorder t).
Proof.
  induction t as [|l IHl k' v' rk r IHr]; [reflexivity|].
  intros Hb Hg. cbn [insert]. destruct (_ || _).
  - apply bst_node in Hb as (Hl & Hr & Hal & Har). cbn [get] in Hg. cbn [inorder].
    rewrite al_put_node by assumption.
    destruct (bcmp k k'); [discriminate Hg| |]; cbn [inorder]; [rewrite IHl|rewrite IHr]; auto.
  - rewrite inorder_unzip by assumption. destruct (unzip k (Node l k' v' rk r)) as [a b]. reflexivity.
Qed.

Lemma inorder_put : forall k v rank t, bst t -> inorder (fst (put k v rank t)) = al_put k v (inorder t).
Proof.
  intros k v rank t Hb. unfold put. pose proof (replace_spec k v t Hb) as H.
  destruct (replace k v t) as [[t' old]|]; cbn [fst]; [apply H | apply inorder_insert; assumption].
Qed.

Lemma put_replaced : forall k v rank t, bst t -> snd (put k v rank t) = al_get k (inorder t).
Proof.
  intros k v rank t Hb. rewrite <- get_inorder by exact Hb. unfold put. pose proof (replace_spec k v t Hb) as H.
  destruct (replace k v t) as [[t' old]|]; cbn [snd]; symmetry; [apply H | exact H].
Qed.

Lemma put_bst : forall k v rank t, bst t -> bst (fst (put k v rank t)).
Proof.
  intros k v rank t Hb. apply bst_sorted. rewrite inorder_put, al_put_kput by exact Hb.
  apply kput_ssorted, bst_sorted, Hb.
Qed.

Lemma get_put_same : forall k v rank t, bst t -> get k (fst (put k v rank t)) = Some v.
Proof.
  intros k v rank t Hb. rewrite get_inorder by (apply put_bst; exact Hb).
  rewrite inorder_put, al_get_al_put, beqb_refl by exact Hb. reflexivity.
Qed.

Lemma get_put_other : forall k k' v rank t, bst t -> k' <> k -> get k' (fst (put k v rank t)) = get k' t.
Proof.
  intros k k' v rank t Hb Hne. rewrite !get_inorder by (try apply put_bst; exact Hb).
  rewrite inorder_put, al_get_al_put by exact Hb. apply beqb_false in Hne as ->. reflexivity.
Qed.

(* AscendPrefix: [stack_list] is what a stack of nodes still has to yield (the walk stops at a leaf, which is never
   pushed); [from p] is the part of a sorted listing from the first key >= p on, which the descent leaves on the stack *)
Fixpoint stack_list (st : list tree) : list (bytes * bytes) :=
  match st with
  | Node _ k v _ r :: st' => (k, v) :: inorder r ++ stack_list st'
  | _ => []
  end.

Fixpoint from (p : bytes) (l : list (bytes * bytes)) : list (bytes * bytes) :=
  match l with
  | [] => []
  | kv :: l' => match bcmp (fst kv) p with Lt => from p l' | _ => l end
  end.

Lemma from_ge p x l : bcmp (fst x) p <> Lt -> from p (x :: l) = x :: l.
Proof. cbn [from]. destruct (bcmp (fst x) p); congruence. Qed.

Lemma from_app_below p l1 l2 : Forall (fun kv => bcmp (fst kv) p = Lt) l1 -> from p (l1 ++ l2) = from p l2.
Proof. induction 1 as [|x l1 Hx _ IH]; cbn [app from]; [|rewrite Hx]; auto. Qed.

Lemma from_app_ge p l1 x l2 : bcmp (fst x) p <> Lt -> from p (l1 ++ x :: l2) = from p l1 ++ x :: l2.
Proof.
  intros Hx. induction l1 as [|y l1 IH]; cbn [app]; [apply from_ge, Hx|].
  cbn [from]. destruct (bcmp (fst y) p); auto.
Qed.

Lemma from_length p l : (length (from p l) <= length l)%nat.
Proof. induction l as [|x l IH]; cbn [from]; [|destruct (bcmp (fst x) p)]; cbn [length]; lia. Qed.

Lemma push_left_spine_list r st : stack_list (push_left_spine r st) = inorder r ++ stack_list st.
Proof.
  revert st. induction r as [|l IHl k v rk r IHr]; intros st; cbn [push_left_spine inorder]; [reflexivity|].
  rewrite IHl, <- app_assoc. reflexivity.
Qed.

Lemma ap_walk_take_while p fuel st :
  (length (stack_list st) < fuel)%nat ->
  ap_walk fuel p st = take_while (fun kv => is_prefix p (fst kv)) (stack_list st).
Proof.
  revert st. induction fuel as [|f IH]; intros st Hlen; [lia|].
  destruct st as [|[|l k v rk r] st]; cbn [ap_walk stack_list take_while fst length] in *; try reflexivity.
  destruct (is_prefix p k); [|reflexivity]. f_equal.
  rewrite IH, push_left_spine_list; [reflexivity|]. rewrite push_left_spine_list. lia.
Qed.

Lemma ap_descend_list p t st : bst t -> stack_list (ap_descend p t st) = from p (inorder t) ++ stack_list st.
Proof.
  revert st. induction t as [|l IHl k v rk r IHr]; intros st; [reflexivity|].
  intros (Hl & Hr & Hal & Har)%bst_node. cbn [ap_descend inorder]. unfold beqb.
  rewrite (bcmp_antisym p k). destruct (bcmp_spec p k) as [->|E|E]; cbn [CompOpp].
  - cbn [stack_list]. rewrite from_app_ge, <- app_assoc by (cbn [fst]; rewrite bcmp_refl; discriminate).
    rewrite <- (app_nil_r (inorder l)), from_app_below by exact Hal. reflexivity.
  - rewrite (IHl _ Hl), from_app_ge, <- app_assoc; [reflexivity|].
    cbn [fst]. rewrite (bcmp_antisym p k), E. discriminate.
  - rewrite (IHr _ Hr), from_app_below.
    + cbn [from fst]. rewrite E. reflexivity.
    + eapply Forall_impl; [|exact Hal]. intros kv Hkv. exact (bcmp_lt_trans _ _ _ Hkv E).
Qed.

Lemma take_while_from p s : StronglySorted (klt fst) s ->
  take_while (fun kv => is_prefix p (fst kv)) (from p s) = filter (fun kv => is_prefix p (fst kv)) s.
Proof.
  induction 1 as [|x s Hs IH Hx]; [reflexivity|].
  assert (Hlt : bcmp (fst x) p = Lt \/ bcmp (fst x) p <> Lt) by (destruct (bcmp (fst x) p); auto; right; discriminate).
  destruct Hlt as [E|E].
  - cbn [from filter]. rewrite E, IH. destruct (is_prefix p (fst x)) eqn:Ex; [|reflexivity].
    destruct (prefix_ge _ _ Ex E).
  - (* from x on every key is >= p, and among those once the prefix is lost it does not come back *)
    rewrite from_ge by exact E. apply take_while_filter.
    apply (StronglySorted_impl (klt fst)); [|constructor; assumption].
    intros a b Ha _ Hab Pa. destruct (is_prefix p (fst b)) eqn:Pb; [|reflexivity].
    rewrite (prefix_convex p (fst a) (fst b) Pb) in Pa; [discriminate | | rewrite Hab; discriminate].
    destruct Ha as [<-|Ha]; [exact E|]. intros Hap. apply E.
    exact (bcmp_lt_trans _ _ _ (proj1 (Forall_forall _ _) Hx a Ha) Hap).
Qed.

Lemma inorder_length t : length (inorder t) = size t.
Proof.
  induction t as [|l IHl k v rk r IHr]; cbn [inorder size length]; [reflexivity|].
  rewrite app_length. cbn [length]. lia.
Qed.

Lemma ascend_prefix_spec : forall p t, bst t ->
  ascend_prefix p t = filter (fun kv => is_prefix p (fst kv)) (inorder t).
Proof.
  intros p t Hb. unfold ascend_prefix. rewrite ap_walk_take_while; rewrite ap_descend_list, app_nil_r by exact Hb.
  - apply take_while_from, bst_sorted, Hb.
  - pose proof (from_length p (inorder t)) as H. rewrite inorder_length in H. lia.
Qed.

Print Assumptions put_bst.
Print Assumptions inorder_put.
Print Assumptions put_replaced.
Print Assumptions get_inorder.
Print Assumptions get_put_same.
Print Assumptions get_put_other.
Print Assumptions ascend_prefix_spec.
