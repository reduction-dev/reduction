(* C03: restore over the LSM model, composing C07 and C08 through the specification map - with C08's background
   actions on the durable side under every schedule (Proofs/C08_Contents.v: flush swap, merging compaction and the WAL
   rotation of Checkpoint leave every read unchanged; [reachc] = databases reachable with contents-preserving actions).

   A state is (LSM database, LSM schedule) x (durable database, durable schedule). Every DB.Put / DB.Delete /
   DB.ScanPrefix of the operator and every redeploy first lets the next list of durable background actions happen:
     DCkpt                          the locked part of Checkpoint on the running database (WAL rotation)
     DFlush n dir next              swap of a flush task that had snapshotted the first n sealed memtables
                                    (skipped if there are fewer: it could not have happened)
     DCompact removed dir next cuts the real compactor's shape: the tables named in [removed] are merged (per key the
                                    entry with the greatest sequence number, delete markers kept), the result cut into
                                    runs at [cuts], one table per run
   so a durable schedule is one interleaving of the operator thread with the durable database's flush and compaction
   tasks and with Checkpoint calls, and every interleaving is such a schedule. *)
From Coq Require Import List NArith Bool Lia.
From RV Require Import Base.Lists Model.StateStore Model.StateStoreLsm Model.StateStoreCkpt
  Proofs.C03_Store Proofs.C03_OverLsm Proofs.C03_Restore.
From RV Require Model.LsmBase Model.LsmCompaction Model.Lsm Model.Ckpt.
From RV Require Proofs.C07_Sorted Proofs.C07_Spec Proofs.C07_Refine Proofs.C08_Ckpt Proofs.C08_Contents.
Import ListNotations.
Open Scope N_scope.

Inductive dact :=
| DCkpt
| DFlush (n : nat) (dir next : N)
| DCompact (removed : list Ckpt.fname) (dir next : N) (cuts : list nat).
Definition dschedule := list (list dact).

Fixpoint split_at {A} (cuts : list nat) (l : list A) : list (list A) :=
  match cuts with [] => [l] | c :: cs => firstn c l :: split_at cs (skipn c l) end.
Fixpoint name_runs (dir next : N) (chunks : list (list Ckpt.entry)) : list (Ckpt.fname * list Ckpt.entry) :=
  match chunks with [] => [] | c :: r => ((dir, 0, next), c) :: name_runs dir (next + 1) r end.

Lemma split_at_concat {A} cuts : forall l : list A, concat (split_at cuts l) = l.
Proof.
  induction cuts as [|c cs IH]; intros l; cbn [split_at concat]; [apply app_nil_r|]. rewrite IH. apply firstn_skipn.
Qed.
Lemma name_runs_snd dir chunks : forall next, map snd (name_runs dir next chunks) = chunks.
Proof. induction chunks as [|c r IH]; intros next; cbn [name_runs map snd]; [reflexivity|]. now rewrite IH. Qed.

Definition compact_runs (d : Ckpt.dbc) (removed : list Ckpt.fname) (dir next : N) (cuts : list nat) :=
  name_runs dir next (split_at cuts (C08_Contents.merge_newest (Ckpt.tables_entries (C08_Contents.rem_tables d removed)))).

Definition dstep (d : Ckpt.dbc) (a : dact) : Ckpt.dbc :=
  match a with
  | DCkpt => C08_Ckpt.do_action d C08_Ckpt.ACheckpoint
  | DFlush n dir next =>
      if (n <=? length (Ckpt.d_sealed d))%nat then C08_Ckpt.do_action d (C08_Ckpt.AFlush n dir next) else d
  | DCompact removed dir next cuts =>
      C08_Ckpt.do_action d (C08_Ckpt.ACompact removed (C08_Contents.mk_added (compact_runs d removed dir next cuts)))
  end.
Definition dsteps (d : Ckpt.dbc) (acts : list dact) : Ckpt.dbc := fold_left dstep acts d.

Definition next_d (sc : dschedule) : list dact * dschedule := match sc with [] => ([], []) | b :: r => (b, r) end.

Lemma background_ok d a : C08_Contents.reachc d -> C08_Contents.act_okc d a -> C08_Contents.background a ->
  C08_Contents.reachc (C08_Ckpt.do_action d a) /\ forall k, Ckpt.db_get (C08_Ckpt.do_action d a) k = Ckpt.db_get d k.
Proof.
  intros RC OK BG. split; [exact (C08_Contents.rc_act d a RC OK)|].
  intros k. exact (C08_Contents.background_keeps_contents d a k RC OK BG).
Qed.

Lemma dstep_ok d a : C08_Contents.reachc d ->
  C08_Contents.reachc (dstep d a) /\ forall k, Ckpt.db_get (dstep d a) k = Ckpt.db_get d k.
Proof.
  intros RC. destruct a as [|n dir next|removed dir next cuts]; cbn [dstep].
  - now apply background_ok.
  - destruct (n <=? length (Ckpt.d_sealed d))%nat eqn:L; [|auto].
    apply background_ok; [exact RC|split; [apply Nat.leb_le, L|exact I]|exact I].
  - apply background_ok; [exact RC| |exact I]. apply C08_Contents.merge_act_okc; [exact RC|].
    unfold compact_runs. rewrite name_runs_snd. apply split_at_concat.
Qed.

Lemma dsteps_ok acts : forall d, C08_Contents.reachc d ->
  C08_Contents.reachc (dsteps d acts) /\ forall k, Ckpt.db_get (dsteps d acts) k = Ckpt.db_get d k.
Proof.
  intros d RC. unfold dsteps.
  apply (fold_left_inv dstep (fun d' => C08_Contents.reachc d' /\ forall k, Ckpt.db_get d' k = Ckpt.db_get d k)); [|now split].
  intros d' a [R G]. destruct (dstep_ok d' a R) as [R1 G1]. split; [exact R1|]. intros k. now rewrite G1.
Qed.

Definition bpair_raw := (lsm_raw * (Ckpt.dbc * dschedule))%type.

Definition dur_bg (y : Ckpt.dbc * dschedule) : Ckpt.dbc * dschedule :=
  (dsteps (fst y) (fst (next_d (snd y))), snd (next_d (snd y))).

Definition bpair_put (cfg : Lsm.dbcfg) (k v : bytes) (x : bpair_raw) : bpair_raw :=
  (raw_put cfg k v (fst x), (fst (Ckpt.db_write (fst (dur_bg (snd x))) k false v), snd (dur_bg (snd x)))).
Definition bpair_del (cfg : Lsm.dbcfg) (k : bytes) (x : bpair_raw) : bpair_raw :=
  (raw_del cfg k (fst x), (fst (Ckpt.db_write (fst (dur_bg (snd x))) k true []), snd (dur_bg (snd x)))).
Definition bpair_scan (cfg : Lsm.dbcfg) (p : bytes) (x : bpair_raw) : list (bytes * bytes) * bpair_raw :=
  (fst (raw_scan cfg p (fst x)), (snd (raw_scan cfg p (fst x)), dur_bg (snd x))).
(* redeploy: background steps of the saved durable database that happened before the capture are part of [saved];
   the reopened database continues with the current durable schedule, less its next batch: that batch runs on the
   database being abandoned, only its consumption shows *)
Definition bpair_restore (cfg : Lsm.dbcfg) (cur saved : bpair_raw) : bpair_raw :=
  ((lsm_load cfg (C07_Refine.absm (fst (fst saved))), snd (fst cur)),
   (ckpt_reopen (fst (snd saved)), snd (dur_bg (snd cur)))).

Section RestoreBg.
  Variable cfg : Lsm.dbcfg.
  Hypothesis Hcfg : C07_Refine.cfg_ok cfg.

  Definition bagree (x : bpair_raw) : Prop :=
    good (fst (fst x)) /\ C08_Contents.reachc (fst (snd x)) /\
    forall k, Lsm.sm_get k (C07_Refine.absm (fst (fst x))) = Ckpt.db_get (fst (snd x)) k.

  Lemma dur_bg_ok y : C08_Contents.reachc (fst y) ->
    C08_Contents.reachc (fst (dur_bg y)) /\ forall k, Ckpt.db_get (fst (dur_bg y)) k = Ckpt.db_get (fst y) k.
  Proof. intros RC. unfold dur_bg. cbn [fst]. now apply dsteps_ok. Qed.

  Lemma write_reachc d k del v : C08_Contents.reachc d -> C08_Contents.reachc (fst (Ckpt.db_write d k del v)).
  Proof. intros RC. exact (C08_Contents.rc_act d (C08_Ckpt.AWrite k del v) RC (conj I I)). Qed.

  Lemma bpair_put_ok k v x : bagree x -> bagree (bpair_put cfg k v x).
  Proof.
    intros (G & R & A). destruct (raw_put_spec cfg Hcfg k v (fst x) G) as [G' E]. destruct (dur_bg_ok (snd x) R) as [R1 G1].
    split; [exact G'|]. split; [now apply write_reachc|]. cbn [bpair_put fst snd]. rewrite E.
    apply (write_agree _ _ k false v (C07_Refine.absm_sorted _) (C08_Contents.reachc_reach _ R1)). intros k'. now rewrite G1.
  Qed.

  Lemma bpair_del_ok k x : bagree x -> bagree (bpair_del cfg k x).
  Proof.
    intros (G & R & A). destruct (raw_del_spec cfg Hcfg k (fst x) G) as [G' E]. destruct (dur_bg_ok (snd x) R) as [R1 G1].
    split; [exact G'|]. split; [now apply write_reachc|]. cbn [bpair_del fst snd]. rewrite E.
    apply (write_agree _ _ k true [] (C07_Refine.absm_sorted _) (C08_Contents.reachc_reach _ R1)). intros k'. now rewrite G1.
  Qed.

  Lemma bpair_scan_ok p x : bagree x -> bagree (snd (bpair_scan cfg p x)).
  Proof.
    intros (G & R & A). unfold bagree, bpair_scan. cbn [fst snd].
    destruct (raw_scan_spec cfg Hcfg p (fst x) G) as (_ & G' & E). destruct (dur_bg_ok (snd x) R) as [R1 G1].
    split; [exact G'|]. split; [exact R1|]. intros k. rewrite E, G1. apply A.
  Qed.

  Lemma ckpt_reopen_specc d : C08_Contents.reachc d ->
    C08_Contents.reachc (ckpt_reopen d) /\ forall k, Ckpt.db_get (ckpt_reopen d) k = Ckpt.db_get d k.
  Proof.
    intros R. unfold ckpt_reopen.
    destruct (C08_Contents.checkpoint_exact_dbc d Ckpt.OwnAll (Ckpt.d_mem d) (Ckpt.d_walmax d) R) as (es & E & R' & G).
    rewrite E. split; [exact R'|]. intros k. apply G. reflexivity.
  Qed.

  Lemma bpair_restore_ok cur saved : bagree saved -> bagree (bpair_restore cfg cur saved).
  Proof.
    intros (G & R & A). unfold bagree, bpair_restore. cbn [fst snd].
    destruct (lsm_load_spec cfg Hcfg _ (C07_Refine.absm_sorted (fst (fst saved)))) as [G' E]. destruct (ckpt_reopen_specc _ R) as [R' D].
    split; [exact G'|]. split; [exact R'|]. intros k. rewrite E, D. apply A.
  Qed.

  Definition bpair_st : Type := { x : bpair_raw | bagree x }.

  Definition bkv_put (k v : bytes) (s : bpair_st) : bpair_st := exist _ _ (bpair_put_ok k v _ (proj2_sig s)).
  Definition bkv_del (k : bytes) (s : bpair_st) : bpair_st := exist _ _ (bpair_del_ok k _ (proj2_sig s)).
  Definition bkv_scan (p : bytes) (s : bpair_st) : option kvlist * bpair_st :=
    (Some (fst (bpair_scan cfg p (proj1_sig s))), exist _ _ (bpair_scan_ok p _ (proj2_sig s))).
  Definition bkv_restore (cur saved : bpair_st) : bpair_st :=
    exist _ _ (bpair_restore_ok (proj1_sig cur) _ (proj2_sig saved)).

  (* the DKV that is the pair with a durable side under its own schedule: Props/C03.v
     keyed_state_restore_over_lsm_partial is stated over it *)
  Definition bpair_kv : KV :=
    {| kv_st := bpair_st; kv_put := bkv_put; kv_del := bkv_del; kv_scan := bkv_scan; kv_restore := bkv_restore |}.

  Definition bpair_contents (s : bpair_st) : kvlist := C07_Refine.absm (fst (fst (proj1_sig s))).
  Definition bdurable (s : bpair_st) : Ckpt.dbc := fst (snd (proj1_sig s)).

  Lemma binit_agree sc dsc mem wm : bagree ((Lsm.init cfg, sc), (Ckpt.db_new mem wm, dsc)).
  Proof.
    split; [exact (init_good cfg Hcfg)|]. split; [apply C08_Contents.rc_new|].
    intros k. cbn [fst snd]. rewrite (C07_Refine.absm_init cfg). reflexivity.
  Qed.

  Definition bpair_init (sc : schedule) (dsc : dschedule) (mem wm : N) : bpair_st := exist _ _ (binit_agree sc dsc mem wm).

  Lemma bpair_refines : refines_sm bpair_kv bpair_contents.
  Proof.
    apply (over_lsm_refines cfg Hcfg bpair_kv (fun s => fst (proj1_sig s))); [|reflexivity|reflexivity|now split|].
    - intros s. exact (proj1 (proj2_sig s)).
    - intros cur s. apply (lsm_load_spec cfg Hcfg), C07_Refine.absm_sorted.
  Qed.

  Theorem restore_over_lsm_bg kgf accept h steps sc dsc mem wm :
    handler_ok h -> Forall step_ok steps ->
    exists y, StateStore.run bpair_kv kgf accept h (init_sys bpair_kv (bpair_init sc dsc mem wm)) steps = Some y /\
              sy_trace y = o_trace (o_run h o_init steps) /\
              C08_Contents.reachc (bdurable (sy_db y)) /\
              forall k, Lsm.sm_get k (bpair_contents (sy_db y)) = Ckpt.db_get (bdurable (sy_db y)) k.
  Proof.
    intros Hh Hs.
    destruct (refines_trace bpair_kv bpair_contents bpair_refines kgf accept h steps (bpair_init sc dsc mem wm)
                (C07_Refine.absm_init cfg) Hh Hs) as (y & E & T).
    exists y. exact (conj E (conj T (proj2 (proj2_sig (sy_db y))))).
  Qed.
End RestoreBg.
