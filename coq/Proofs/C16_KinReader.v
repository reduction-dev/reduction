(* C16, kinesis reader: one ReadEvents call emits the next consecutive records of exactly one held shard and moves
   that shard's position behind them (or reports it finished and drops it); every other shard keeps its position. *)
From Coq Require Import List NArith Bool Lia ZifyN ZifyNat ZifyBool.
From RV Require Import Model.HttpReader Model.KinReader.
Import ListNotations.
Open Scope N_scope.

Lemma in_del_nth {A} : forall (l : list A) i x,
  In x (del_nth l i) <-> exists j, j <> i /\ nth_error l j = Some x.
Proof.
  induction l as [|a l IH]; intros i x.
  - (* empty list: nothing on either side *)
    split; [intros []|]. intros (j & _ & Hj). destruct j; discriminate Hj.
  - destruct i as [|i]; cbn [del_nth In].
    + (* the head is dropped: [x] is in the tail, at position j there and S j in the list *)
      split.
      * intros (j & Hj)%In_nth_error. exists (S j). split; [discriminate|exact Hj].
      * intros ([|j] & Hne & Hj); [destruct (Hne eq_refl)|exact (nth_error_In l j Hj)].
    + (* the head stays, position i of the tail is dropped *)
      rewrite (IH i x). split.
      * intros [->|(j & Hne & Hj)].
        -- exists O. split; [discriminate|reflexivity].
        -- exists (S j). split; [congruence|exact Hj].
      * intros ([|j] & Hne & Hj); cbn [nth_error] in Hj.
        -- left. congruence.
        -- right. exists j. split; [congruence|exact Hj].
Qed.

Lemma in_set_nth {A} : forall (l : list A) i v x y, nth_error l i = Some y ->
  In x (set_nth l i v) <-> x = v \/ (exists j, j <> i /\ nth_error l j = Some x).
Proof.
  intros l i v x y H. rewrite <- (in_del_nth l i x). revert i H.
  induction l as [|a l IH]; intros i H; [destruct i; discriminate H|].
  destruct i as [|i]; cbn [set_nth del_nth In nth_error] in *.
  - (* the head is overwritten *) split; intros [->|Hx]; auto.
  - (* the head stays *) rewrite (IH i H). tauto.
Qed.

(* One read. [s] is the polled shard, [p] its position before, [e] after. *)
Theorem kinesis_read_step : forall limit avail closed r r' recs fin,
  kr_read limit avail closed r = (r', recs, fin) ->
  (kr_shards r = [] /\ r' = r /\ recs = [] /\ fin = []) \/
  (kr_shards r <> [] /\ nth_error (kr_shards r) (kr_idx r) = None /\ r' = r /\ recs = [] /\ fin = []) \/
  exists s p e, nth_error (kr_shards r) (kr_idx r) = Some (s, p) /\ p <= e /\
    (* exactly the next consecutive records of that shard, none beyond what the shard holds unless nothing is read *)
    recs = map (fun i => (s, i)) (h_range p (N.to_nat (e - p))) /\ (e <= N.max p (lookupN avail s)) /\
    (* the polled shard moves behind them, or is finished and dropped; all other entries are untouched *)
    ((fin = [] /\ forall x, In x (kr_shards r') <-> x = (s, e) \/ exists j, j <> kr_idx r /\ nth_error (kr_shards r) j = Some x) \/
     (fin = [s] /\ memN s closed = true /\ lookupN avail s <= e /\
      forall x, In x (kr_shards r') <-> exists j, j <> kr_idx r /\ nth_error (kr_shards r) j = Some x)).
Proof.
  intros limit avail closed r r' recs fin H. unfold kr_read in H.
  destruct (nth_error (kr_shards r) (kr_idx r)) as [[s p]|] eqn:En.
  - right. right. set (a := lookupN avail s) in *. set (e := N.max p (N.min (p + limit) a)) in *.
    exists s, p, e. split; [reflexivity|]. split; [unfold e; lia|].
    destruct ((a <=? e) && memN s closed) eqn:Ef; inversion H; subst r' recs fin; clear H.
    + split; [reflexivity|]. split; [unfold e; lia|]. right. apply andb_true_iff in Ef. destruct Ef as [E1 E2].
      split; [reflexivity|]. split; [exact E2|]. split; [lia|]. cbn [kr_shards]. intro x. apply in_del_nth.
    + split; [reflexivity|]. split; [unfold e; lia|]. left. split; [reflexivity|]. cbn [kr_shards]. intro x. eapply in_set_nth. exact En.
  - inversion H; subst. destruct (kr_shards r') eqn:E; [left; auto | right; left; repeat split; auto; discriminate].
Qed.
