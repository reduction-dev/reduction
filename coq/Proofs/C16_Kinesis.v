(* C16, Kinesis splitter: invariants of the SplitTracker-based splitter model over all histories of
   stream growth (splits / merges), discovery rounds and finished shards; consequences: a shard handed
   out by a call was handed out by no earlier call, and all its parents are finished (that one call does not list a shard
   twice needs [known] duplicate-free, which [Inv] does not say); a restore from a checkpoint
   re-establishes the invariant when no known shard at or below the checkpoint's LastAssignedShardId was unassigned.
   The theorems speak of [sys_step], [pending] and [started], not of Model/Splitters.v: [pending s OTick] / [OFinish] unfold
   to k_tick_pending / k_finish_pending, the first hand-out of [started st t f] to k_start_pending, and the trackers agree
   by the k_*_tracker lemmas; no theorem is stated over k_tick, k_finish or k_start themselves. *)
From Coq Require Import List NArith Bool Lia ZifyN ZifyNat ZifyBool.
From RV Require Import Base.Lists Model.SplitTracker Model.Splitters.
Import ListNotations.
Open Scope N_scope.

Lemma mem_in : forall l i, mem i l = true <-> In i l.
Proof.
  induction l as [|x r IH]; intro i; cbn [mem In]; [split; [discriminate|tauto]|].
  rewrite orb_true_iff, IH, N.eqb_eq. tauto.
Qed.

Lemma mem_app : forall a b i, mem i (a ++ b) = mem i a || mem i b.
Proof. induction a as [|x r IH]; intros b i; cbn [app mem]; [reflexivity|]. rewrite IH. apply orb_assoc. Qed.

Lemma mem_ins : forall l j i, mem i (ins_id j l) = (j =? i) || mem i l.
Proof.
  induction l as [|x r IH]; intros j i; cbn [ins_id mem]; [reflexivity|].
  destruct (j <? x); [reflexivity|]. destruct (N.eqb_spec j x) as [->|]; cbn [mem]; [|rewrite IH]; lia.
Qed.

Lemma mem_del : forall l j i, mem i (del_id j l) = mem i l && negb (i =? j).
Proof.
  unfold del_id. induction l as [|x r IH]; intros j i; cbn [filter mem]; [reflexivity|].
  destruct (N.eqb_spec x j) as [->|]; cbn [negb mem]; rewrite IH; lia.
Qed.

Lemma mem_ins_fold : forall shs l i,
  mem i (fold_left (fun a s => ins_id (sid s) a) shs l) = known_b i shs || mem i l.
Proof.
  unfold known_b. induction shs as [|s r IH]; intros l i; cbn [fold_left existsb]; [reflexivity|]. rewrite IH, mem_ins. lia.
Qed.

Lemma mem_del_fold : forall ids l i,
  mem i (fold_left (fun a j => del_id j a) ids l) = mem i l && negb (mem i ids).
Proof.
  induction ids as [|j r IH]; intros l i; cbn [fold_left mem]; [apply eq_sym, andb_true_r|]. rewrite IH, mem_del. lia.
Qed.

Lemma known_b_in : forall l i, known_b i l = true <-> exists x, In x l /\ sid x = i.
Proof. intros l i. unfold known_b. rewrite existsb_exists. setoid_rewrite N.eqb_eq. reflexivity. Qed.

Lemma known_b_set : forall l s i, known_b i (set_shard s l) = (sid s =? i) || known_b i l.
Proof.
  unfold known_b. induction l as [|x r IH]; intros s i; cbn [set_shard existsb]; [reflexivity|].
  destruct (sid s <? sid x); [reflexivity|]. destruct (N.eqb_spec (sid s) (sid x)) as [E|E]; cbn [existsb]; [|rewrite IH]; lia.
Qed.

Lemma known_b_del : forall l j i, known_b i (del_shard j l) = known_b i l && negb (i =? j).
Proof.
  unfold known_b, del_shard. induction l as [|x r IH]; intros j i; cbn [filter existsb]; [reflexivity|].
  destruct (N.eqb_spec (sid x) j) as [<-|]; cbn [negb existsb]; rewrite IH; lia.
Qed.

Lemma known_b_fold : forall shs l i,
  known_b i (fold_left (fun k s => set_shard s k) shs l) = known_b i shs || known_b i l.
Proof.
  induction shs as [|s r IH]; intros l i; cbn [fold_left]; [reflexivity|]. rewrite IH, known_b_set. unfold known_b. cbn [existsb]. lia.
Qed.

Lemma known_b_del_fold : forall ids l i,
  known_b i (fold_left (fun k j => del_shard j k) ids l) = known_b i l && negb (mem i ids).
Proof.
  induction ids as [|j r IH]; intros l i; cbn [fold_left mem]; [apply eq_sym, andb_true_r|]. rewrite IH, known_b_del. lia.
Qed.

Lemma in_set_shard : forall l s x, In x (set_shard s l) -> x = s \/ In x l.
Proof.
  induction l as [|y r IH]; intros s x H; cbn [set_shard] in H; [destruct H as [<-|[]]; left; reflexivity|].
  destruct (sid s <? sid y); [|destruct (sid s =? sid y)]; cbn [In] in *; [| |destruct H as [H|H%IH]]; intuition.
Qed.

Lemma in_fold_set : forall shs l x, In x (fold_left (fun k s => set_shard s k) shs l) -> In x shs \/ In x l.
Proof.
  induction shs as [|s r IH]; intros l x H; cbn [fold_left] in H; [right; exact H|].
  apply IH in H as [H|[->|H]%in_set_shard]; cbn [In]; auto.
Qed.

Lemma in_del_fold : forall ids l x, In x (fold_left (fun k j => del_shard j k) ids l) -> In x l.
Proof.
  induction ids as [|j r IH]; intros l x H; cbn [fold_left] in H; [exact H|].
  apply IH, filter_In in H. apply H.
Qed.

Record sys := mkSys {
  stream : list shard;
  trk_ : tracker;
  fin : list N;          (* shards whose readers reported them finished *)
  hist : list N          (* shards handed out since the splitter started *)
}.

Inductive kop :=
| OAppend (sh : list shard)     (* the stream grew: SplitShard / MergeShards *)
| OTick                         (* discovery round *)
| OFinish (ids : list N).       (* NotifySplitsFinished *)

Definition tick_tracker (st : list shard) (t : tracker) : tracker := add_splits (list_after st (last t)) t.

(* the shards handed out by an op, and the state after it (tracker part of k_tick / k_finish) *)
Definition pending (s : sys) (op : kop) : list shard :=
  match op with
  | OAppend _ => []
  | OTick => available (tick_tracker (stream s) (trk_ s))
  | OFinish ids => available (remove_splits ids (trk_ s))
  end.

Definition sys_step (s : sys) (op : kop) : sys :=
  match op with
  | OAppend sh => mkSys (stream s ++ sh) (trk_ s) (fin s) (hist s)
  | OTick => let t1 := tick_tracker (stream s) (trk_ s) in
             mkSys (stream s) (track_assigned (available t1) t1) (fin s) (map sid (available t1) ++ hist s)
  | OFinish ids => let t1 := remove_splits ids (trk_ s) in
             mkSys (stream s) (track_assigned (available t1) t1) (ids ++ fin s) (map sid (available t1) ++ hist s)
  end.

(* the state in which the available shards are computed *)
Definition mid (s : sys) (op : kop) : sys :=
  match op with
  | OAppend sh => s
  | OTick => mkSys (stream s) (tick_tracker (stream s) (trk_ s)) (fin s) (hist s)
  | OFinish ids => mkSys (stream s) (remove_splits ids (trk_ s)) (ids ++ fin s) (hist s)
  end.

Lemma track_nil : forall t, track_assigned [] t = t.
Proof. intros [k a l]. reflexivity. Qed.

Lemma assign_shards_trk : forall n k p, trk (fst (assign_shards_gen true n k p)) = track_assigned p (trk k).
Proof. intros n k [|x p]; [symmetry; apply track_nil|reflexivity]. Qed.

Lemma k_tick_tracker : forall n st k, trk (fst (k_tick n st k)) =
  track_assigned (available (tick_tracker st (trk k))) (tick_tracker st (trk k)).
Proof. intros. apply assign_shards_trk. Qed.

Lemma k_finish_tracker : forall n ids k, trk (fst (k_finish n ids k)) =
  track_assigned (available (remove_splits ids (trk k))) (remove_splits ids (trk k)).
Proof. intros. apply assign_shards_trk. Qed.

(* Kinesis numbers shards in creation order and creates a child after its parents; the stream is the ListShards order.
   Hence ids are positive, parents are listed and lie below their children, and (OAppend in [valid_op]) new shards lie
   above all old ones. *)
Definition wf_stream (st : list shard) : Prop :=
  forall x, In x st -> 0 < sid x /\ forall p, In p (parents x) -> p < sid x /\ exists y, In y st /\ sid y = p.

Definition valid_op (s : sys) (op : kop) : Prop :=
  match op with
  | OAppend sh => wf_stream (stream s ++ sh) /\ forall x y, In x sh -> In y (stream s) -> sid y < sid x
  | OTick => True
  | OFinish ids => forall i, In i ids -> mem i (assigned (trk_ s)) = true   (* readers finish what they were given *)
  end.

(* id [i] is not beyond what discovery has listed so far: it is at or below [last], or at or below a shard the tracker knows *)
Definition seen (t : tracker) (i : N) : Prop := i <= last t \/ exists x, In x (known t) /\ i <= sid x.

(* I_known, I_assigned: what the tracker knows is in the stream, what it has assigned it knows.  I_seen is what the parent
   argument (available_facts) turns on: a shard of the stream that the tracker has seen and does not know any more is
   finished, so an unknown parent of a known shard was read to its end.  I_fin: finished shards are forgotten and lie at or
   below [last], so discovery does not list them again.  I_last: [last] is an id of the stream (new shards lie beyond it).
   I_hist: every shard handed out is still assigned or finished. *)
Record Inv (s : sys) : Prop := mkInv {
  I_wf : wf_stream (stream s);
  I_known : forall x, In x (known (trk_ s)) -> In x (stream s);
  I_assigned : forall i, mem i (assigned (trk_ s)) = true -> known_b i (known (trk_ s)) = true /\ i <= last (trk_ s);
  I_seen : forall y, In y (stream s) -> seen (trk_ s) (sid y) -> known_b (sid y) (known (trk_ s)) = true \/ mem (sid y) (fin s) = true;
  I_fin : forall i, mem i (fin s) = true -> known_b i (known (trk_ s)) = false /\ i <= last (trk_ s);
  I_last : last (trk_ s) = 0 \/ exists y, In y (stream s) /\ sid y = last (trk_ s);
  I_hist : forall i, In i (hist s) -> mem i (assigned (trk_ s)) = true \/ mem i (fin s) = true
}.

Lemma in_list_after : forall st a y, In y (list_after st a) <-> In y st /\ a < sid y.
Proof. intros. unfold list_after. rewrite filter_In, N.ltb_lt. tauto. Qed.

(* the goals of the fields, to be selected by name *)
Ltac inv_fields :=
  refine {| I_wf := ?[wf]; I_known := ?[known]; I_assigned := ?[assigned]; I_seen := ?[seen]; I_fin := ?[fin];
            I_last := ?[last]; I_hist := ?[hist] |}.

(* what assignShards leaves after it was called with shards [p] *)
Definition handout (s : sys) (p : list shard) : sys :=
  mkSys (stream s) (track_assigned p (trk_ s)) (fin s) (map sid p ++ hist s).

Lemma sys_step_handout : forall s op, (forall sh, op <> OAppend sh) -> sys_step s op = handout (mid s op) (pending s op).
Proof. intros s [sh| |ids] H; [destruct (H sh eq_refl)|reflexivity|reflexivity]. Qed.

Lemma inv_handout : forall s p, (forall x, In x p -> In x (known (trk_ s))) -> Inv s -> Inv (handout s p).
Proof.
  intros [st t f h] p Hp [Hwf Hk Ha Hs Hf Hl Hh]; cbn [stream trk_ fin hist] in *.
  (* LastAssignedSplitID as TrackAssigned computes it: a running maximum over the shards handed out *)
  destruct (fold_left_max_spec sid p (last t)) as (M1 & M2 & M3).
  inv_fields; cbn [handout stream trk_ fin hist track_assigned track_assigned_gen known assigned last]; try assumption.
  [assigned]: { intros i Hi. rewrite mem_ins_fold in Hi. apply orb_true_iff in Hi as [(x & Hx & <-)%known_b_in|Hi].
    - split; [apply known_b_in; exists x; auto|apply M2, Hx].
    - destruct (Ha i Hi). split; [assumption|lia]. }
  [seen]: { intros y Hy [Hle|Hex]; apply Hs; trivial; [|right; exact Hex].
    cbn [last track_assigned track_assigned_gen] in Hle. destruct M3 as [E|(x & Hx & E)]; rewrite E in Hle; [left; exact Hle|right; exists x; auto]. }
  [fin]: { intros i Hi. destruct (Hf i Hi). split; [assumption|lia]. }
  [last]: { destruct M3 as [->|(x & Hx & ->)]; [exact Hl|right; exists x; auto]. }
  [hist]: { intros i Hi. rewrite mem_ins_fold. apply in_app_or in Hi as [(x & <- & Hx)%in_map_iff|Hi].
    - left. apply orb_true_iff. left. apply known_b_in. exists x. auto.
    - destruct (Hh i Hi) as [->|H]; [left; apply orb_true_r|right; exact H]. }
Qed.

Lemma available_known : forall t x, In x (available t) -> In x (known t).
Proof. intros t x Hx%filter_In. apply Hx. Qed.

Lemma inv_discover : forall st t f h, Inv (mkSys st t f h) -> Inv (mkSys st (tick_tracker st t) f h).
Proof.
  intros st t f h [Hwf Hk Ha Hs Hf Hl Hh]; cbn [stream trk_ fin hist] in *.
  inv_fields; cbn [stream trk_ fin hist tick_tracker add_splits known assigned last]; try assumption.
  [known]: { intros x [[Hx _]%in_list_after|Hx]%in_fold_set; auto. }
  [assigned]: { intros i Hi. destruct (Ha i Hi) as [H1 H2]. rewrite known_b_fold, H1. split; [apply orb_true_r|exact H2]. }
  [seen]: { (* after listing everything beyond [last], every shard of the stream is known or finished *)
    intros y Hy _. rewrite known_b_fold. destruct (N.lt_ge_cases (last t) (sid y)) as [Hgt|Hle].
    - left. apply orb_true_iff. left. apply known_b_in. exists y. split; [apply in_list_after; auto|reflexivity].
    - destruct (Hs y Hy (or_introl Hle)) as [->|H]; [left; apply orb_true_r|right; exact H]. }
  [fin]: { intros i Hi. destruct (Hf i Hi) as [H1 H2]. split; [|exact H2]. rewrite known_b_fold, H1, orb_false_r.
    apply not_true_iff_false. intros (x & [_ Hx]%in_list_after & <-)%known_b_in. lia. }
Qed.

Lemma inv_remove : forall st t f h ids,
  Inv (mkSys st t f h) -> (forall i, In i ids -> mem i (assigned t) = true) ->
  Inv (mkSys st (remove_splits ids t) (ids ++ f) h).
Proof.
  intros st t f h ids [Hwf Hk Ha Hs Hf Hl Hh] Hv; cbn [stream trk_ fin hist] in *.
  inv_fields; cbn [stream trk_ fin hist remove_splits known assigned last]; try assumption.
  [known]: { intros x Hx%in_del_fold. exact (Hk x Hx). }
  [assigned]: { intros i Hi. rewrite mem_del_fold in Hi. apply andb_true_iff in Hi as [Hi Hn].
    destruct (Ha i Hi) as [H1 H2]. rewrite known_b_del_fold, H1, Hn. auto. }
  [seen]: { intros y Hy Hseen. rewrite known_b_del_fold, mem_app.
    destruct (Hs y Hy) as [->| ->]; [|destruct (mem (sid y) ids); auto|right; apply orb_true_r].
    destruct Hseen as [H|(x & Hx%in_del_fold & H)]; [left; exact H|right; exists x; auto]. }
  [fin]: { intros i Hi. rewrite mem_app in Hi. apply orb_true_iff in Hi. rewrite known_b_del_fold. destruct Hi as [Hi|Hi].
    - rewrite Hi. split; [apply andb_false_r|]. apply mem_in in Hi. apply Ha, Hv, Hi.
    - destruct (Hf i Hi) as [-> H2]. auto. }
  [hist]: { intros i Hi. rewrite mem_del_fold, mem_app. destruct (Hh i Hi) as [->| ->]; [destruct (mem i ids); auto|right; apply orb_true_r]. }
Qed.

Lemma inv_append : forall st t f h sh,
  Inv (mkSys st t f h) -> wf_stream (st ++ sh) -> (forall x y, In x sh -> In y st -> sid y < sid x) ->
  Inv (mkSys (st ++ sh) t f h).
Proof.
  intros st t f h sh [Hwf Hk Ha Hs Hf Hl Hh] Hwf' Hnew; cbn [stream trk_ fin hist] in *.
  inv_fields; cbn [stream trk_ fin hist]; try assumption.
  [known]: { intros x Hx. apply in_or_app. left. apply Hk. exact Hx. }
  [seen]: { intros y [Hy|Hy]%in_app_or Hseen; [apply Hs; assumption|]. exfalso.
    (* a new shard is beyond everything the tracker has seen *)
    destruct Hseen as [Hle|[x [Hx Hle]]]; [|specialize (Hnew y x Hy (Hk x Hx)); lia].
    destruct Hl as [H0|[z [Hz E]]]; [|specialize (Hnew y z Hy Hz); lia].
    destruct (Hwf' y (in_or_app _ _ _ (or_intror Hy))) as [Hpos _]. lia. }
  [last]: { destruct Hl as [H0|[z [Hz E]]]; [left; exact H0|right; exists z; split; [apply in_or_app; left; exact Hz|exact E]]. }
Qed.

Lemma inv_mid : forall s op, Inv s -> valid_op s op -> Inv (mid s op).
Proof.
  intros [st t f h] op HI Hv. destruct op as [sh| |ids]; [exact HI|apply inv_discover, HI|apply inv_remove; assumption].
Qed.

Theorem inv_step : forall s op, Inv s -> valid_op s op -> Inv (sys_step s op).
Proof.
  intros s op HI Hv. pose proof (inv_mid s op HI Hv) as Hm. destruct op as [sh| |ids].
  - (* OAppend *) destruct s, Hv. apply inv_append; assumption.
  - (* OTick *) rewrite sys_step_handout by discriminate. exact (inv_handout _ _ (available_known _) Hm).
  - (* OFinish *) rewrite sys_step_handout by discriminate. exact (inv_handout _ _ (available_known _) Hm).
Qed.

Lemma available_facts : forall s c, Inv s -> In c (available (trk_ s)) ->
  In c (stream s) /\ mem (sid c) (assigned (trk_ s)) = false /\
  ~ In (sid c) (hist s) /\ mem (sid c) (fin s) = false /\
  forall q, In q (parents c) -> mem q (fin s) = true.
Proof.
  intros s c [Hwf Hk Ha Hs Hf Hl Hh] [Hck [Hna Hnp]%andb_true_iff]%filter_In. apply negb_true_iff in Hna, Hnp.
  assert (Hkb : known_b (sid c) (known (trk_ s)) = true) by (apply known_b_in; exists c; auto).
  assert (Hnf : mem (sid c) (fin s) = false).
  { destruct (mem (sid c) (fin s)) eqn:E; [|reflexivity]. destruct (Hf _ E) as [H _]. congruence. }
  repeat split; auto.
  - intro Hin. destruct (Hh _ Hin) as [H|H]; congruence.
  - intros q Hq. destruct (Hwf c (Hk c Hck)) as [_ Hpar]. destruct (Hpar q Hq) as [Hlt [y [Hy <-]]].
    destruct (Hs y Hy) as [H|H]; [right; exists c; split; [exact Hck|lia]| |exact H].
    (* a known parent would have withheld c *)
    exfalso. apply not_true_iff_false in Hnp. apply Hnp, existsb_exists. exists (sid y). auto.
Qed.

Theorem step_hands_out_correctly : forall s op c, Inv s -> valid_op s op -> In c (pending s op) ->
  ~ In (sid c) (hist s) /\ mem (sid c) (fin (mid s op)) = false /\
  forall q, In q (parents c) -> mem q (fin (mid s op)) = true.
Proof.
  intros s op c HI Hv Hc. pose proof (inv_mid s op HI Hv) as Hm.
  destruct op as [sh| |ids]; [destruct Hc| |]; apply (available_facts _ c Hm Hc).
Qed.

Fixpoint valid_history (s : sys) (ops : list kop) : Prop :=
  match ops with
  | [] => True
  | op :: r => valid_op s op /\ valid_history (sys_step s op) r
  end.

Definition run_ops (s : sys) (ops : list kop) : sys := fold_left sys_step ops s.

Lemma inv_history : forall ops s, Inv s -> valid_history s ops -> Inv (run_ops s ops).
Proof.
  induction ops as [|op r IH]; intros s HI Hv; [exact HI|].
  destruct Hv as [Hv1 Hv2]. apply IH; [apply inv_step; assumption|exact Hv2].
Qed.

Lemma valid_history_app : forall pre s op post, valid_history s (pre ++ op :: post) ->
  valid_history s pre /\ valid_op (run_ops s pre) op.
Proof.
  induction pre as [|x r IH]; intros s op post H; cbn [app valid_history run_ops fold_left] in *; [tauto|].
  destruct H as [H1 H2]. destruct (IH _ _ _ H2). tauto.
Qed.

Theorem history_hands_out_correctly : forall s0 pre op post c,
  Inv s0 -> valid_history s0 (pre ++ op :: post) ->
  let s := run_ops s0 pre in
  In c (pending s op) ->
  ~ In (sid c) (hist s) /\ mem (sid c) (fin (mid s op)) = false /\
  forall q, In q (parents c) -> mem q (fin (mid s op)) = true.
Proof.
  intros s0 pre op post c HI [Hv1 Hv2]%valid_history_app. apply step_hands_out_correctly; [|exact Hv2].
  apply inv_history; assumption.
Qed.

(* the state right after Start (nil checkpoint or a restore): the tracker after loading + discovery *)
Definition started (st : list shard) (t : tracker) (f : list N) : sys :=
  mkSys st (track_assigned (available t) t) f (map sid (available t)).

Lemma inv_started : forall st t f, Inv (mkSys st t f []) -> Inv (started st t f).
Proof.
  intros st t f H. unfold started. rewrite <- (app_nil_r (map sid _)). exact (inv_handout (mkSys st t f []) _ (available_known t) H).
Qed.

Lemma inv_new : forall st, wf_stream st -> Inv (mkSys st new_tracker [] []).
Proof.
  intros st Hwf. inv_fields; cbn; try easy.
  [seen]: { intros y Hy [Hle|[x [[] _]]]. cbn in Hle. destruct (Hwf y Hy) as [Hpos _]. lia. }
  [last]: { left. reflexivity. }
Qed.

Lemma inv_fresh_start : forall st, wf_stream st ->
  Inv (started st (tick_tracker st new_tracker) []).
Proof. intros st Hwf. apply inv_started, inv_discover, inv_new, Hwf. Qed.

Lemma k_start_fresh_tracker : forall n st,
  trk (fst (k_start n st [] 0 [])) = track_assigned (available (tick_tracker st new_tracker)) (tick_tracker st new_tracker).
Proof. intros. apply assign_shards_trk. Qed.

(* while nothing is finished only shards without parents are handed out: the first assignment of a fresh Start *)
Theorem available_roots : forall s c, Inv s -> fin s = [] -> In c (available (trk_ s)) -> parents c = [].
Proof.
  intros s c HI Hfin Hc. destruct (available_facts s c HI Hc) as (_ & _ & _ & _ & Hpar). rewrite Hfin in Hpar.
  destruct (parents c) as [|q r]; [reflexivity|]. discriminate (Hpar q (or_introl eq_refl)).
Qed.

(* the checkpoint loses nothing when every known shard up to [last] (LastAssignedShardId in the checkpoint) is assigned *)
Definition no_loss (t : tracker) : Prop :=
  forall x, In x (known t) -> sid x <= last t -> mem (sid x) (assigned t) = true.

(* what Start builds from Checkpoint(): only the assigned shards and [last] survive; hence [no_loss], and D24b without it *)
Definition restored_tracker (t : tracker) : tracker := load_splits (assigned_splits t) (last t) new_tracker.

Lemma get_shard_known : forall l i, known_b i l = true -> exists s, get_shard i l = Some s /\ In s l /\ sid s = i.
Proof.
  unfold known_b. induction l as [|y r IH]; intros i H; cbn [get_shard existsb In] in *; [discriminate|].
  destruct (N.eqb_spec (sid y) i); [exists y; auto|]. destruct (IH i H) as (s & ? & ? & ?). exists s. auto.
Qed.

Lemma restored_known : forall t, (forall i, mem i (assigned t) = true -> known_b i (known t) = true) ->
  (forall x, In x (known (restored_tracker t)) -> In x (known t) /\ mem (sid x) (assigned t) = true) /\
  (forall i, mem i (assigned t) = true -> known_b i (known (restored_tracker t)) = true).
Proof.
  intros t Hsub. cbn [restored_tracker load_splits known new_tracker]. unfold assigned_splits. split.
  - intros x [(i & <- & Hi%mem_in)%in_map_iff|[]]%in_fold_set.
    destruct (get_shard_known _ _ (Hsub i Hi)) as (s & -> & Hs & <-). auto.
  - intros i Hi. rewrite known_b_fold. apply orb_true_iff. left.
    destruct (get_shard_known _ _ (Hsub i Hi)) as (s & E & _ & <-).
    apply known_b_in. exists s. split; [|reflexivity]. apply in_map_iff. exists (sid s). rewrite E. split; [reflexivity|apply mem_in, Hi].
Qed.

Lemma inv_loaded : forall st t f h, Inv (mkSys st t f h) -> no_loss t -> Inv (mkSys st (restored_tracker t) f []).
Proof.
  intros st t f h [Hwf Hk Ha Hs Hf Hl Hh] Hnl; cbn [stream trk_ fin hist] in *.
  destruct (restored_known t (fun i Hi => proj1 (Ha i Hi))) as [R1 R2].
  inv_fields; cbn [stream trk_ fin hist]; try easy.
  [known]: { intros x Hx%R1. apply Hk, Hx. }
  [seen]: { intros y Hy Hseen.
    assert (Hle : sid y <= last t).
    { destruct Hseen as [H|(x & [_ Hx]%R1 & H)]; [exact H|]. apply Ha in Hx. lia. }
    destruct (Hs y Hy (or_introl Hle)) as [(x & Hx & E)%known_b_in|H]; [left|right; exact H].
    apply R2. rewrite <- E. apply Hnl; [exact Hx|lia]. }
  [fin]: { intros i Hi. destruct (Hf i Hi) as [H1 H2]. split; [|exact H2].
    apply not_true_iff_false. intros (x & [Hx _]%R1 & <-)%known_b_in.
    apply not_true_iff_false in H1. apply H1, known_b_in. exists x. auto. }
Qed.

(* Restoring from a checkpoint taken in state s (no loss), with the finished set of that moment, on a stream
   that may have grown since: after loading and discovery the invariant holds again, so everything above applies
   to the new run. *)
Lemma inv_restore_mid : forall s st', Inv s -> no_loss (trk_ s) ->
  (exists sh, st' = stream s ++ sh /\ wf_stream st' /\ forall x y, In x sh -> In y (stream s) -> sid y < sid x) ->
  Inv (mkSys st' (tick_tracker st' (restored_tracker (trk_ s))) (fin s) []).
Proof.
  intros [st t f h] st' HI Hnl (sh & -> & Hwf' & Hnew). apply inv_discover, inv_append; [apply (inv_loaded _ _ _ h)| |]; assumption.
Qed.

Theorem inv_restore : forall s st', Inv s -> no_loss (trk_ s) ->
  (exists sh, st' = stream s ++ sh /\ wf_stream st' /\ forall x y, In x sh -> In y (stream s) -> sid y < sid x) ->
  Inv (started st' (tick_tracker st' (restored_tracker (trk_ s))) (fin s)).
Proof. intros s st' HI Hnl Hext. apply inv_started, inv_restore_mid; assumption. Qed.

Lemma k_start_restore_tracker : forall n st k states,
  trk (fst (k_start n st (fst (k_checkpoint k)) (snd (k_checkpoint k)) states)) =
  let t1 := tick_tracker st (restored_tracker (trk k)) in track_assigned (available t1) t1.
Proof. intros. apply assign_shards_trk. Qed.

(* D24b (not repaired), a restore that loses a shard.  Stream: 1, 2; 1 split into 3,4; 2 split into 5,6.
   Start, finish 2 (5,6 handed out, last = 6), checkpoint:
   3 and 4 are known, unassigned and below 6. After the restore and after 1 is finished they are never handed out. *)
Definition d24b_stream : list shard :=
  [mkShard 1 [] 0 9; mkShard 2 [] 10 19; mkShard 3 [1] 0 4; mkShard 4 [1] 5 9; mkShard 5 [2] 10 14; mkShard 6 [2] 15 19].

Definition d24b_before : sys :=
  run_ops (started d24b_stream (tick_tracker d24b_stream new_tracker) []) [OFinish [2]].

Definition d24b_after : sys :=
  run_ops (started d24b_stream (tick_tracker d24b_stream (restored_tracker (trk_ d24b_before))) (fin d24b_before))
          [OFinish [1]; OTick].

(* D24b continued: when the lost shards 3 and 4 are later merged into 7, the restored splitter hands 7 out
   although its parents were never read. *)
Definition d24b_stream2 : list shard := d24b_stream ++ [mkShard 7 [3; 4] 0 9].
Definition d24b_after2 : sys :=
  run_ops (started d24b_stream2 (tick_tracker d24b_stream2 (restored_tracker (trk_ d24b_before))) (fin d24b_before)) [OTick].

(* D28: [track_assigned_gen false] sets LastAssignedSplitID to the id of the last shard of the call, not to the maximum;
   the id then moves backwards and a finished shard is listed and handed out again.  On d24b_stream: finish 2 (5, 6 handed out, last = 6), finish 1
   (3, 4 handed out, last = 4: backwards), finish 5, tick: 5 is listed again and handed out (Props.C16.d28_old_code). *)
Definition old_tick (st : list shard) (t : tracker) : tracker * list shard :=
  let t1 := tick_tracker st t in (track_assigned_gen false (available t1) t1, available t1).
Definition old_finish (ids : list N) (t : tracker) : tracker * list shard :=
  let t1 := remove_splits ids t in (track_assigned_gen false (available t1) t1, available t1).

(* D24a: [k_start_gen _ false] hands out ck_assigned ++ AvailableSplits (the restored shards, then the available ones, which
   include them): every restored shard twice *)
Lemma d24a_old_assigns_twice :
  let k := fst (k_start 2 d24b_stream [] 0 []) in
  let ck := k_checkpoint k in
  option_map (map (fun a => snd (fst a))) (snd (k_start_gen true false 2 d24b_stream (fst ck) (snd ck) [])) = Some [1; 2; 1; 2].
Proof. vm_compute. reflexivity. Qed.
