(* Whole-history statements: for the heap, the partitioned queue, the zip tree, the set (one value, and a pool of
   values derived from one another) and the sorted map, a type of operations, the step function that runs one on the
   structure (and on its reference, where there is one), and the per-operation lemmas folded over every operation
   sequence.  The cache's history (cop, cstep, cache_history) stands with its lemmas in C19_SortedCache.v. *)
From RV Require Import Base.Bytes Model.Heap Model.PPQ Model.ZipTree Model.DsSet Model.SortedMap.
From RV Require Import Proofs.C19_Heap Proofs.C19_PPQ Proofs.C19_ZipTree Proofs.C19_DsSet Proofs.C19_SortedMap.
Open Scope nat_scope.

Section HeapHist.
  Context {A : Type} (lt : A -> A -> bool).
  Inductive hop := HoPush (x : A) | HoPop | HoFix (i : nat) (v : A).
  (* HoFix i v: the element at position i is changed to v (arbitrarily), then Fix(i) is called *)
  Definition hstep (h : list A) (o : hop) : list A :=
    match o with
    | HoPush x => push lt x h
    | HoPop => snd (pop lt h)
    | HoFix i v => if i <? length h then fix_ lt (upd i v h) i else h
    end.

  Lemma hstep_ok (Hswo : swo lt) h o : heap_ok lt h -> heap_ok lt (hstep h o).
  Proof.
    intros Hok. destruct o as [x| |i v]; cbn [hstep].
    - apply push_ok; assumption.
    - destruct (pop lt h) as [o l'] eqn:E. cbn [snd]. eapply pop_ok; eassumption.
    - destruct (i <? length h) eqn:Ei; [|exact Hok]. apply Nat.ltb_lt in Ei.
      apply fix_restores; [exact Hswo|rewrite upd_length; exact Ei|apply upd_heap_ok_except; assumption].
  Qed.

  Theorem heap_history_ok (Hswo : swo lt) : forall ops, heap_ok lt (fold_left hstep ops []).
  Proof. intros ops. apply fold_left_inv; [intros h o; apply hstep_ok, Hswo | apply heap_ok_nil]. Qed.
End HeapHist.

Inductive qop := QoPush (x : N) (p : nat) | QoPop | QoDelete (x : N) (p : nat).
Definition qstep (q : ppq) (o : qop) : ppq :=
  match o with
  | QoPush x p => if p <? length (parts q) then ppq_push x p q else q      (* out of range: Go panics *)
  | QoPop => snd (ppq_pop q)
  | QoDelete x p => if p <? length (parts q) then ppq_delete x p q else q
  end.

Lemma qstep_inv q o : ppq_inv q -> ppq_inv (qstep q o).
Proof.
  intros Hq. destruct o as [x p| |x p]; cbn [qstep].
  - destruct (p <? length (parts q)) eqn:E; [|exact Hq]. apply Nat.ltb_lt in E. apply ppq_push_inv; assumption.
  - destruct (ppq_pop q) as [o q'] eqn:E. cbn [snd]. eapply ppq_pop_inv; eassumption.
  - destruct (p <? length (parts q)) eqn:E; [|exact Hq]. apply Nat.ltb_lt in E. apply ppq_delete_inv; assumption.
Qed.

Theorem ppq_history_inv : forall ps ops, Forall sortedN ps -> ppq_inv (fold_left qstep ops (ppq_new ps)).
Proof. intros ps ops Hps. apply fold_left_inv; [exact qstep_inv | apply ppq_new_inv, Hps]. Qed.

Open Scope N_scope.
Definition zput (t : tree) (kvr : bytes * bytes * N) : tree := fst (put (fst (fst kvr)) (snd (fst kvr)) (snd kvr) t).
Definition rput (m : list (bytes * bytes)) (kvr : bytes * bytes * N) := al_put (fst (fst kvr)) (snd (fst kvr)) m.

(* whatever the ranks, the tree stays a search tree and its in-order listing is the sorted association list of the Puts;
   Get, AscendPrefix and the value Put returns are functions of that listing (get_inorder, ascend_prefix_spec, put_replaced) *)
Theorem zip_history : forall puts,
  let t := fold_left zput puts Leaf in
  bst t /\ inorder t = fold_left rput puts [].
Proof.
  intros puts. apply (fold_left_refines zput rput bst inorder); [|exact I].
  intros t kvr Hb. split; [apply put_bst, Hb | apply inorder_put, Hb].
Qed.

Theorem zip_history_put_replaced : forall puts k v rank,
  snd (put k v rank (fold_left zput puts Leaf)) = al_get k (fold_left rput puts []).
Proof. intros puts k v rank. destruct (zip_history puts) as [Hb Hi]. rewrite put_replaced by exact Hb. rewrite Hi. reflexivity. Qed.

(* insertion-ordered set: Added is Add on a clone, so Add / Without cover it *)
Inductive sop := SoAdd (vs : list bytes) | SoWithout (vs : list bytes).
Definition sstep (s : set) (o : sop) : set := match o with SoAdd vs => set_add vs s | SoWithout vs => set_without vs s end.
Definition sref_step (r : list bytes) (o : sop) : list bytes := match o with SoAdd vs => ref_add r vs | SoWithout vs => ref_without r vs end.

Theorem set_history : forall ops,
  set_inv (fold_left sstep ops set_empty) /\ set_slice (fold_left sstep ops set_empty) = fold_left sref_step ops [].
Proof.
  intros ops. apply (fold_left_refines sstep sref_step set_inv set_slice); [|apply set_empty_inv].
  intros s [vs|vs]; [apply set_add_spec | apply set_without_spec].
Qed.

(* sorted map: an ordered read (All / Keys / Values) sorts the key slice in place, so it is a step too *)
Inductive mop := MoSet (k : bytes) (v : N) | MoDelete (k : bytes) | MoRead.
Definition mstep (s : smap) (o : mop) : smap :=
  match o with MoSet k v => fst (smap_set k v s) | MoDelete k => fst (smap_delete k s) | MoRead => fst (smap_all s) end.
Definition mref_step (r : list (bytes * N)) (o : mop) : list (bytes * N) :=
  match o with MoSet k v => rm_put k v r | MoDelete k => rm_del k r | MoRead => r end.

Lemma smap_history_inv : forall ops,
  smap_inv (fold_left mstep ops smap_empty) /\ smap_ref (fold_left mstep ops smap_empty) = fold_left mref_step ops [].
Proof.
  intros ops. apply (fold_left_refines mstep mref_step smap_inv smap_ref); [|apply smap_empty_inv].
  intros s o Hi. destruct o as [k v|k|]; cbn [mstep mref_step].
  - destruct (smap_set_spec k v s Hi) as (H1 & H2 & _). auto.
  - destruct (smap_delete_spec k s Hi) as (H1 & H2 & _). auto.
  - destruct (smap_all_spec s Hi) as (H1 & H2 & _). auto.
Qed.

(* persistent use of Set: a pool of set values; derived sets are new values, the bases stay in use *)
Inductive pop_ :=
| PoNew | PoOf (vs : list bytes) | PoAddInPlace (i : nat) (vs : list bytes)
| PoAdded (i : nat) (vs : list bytes) | PoWithout (i : nat) (vs : list bytes) | PoDiff (i j : nat).
Definition pget (i : nat) (pool : list set) : set := nth i pool set_empty.
Definition rget (i : nat) (pool : list (list bytes)) : list bytes := nth i pool [].
Definition pstep (pool : list set) (o : pop_) : list set :=
  match o with
  | PoNew => pool ++ [set_empty]
  | PoOf vs => pool ++ [set_add vs set_empty]
  | PoAddInPlace i vs => upd i (set_add vs (pget i pool)) pool          (* the only op that changes an existing value *)
  | PoAdded i vs => pool ++ [set_add vs (pget i pool)]
  | PoWithout i vs => pool ++ [set_without vs (pget i pool)]
  | PoDiff i j => pool ++ [set_diff (pget i pool) (pget j pool)]
  end.
Definition prstep (pool : list (list bytes)) (o : pop_) : list (list bytes) :=
  match o with
  | PoNew => pool ++ [[]]
  | PoOf vs => pool ++ [ref_add [] vs]
  | PoAddInPlace i vs => upd i (ref_add (rget i pool) vs) pool
  | PoAdded i vs => pool ++ [ref_add (rget i pool) vs]
  | PoWithout i vs => pool ++ [ref_without (rget i pool) vs]
  | PoDiff i j => pool ++ [filter (fun e => negb (mem e (rget j pool))) (rget i pool)]
  end.

Definition pool_ok (pool : list set) (rpool : list (list bytes)) : Prop :=
  Forall set_inv pool /\ map set_slice pool = rpool.

Lemma pget_inv pool i : Forall set_inv pool -> set_inv (pget i pool).
Proof.
  intros H. unfold pget. destruct (nth_in_or_default i pool set_empty) as [Hin | ->]; [|apply set_empty_inv].
  exact (proj1 (Forall_forall _ _) H _ Hin).
Qed.

Lemma pget_slice pool i : set_slice (pget i pool) = rget i (map set_slice pool).
Proof. symmetry. exact (map_nth set_slice pool set_empty i). Qed.

Lemma pool_ok_app pool x r : Forall set_inv pool -> set_inv x /\ set_slice x = r -> pool_ok (pool ++ [x]) (map set_slice pool ++ [r]).
Proof. intros H [Hx <-]. split; [apply Forall_app; auto | apply map_app]. Qed.

Lemma pool_ok_upd pool i x r : Forall set_inv pool -> set_inv x /\ set_slice x = r -> pool_ok (upd i x pool) (upd i r (map set_slice pool)).
Proof.
  intros H [Hx <-]. split; revert i; induction H as [|y l Hy Hl IH]; intros [|i]; cbn [upd map]; try constructor; auto.
  f_equal. apply IH.
Qed.

Lemma pstep_ok pool o : Forall set_inv pool -> pool_ok (pstep pool o) (prstep (map set_slice pool) o).
Proof.
  intros H. pose proof (pget_inv pool) as Hg.
  (* every operation appends one value to the pool, except the in-place Add, which replaces one: what is left to show
     is that this value is coherent and lists its reference *)
  destruct o as [|vs|i vs|i vs|i vs|i j]; cbn [pstep prstep]; rewrite <- ?pget_slice;
    (apply pool_ok_app || apply pool_ok_upd); try exact H.
  - (* PoNew *) split; [apply set_empty_inv | reflexivity].
  - (* PoOf *) apply (set_add_spec vs set_empty), set_empty_inv.
  - (* PoAddInPlace *) apply set_add_spec; auto.
  - (* PoAdded *) apply set_add_spec; auto.
  - (* PoWithout *) apply set_without_spec; auto.
  - (* PoDiff *) apply set_diff_spec; auto.
Qed.

(* every member of the pool, at every moment, lists exactly its own reference (first-insertion order, no duplicates)
   -- whatever was derived from it or from its siblings in the meantime *)
Theorem set_pool_history : forall ops, pool_ok (fold_left pstep ops []) (fold_left prstep ops []).
Proof.
  intros ops. apply (fold_left_refines pstep prstep (Forall set_inv) (map set_slice) pstep_ok). constructor.
Qed.

(* deriving a set (Added / Without / Diff / NewSet / SetOf) leaves every existing set value exactly as it was *)
Theorem set_values_immutable_gen : forall pool o i s,
  (forall k vs, o <> PoAddInPlace k vs) -> nth_error pool i = Some s -> nth_error (pstep pool o) i = Some s.
Proof.
  intros pool o i s Hno Hn. destruct o as [|vs|k vs|k vs|k vs|k j]; cbn [pstep];
    try (rewrite nth_error_app1; [exact Hn|apply nth_error_Some; congruence]).
  exfalso. exact (Hno k vs eq_refl).
Qed.
