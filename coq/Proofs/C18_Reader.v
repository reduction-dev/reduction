(* The layout a reader searches, [vlay ll M]: the level list with the memtables (or tables flushed meanwhile) as newest
   level-0 components.  What its validity says about the components, how it survives a change of them, and that a change
   set which is good for the level list is good for every valid reader layout over it. *)
From Coq Require Import List NArith Bool Lia.
From RV Require Import Base.Bytes Model.LsmBase Proofs.C07_Sorted Proofs.C18_Layout Proofs.C18_Apply Proofs.C18_Compact.
Import ListNotations.
Open Scope N_scope.

Lemma ents_vlay ll m e : ents (vlay ll m) e <-> ents ll e \/ ents_of m e.
Proof.
  assert (H0 : ents ll e <-> (exists t, In t (hd [] ll) /\ In e t) \/ ents (tl ll) e).
  { destruct ll; [|apply ents_cons]. split; [intros (l & _ & [] & _)|intros [(t & [] & _)|(l & _ & [] & _)]]. }
  unfold vlay, ents_of. rewrite ents_cons, H0. setoid_rewrite in_app_iff. split.
  - intros [(t & [Ht|Ht] & He)|H]; eauto 6.
  - intros [[(t & Ht & He)|H]|(t & Ht & He)]; eauto 6.
Qed.

Lemma mem_sorted {ll M t} : LLInv (vlay ll M) -> In t M -> sorted t.
Proof. intros Hv Ht. apply (v_sorted _ Hv (hd [] ll ++ M)); [left; reflexivity|apply in_or_app; right; exact Ht]. Qed.

Lemma mem_sep {ll M} : LLInv (vlay ll M) -> sep (hd [] ll ++ M).
Proof. intros Hv. exact (v_sep _ Hv _ eq_refl). Qed.

Lemma mem_above {ll M t e e'} :
  LLInv (vlay ll M) -> In t M -> In e t -> ents ll e' -> ekey e = ekey e' -> eseq e' < eseq e.
Proof.
  intros Hv Ht He He' Hk. apply ents_nth in He' as (i & l & t' & Hi & Ht' & He'). destruct i as [|i].
  - destruct ll as [|l0 ll]; [discriminate|]. injection Hi as ->. apply mem_sep, sep_app in Hv as (_ & _ & Hs). eauto.
  - apply (v_ord _ Hv 0%nat (S i) (hd [] ll ++ M) l t t' e e'); auto; [lia|rewrite vlay_nth_S; exact Hi|apply in_or_app; right; exact Ht].
Qed.

(* Any replacement of the further level-0 components: the new ones are sorted and in chronological order after level 0,
   and each of their entries is an entry of the old ones or is numbered above everything in the layout (the hypothesis on [ents_of M']). *)
Lemma LLInv_new_mem ll M M' :
  ll <> [] -> LLInv (vlay ll M) ->
  (forall t, In t M' -> sorted t) -> sep (hd [] ll ++ M') ->
  (forall e, ents_of M' e -> ents_of M e \/ (forall e0, ents (vlay ll M) e0 -> eseq e0 < eseq e)) ->
  LLInv (vlay ll M').
Proof.
  intros Hne Hv Hs Hsep Hnew. destruct ll as [|l0 ll]; [congruence|]. cbn [hd] in *. constructor.
  - (* v_sorted *) intros l t [<-|Hl] Ht; [|apply (v_sorted _ Hv l); [right; exact Hl|exact Ht]].
    apply in_app_or in Ht as [Ht|Ht]; [|auto]. apply (v_sorted _ Hv (l0 ++ M)); [left; reflexivity|apply in_or_app; left; exact Ht].
  - (* v_deep *) exact (v_deep _ Hv).
  - (* v_sep *) intros l [= <-]. exact Hsep.
  - (* v_ord *) intros i j li lj t t' e e' Hij Hi Hj Ht Ht' He He' Hk. destruct j as [|j]; [lia|].
    destruct i as [|i]; [|apply (v_ord _ Hv (S i) (S j) li lj t t' e e'); auto]. injection Hi as <-. apply in_app_or in Ht as [Ht|Ht].
    + apply (v_ord _ Hv 0%nat (S j) (l0 ++ M) lj t t' e e'); auto. apply in_or_app. left. exact Ht.
    + destruct (Hnew e (ex_intro _ t (conj Ht He))) as [(t0 & Ht0 & He0)|Hgt].
      * apply (v_ord _ Hv 0%nat (S j) (l0 ++ M) lj t0 t' e e'); auto. apply in_or_app. right. exact Ht0.
      * apply Hgt. exists lj, t'. split; [apply (nth_error_In _ (S j)); exact Hj|auto].
Qed.

Lemma LLInv_real ll m : LLInv (vlay ll m) -> ll <> [] -> LLInv ll.
Proof.
  intros Hv Hne. rewrite <- (vlay_nil ll Hne). apply (LLInv_new_mem ll m []); auto; [intros ? []| |intros ? (? & [] & _)].
  rewrite app_nil_r. apply mem_sep, sep_app in Hv. apply Hv.
Qed.

Lemma vlay_add_l0 ll snap rest : ll <> [] -> vlay (add_l0 snap ll) rest = vlay ll (snap ++ rest).
Proof. intros Hne. rewrite add_l0_vlay by exact Hne. apply vlay_vlay. Qed.

Lemma apply_vlay cs ll m :
  ll <> [] -> (1 <= cs_level cs)%nat -> (forall t, In t m -> ~ In t (cs_rem cs)) -> apply_cs cs (vlay ll m) = vlay (apply_cs cs ll) m.
Proof.
  intros Hne HT Hm. destruct ll as [|l0 ll]; [congruence|]. unfold vlay, apply_cs. cbn [hd tl apply_from].
  destruct (Nat.eqb 0 (cs_level cs)) eqn:E; [apply Nat.eqb_eq in E; lia|]. f_equal.
  rewrite filter_app. f_equal. clear -Hm. induction m as [|t m IH]; [reflexivity|]. cbn.
  rewrite (proj2 (tmem_false _ _) (Hm t (or_introl eq_refl))). cbn. f_equal. apply IH. intros x Hx. apply Hm. right. exact Hx.
Qed.

Lemma good_cs_new_mem ll M M' cs :
  ll <> [] -> good_cs (vlay ll M) cs ->
  (forall t, In t M -> ~ In t (cs_rem cs)) -> (forall t, In t M' -> ~ In t (cs_rem cs)) ->
  sep (hd [] ll ++ M') ->
  good_cs (vlay ll M') cs.
Proof.
  intros Hne Hg HM HM' Hsep. destruct ll as [|l0 ll]; [congruence|]. apply sep_app in Hsep as (_ & _ & Hsep).
  pose proof (g_lvl _ _ Hg) as HT. constructor.
  - (* g_lvl *) exact HT.
  - (* g_all *) intros l t. pose proof (g_all _ _ Hg l t) as H. destruct (cs_level cs); [lia|exact H].
  - (* g_sub *) intros r Hr. destruct (g_sub _ _ Hg r Hr) as ([|j] & l & Hj & Hl & Hrl); [|exists (S j), l; auto].
    injection Hl as <-. apply in_app_or in Hrl as [Hrl|Hrl]; [|destruct (HM _ Hrl Hr)].
    exists 0%nat, (l0 ++ M'). repeat split; [lia|apply in_or_app; left; exact Hrl].
  - (* g_add *) exact (g_add _ _ Hg).
  - (* g_closed *) intros i j li lj r t Hij Hi Hj Hr HrR Ht. destruct j as [|j]; [lia|].
    destruct i as [|i]; [|apply (g_closed _ _ Hg (S i) (S j) li lj r t); auto].
    injection Hi as <-. apply in_app_or in Hr as [Hr|Hr]; [|destruct (HM' _ Hr HrR)].
    apply (g_closed _ _ Hg 0%nat (S j) (l0 ++ M) lj r t); auto. apply in_or_app. left. exact Hr.
  - (* g_l0 *) intros l r t e e' [= <-] Hr HrR Ht HtR He He'.
    apply in_app_or in Hr as [Hr|Hr]; [|destruct (HM' _ Hr HrR)].
    apply in_app_or in Ht as [Ht|Ht]; [|exact (Hsep r t e e' Hr Ht He He')].
    apply (g_l0 _ _ Hg (l0 ++ M) r t e e'); auto; apply in_or_app; left; assumption.
  - (* g_deep *) intros [|j] l t Hj Hl Ht; [lia|]. apply (g_deep _ _ Hg (S j) l t); auto.
Qed.

(* a table is identified with its content (Model/Lsm.v); a non-empty table that is both a memtable and a table of the level
   list would hold an entry newer than itself (mem_above) *)
Lemma mem_not_rem ll M (R : list table) :
  LLInv (vlay ll M) -> nonempty ll ->
  (forall r, In r R -> exists l, In l ll /\ In r l) -> forall t, In t M -> ~ In t R.
Proof.
  intros Hv Hreal HR t Ht HtR. destruct (HR t HtR) as (l & Hl & Htl). pose proof (Hreal l t Hl Htl) as Hnil.
  destruct t as [|e t]; [congruence|].
  assert (He : ents ll e) by (exists l, (e :: t); cbn; auto).
  pose proof (mem_above Hv Ht (or_introl eq_refl) He eq_refl). lia.
Qed.

Lemma good_cs_vlay ll M cs :
  LLInv (vlay ll M) -> nonempty ll -> good_cs ll cs -> good_cs (vlay ll M) cs /\ forall t, In t M -> ~ In t (cs_rem cs).
Proof.
  intros Hv Hne Hg. assert (Hll : ll <> []) by (intros ->; destruct (g_lvl _ _ Hg); cbn in *; lia).
  assert (Hd : forall t, In t M -> ~ In t (cs_rem cs)).
  { apply (mem_not_rem ll); auto. intros r Hr. destruct (g_sub _ _ Hg r Hr) as (j & l & _ & Hl & Hin). exists l. split; [eapply nth_error_In; exact Hl|exact Hin]. }
  split; [|exact Hd]. apply (good_cs_new_mem ll [] M cs Hll); [rewrite vlay_nil by exact Hll; exact Hg|intros ? []|exact Hd|exact (mem_sep Hv)].
Qed.
