(* Every change set computed by Compactor.Compact on a valid level list is good for it (C18_Apply.good_cs); at the end
   [vlay], the layout a reader searches (its theory is Proofs/C18_Reader.v). *)
From Coq Require Import List NArith Lia.
From RV Require Import Base.Bytes Model.LsmBase Model.LsmCompaction Proofs.C07_Sorted Proofs.C18_Layout Proofs.C18_Apply.
From RV Require Import Base.Lists.
Import ListNotations.
Open Scope N_scope.

Lemma fill_spec limit buf rest b r en :
  fill limit buf rest = (b, r, en) ->
  b ++ r = buf ++ rest /\ (exists x, b = buf ++ x) /\ (en = true -> r = []) /\ (en = false -> limit <= run_size b).
Proof.
  revert buf. induction rest as [|e rest IH]; intros buf H; cbn [fill] in H.
  - injection H as <- <- <-. rewrite N.ltb_ge. repeat split; auto. exists []. symmetry. apply app_nil_r.
  - destruct (run_size buf <? limit) eqn:L.
    + destruct (IH _ H) as (H1 & (x & H2) & H3). rewrite <- app_assoc in H1, H2. eauto.
    + injection H as <- <- <-. apply N.ltb_ge in L. repeat split; auto; [|discriminate]. exists []. symmetry. apply app_nil_r.
Qed.

Lemma wr_last_spec (written : bool) (l : table) :
  written = true \/ l <> [] ->
  let out := match l with [] => if written then [] else [l] | _ => [l] end in
  concat out = l /\ forall a, In a out -> a <> [].
Proof.
  destruct l as [|x l]; [intros [->|Hw]; [split; [reflexivity|intros a []]|congruence]|intros _].
  split; [apply app_nil_r|]. intros a [<-|[]]. discriminate.
Qed.

Lemma wr_loop_spec fuel target written buf rest :
  1 <= target -> (written = true \/ buf ++ rest <> []) ->
  concat (wr_loop fuel target written buf rest) = buf ++ rest /\
  forall a, In a (wr_loop fuel target written buf rest) -> a <> [].
Proof.
  intros Ht. revert written buf rest. induction fuel as [|f IH]; intros written buf rest Hw; cbn [wr_loop].
  - pose proof (wr_last_spec written _ Hw) as H. destruct (buf ++ rest); exact H.
  - destruct (fill target buf rest) as [[b1 rest1] en1] eqn:F1.
    destruct (fill_spec _ _ _ _ _ _ F1) as (A1 & _ & A3 & A4). rewrite <- A1 in *.
    destruct en1.
    + rewrite A3, app_nil_r in * by reflexivity. exact (wr_last_spec written b1 Hw).
    + (* a full buffer is cut off as a table; the buffer grows by appending, so the cut is not empty *)
      assert (Hb1 : b1 <> []) by (intros ->; specialize (A4 eq_refl); cbn in A4; lia).
      destruct (fill (max_buffer target) b1 rest1) as [[b2 rest2] en2] eqn:F2.
      destruct (fill_spec _ _ _ _ _ _ F2) as (B1 & (x & B2) & B3 & _). rewrite <- B1.
      assert (Hcut : firstn (length b1) b2 <> []) by (subst b2; destruct b1; [congruence|discriminate]).
      destruct en2.
      * rewrite B3, app_nil_r by reflexivity. split; [apply app_nil_r|]. intros a [<-|[]] ->. destruct (length b1); contradiction.
      * destruct (IH true (skipn (length b1) b2) rest2 (or_introl eq_refl)) as [C1 C2]. split.
        -- cbn [concat]. rewrite C1, app_assoc, firstn_skipn. reflexivity.
        -- intros a [<-|Ha]; auto.
Qed.

Lemma write_run_spec es target :
  1 <= target -> es <> [] -> concat (write_run es target) = es /\ forall a, In a (write_run es target) -> a <> [].
Proof. intros Ht He. apply (wr_loop_spec _ _ false [] es Ht). right. exact He. Qed.

Lemma level_unique {ll i i' li li' r} :
  LLInv ll -> nth_error ll i = Some li -> nth_error ll i' = Some li' -> In r li -> In r li' -> i = i'.
Proof.
  intros Hv Hi Hi' Hr Hr'.
  (* a table at two levels: empty tables are only at level 0; an entry would be newer than itself *)
  assert (H : forall a b la lb, (a < b)%nat -> nth_error ll a = Some la -> nth_error ll b = Some lb -> In r la -> In r lb -> False).
  { intros a b la lb Hab Ha Hb Hra Hrb. destruct r as [|e r].
    - destruct b; [lia|]. exact (proj2 (v_deep _ Hv _ _ Hb) _ Hrb eq_refl).
    - pose proof (v_ord _ Hv _ _ _ _ _ _ e e Hab Ha Hb Hra Hrb (or_introl eq_refl) (or_introl eq_refl) eq_refl). lia. }
  destruct (Nat.lt_trichotomy i i') as [L|[L|L]]; [exfalso|exact L|exfalso]; eauto.
Qed.

Lemma nth_error_nth_eq {A} (l : list A) i d x : nth_error l i = Some x -> nth i l d = x.
Proof. intros H. apply nth_error_nth. exact H. Qed.

(* Every change set of the compactor has this shape: it takes a part [P] of a level [ip] and all tables of the levels
   ip+1 .. T, and writes their merge to level T.  It is good provided that, if ip = 0, the part taken is older than
   the rest of level 0. *)
Lemma merge_down_good {ll cs target ip lp} P :
  LLInv ll -> nonempty ll -> 1 <= target ->
  nth_error ll ip = Some lp -> (ip < cs_level cs < length ll)%nat ->
  (forall r, In r (cs_rem cs) <->
     In r P \/ exists j lj, (ip < j <= cs_level cs)%nat /\ nth_error ll j = Some lj /\ In r lj) ->
  (forall r, In r P -> In r lp) ->
  (ip = 0%nat -> forall r t e e', In r P -> In t lp -> ~ In t P -> In e r -> In e' t -> eseq e < eseq e') ->
  (exists r, In r (cs_rem cs)) ->
  cs_add cs = write_run (merge_all (cs_rem cs)) target ->
  good_cs ll cs.
Proof.
  intros Hv Hne Htarget Hip HT HR HP Hold Hin Hadd.
  (* a removed table lies at exactly one level: at ip as a member of P, or below *)
  assert (Hloc : forall r, In r (cs_rem cs) -> exists i l, nth_error ll i = Some l /\ In r l /\
            ((ip < i <= cs_level cs)%nat \/ i = ip /\ In r P)).
  { intros r Hr. apply HR in Hr as [Hr|(j & lj & Hj & Hlj & Hr)]; [exists ip, lp|exists j, lj]; auto. }
  assert (Hwhere : forall r i li, In r (cs_rem cs) -> nth_error ll i = Some li -> In r li ->
            (ip < i <= cs_level cs)%nat \/ i = ip /\ In r P).
  { intros r i li HrR Hi Hr. destruct (Hloc r HrR) as (i' & l' & Hi' & Hr' & H). rewrite (level_unique Hv Hi Hi' Hr Hr'). exact H. }
  assert (Hbelow : forall j lj t, (ip < j <= cs_level cs)%nat -> nth_error ll j = Some lj -> In t lj -> In t (cs_rem cs)).
  { intros j lj t Hj Hlj Ht. apply HR. right. exists j, lj. auto. }
  constructor.
  - (* g_lvl *) lia.
  - (* g_all *) intros l t. apply (Hbelow (cs_level cs)). lia.
  - (* g_sub *) intros r Hr. destruct (Hloc r Hr) as (i & l & Hi & Hri & H). exists i, l. split; [lia|auto].
  - (* g_add: the merge input holds a table of the layout, hence an entry *)
    rewrite Hadd. apply write_run_spec; [exact Htarget|]. destruct Hin as (r & Hr).
    destruct (Hloc r Hr) as (i & l & Hi & Hri & _). pose proof (Hne l r (nth_error_In _ _ Hi) Hri) as Hr0.
    destruct r as [|e r]; [congruence|]. intros Hnil. destruct (Mx_merge_all (cs_rem cs)) as (_ & _ & H3).
    destruct (H3 e) as (x & Hx & _); [exists (e :: r); split; [exact Hr|left; reflexivity]|]. rewrite Hnil in Hx. discriminate.
  - (* g_closed *) intros i j li lj r t Hij Hi Hj Hr HrR. apply (Hbelow j lj); [|exact Hj]. destruct (Hwhere _ _ _ HrR Hi Hr) as [H|[H _]]; lia.
  - (* g_l0 *) intros l r t e e' Hl Hr HrR Ht HtR. destruct (Hwhere _ _ _ HrR Hl Hr) as [H|[<- HrP]]; [lia|].
    assert (l = lp) as -> by congruence.
    apply Hold; [reflexivity|exact HrP|exact Ht|]. intros HtP. apply HtR, HR. left. exact HtP.
  - (* g_deep *) intros j l t Hj Hl Ht HtR. destruct (Hwhere _ _ _ HtR Hl Ht) as [H|[H _]]; lia.
Qed.

Lemma merge_levels_good cfg ll i :
  LLInv ll -> nonempty ll -> (S i < length ll)%nat -> 1 <= c_target cfg ->
  nth i ll [] <> [] -> good_cs ll (merge_levels cfg ll i).
Proof.
  intros Hv Hne Hlen Htarget Hi.
  apply (merge_down_good (ip := i) (lp := nth i ll []) (nth i ll []) Hv Hne Htarget).
  - apply nth_error_nth'. lia.
  - cbn. lia.
  - intros r. cbn [merge_levels cs_rem cs_level]. rewrite in_app_iff. split; (intros [H|H]; [left; exact H|right]).
    + exists (S i), (nth (S i) ll []). split; [lia|]. split; [apply nth_error_nth'; lia|exact H].
    + destruct H as (j & lj & Hj & Hlj & Hr). replace j with (S i) in Hlj by lia. rewrite (nth_error_nth _ _ [] Hlj). exact Hr.
  - auto.
  - intros _ r t' e0 e' Hr Ht' []. exact Ht'.
  - cbn. destruct (nth i ll []) as [|t l]; [congruence|]. exists t. left. reflexivity.
  - reflexivity.
Qed.

Lemma sort_age_in l x : In x (sort_age l) <-> In x l.
Proof. rewrite (in_rev l). exact (In_sort_by _ x (rev l)). Qed.

Lemma ins_age_last t l : (forall x, In x l -> age x <= age t) -> ins_age t l = l ++ [t].
Proof.
  induction l as [|y l IH]; intros H; [reflexivity|]. cbn.
  destruct (age t <? age y) eqn:L; [apply N.ltb_lt in L; specialize (H y (or_introl eq_refl)); lia|].
  rewrite IH; [reflexivity|]. intros x Hx. apply H. right. exact Hx.
Qed.

Lemma sort_age_sep l : sep l -> (forall t, In t l -> t <> []) -> sort_age l = l.
Proof.
  induction l as [|t l IH] using rev_ind; intros Hs Hne; [reflexivity|].
  unfold sort_age. rewrite rev_unit. cbn [fold_right]. fold (sort_age l).
  apply sep_app in Hs as (Hs & _ & Hc). rewrite IH; [|exact Hs|intros x Hx; apply Hne, in_or_app; auto].
  apply ins_age_last. intros x Hx. (* the age of a table is the sequence number of its first entry *)
  assert (Hx0 : x <> []) by (apply Hne, in_or_app; auto). assert (Ht0 : t <> []) by (apply Hne, in_or_app; right; left; reflexivity).
  destruct x as [|ex x]; [congruence|]. destruct t as [|et t]; [congruence|].
  specialize (Hc _ _ ex et Hx (or_introl eq_refl) (or_introl eq_refl) (or_introl eq_refl)). cbn. lia.
Qed.

Lemma concat_map_nil {A B} (l : list A) : concat (map (fun _ => @nil B) l) = [].
Proof. induction l; cbn; auto. Qed.

Section Pick.
  Variable tsize : table -> N.

  Lemma pick_tables_prefix maxamp cands elig base p e d :
    pick_tables tsize maxamp cands elig base = (p, e, d) ->
    (exists q, p = firstn q cands) /\ (d = false -> p = cands) /\ (cands <> [] -> p <> []).
  Proof.
    revert elig p e d. induction cands as [|c r IH]; intros elig p e d H; cbn [pick_tables] in H.
    - injection H as <- <- <-. split; [exists 0%nat; reflexivity|split; [reflexivity|congruence]].
    - destruct (pct (elig - tsize c) base <? maxamp).
      + injection H as <- <- <-. split; [exists 1%nat; reflexivity|split; [discriminate|discriminate]].
      + destruct (pick_tables tsize maxamp r (elig - tsize c) base) as [[p' e'] d'] eqn:E. injection H as <- <- <-.
        destruct (IH _ _ _ _ E) as ((q & Hq) & H2 & _). split; [exists (S q); cbn; rewrite Hq; reflexivity|].
        split; [intros Hd; rewrite (H2 Hd); reflexivity|discriminate].
  Qed.

  (* The picks over the upper levels [up] (level 0 first; the loop visits them from the last one upwards): the oldest tables
     of some level [lp], the levels [D] below it entirely, nothing of the levels [U] above it.  Only of an empty level 0
     nothing is taken. *)
  Lemma pick_levels_shape maxamp up elig base :
    up <> [] ->
    exists U lp D q, up = U ++ lp :: D /\ (firstn q (sort_age lp) = [] -> U = [] /\ lp = []) /\
      forall r, In r (concat (pick_levels tsize maxamp (rev up) elig base)) <-> In r (firstn q (sort_age lp)) \/ In r (concat D).
  Proof.
    revert elig. induction up as [|l up IH] using rev_ind; intros elig Hne; [congruence|]. rewrite rev_unit. cbn [pick_levels].
    destruct (pick_tables tsize maxamp (sort_age l) elig base) as [[p e] d] eqn:E.
    destruct (pick_tables_prefix _ _ _ _ _ _ _ E) as ((q & Hq) & Hd & Hp).
    assert (Hl : sort_age l = [] -> l = []).
    { intros H. destruct l as [|x l]; [reflexivity|]. pose proof (proj2 (sort_age_in (x :: l) x) (or_introl eq_refl)) as Hx.
      rewrite H in Hx. destruct Hx. }
    destruct d.
    - (* the goal is met inside l: its oldest q tables, nothing above *)
      exists up, l, [], q. rewrite <- Hq. split; [reflexivity|]. split.
      + intros ->. destruct Hp; [|reflexivity]. intros H. rewrite (Hl H) in E. discriminate.
      + intros r. cbn [concat]. rewrite concat_map_nil, in_app_iff. reflexivity.
    - (* all of l is taken *)
      rewrite (Hd eq_refl) in *. destruct up as [|l2 up].
      + (* l is level 0 *) exists [], l, [], (length (sort_age l)). rewrite firstn_all. split; [reflexivity|]. split; [auto|].
        intros r. cbn. rewrite in_app_iff. reflexivity.
      + (* the loop goes on with the levels above, l joins those taken whole *)
        destruct (IH e ltac:(destruct up; discriminate)) as (U & lp & D & q' & H1 & H2 & H3).
        exists U, lp, (D ++ [l]), q'. split; [rewrite H1, <- app_assoc; reflexivity|]. split; [exact H2|].
        intros r. cbn [concat]. rewrite concat_app, !in_app_iff, H3. cbn. rewrite app_nil_r, sort_age_in.
        clear. (* tauto is slow in a large context *) tauto.
  Qed.
End Pick.

Lemma nth_after_split {A} (P Q : list (list A)) lp r :
  In r (concat Q) <-> exists j lj, (length P < j)%nat /\ nth_error (P ++ lp :: Q) j = Some lj /\ In r lj.
Proof.
  rewrite in_concat. split.
  - intros (l & Hl & Hr). apply In_nth_error in Hl as (k & Hk). exists (length P + S k)%nat, l. split; [lia|]. split; [|exact Hr].
    rewrite nth_error_app2 by lia. replace (length P + S k - length P)%nat with (S k) by lia. exact Hk.
  - intros (j & lj & Hj & Hn & Hr). rewrite nth_error_app2 in Hn by lia.
    destruct (j - length P)%nat as [|k] eqn:E; [lia|]. exists lj. split; [eapply nth_error_In; exact Hn|exact Hr].
Qed.

Section Major.
  Variables (tsize : table -> N) (cfg : ccfg) (ll : levels).
  Hypothesis Hlen : (2 <= length ll)%nat.

  Local Notation cs := (major tsize cfg ll).

  Lemma major_split : ll = removelast ll ++ [last ll []] /\ removelast ll <> [].
  Proof.
    assert (H : ll = removelast ll ++ [last ll []]) by (apply app_removelast_last; intros E; rewrite E in Hlen; cbn in Hlen; lia).
    split; [exact H|]. intros E. rewrite H, E in Hlen. cbn in Hlen. lia.
  Qed.

  Lemma major_takes_upper : (exists l, In l (removelast ll) /\ l <> []) -> exists l t, In l (removelast ll) /\ In t l /\ In t (cs_rem cs).
  Proof.
    intros (l & Hl & Hne).
    destruct (pick_levels_shape tsize (c_maxamp cfg) _ (eligible tsize ll) (base_size tsize ll) (proj2 major_split))
      as (U & lp & D & q & HU & H0 & HR).
    assert (Hrem : forall t, In t (firstn q (sort_age lp)) \/ In t (concat D) -> In t (cs_rem cs)).
    { intros t Ht. apply in_or_app. left. apply HR. exact Ht. }
    rewrite HU in *. destruct (firstn q (sort_age lp)) as [|t F] eqn:EF.
    - destruct H0 as [-> ->]; [reflexivity|]. destruct Hl as [<-|Hl]; [congruence|]. destruct l as [|t l]; [congruence|].
      exists (t :: l), t. split; [right; exact Hl|]. split; [left; reflexivity|]. apply Hrem. right. apply in_concat.
      exists (t :: l). split; [exact Hl|left; reflexivity].
    - exists lp, t. split; [apply in_elt|]. split; [|apply Hrem; left; left; reflexivity].
      apply sort_age_in, (In_firstn q). rewrite EF. left. reflexivity.
  Qed.

  Lemma major_good :
    LLInv ll -> 1 <= c_target cfg -> nonempty ll ->
    (exists l, In l (removelast ll) /\ l <> []) -> good_cs ll cs.
  Proof.
    intros Hv Htarget Hne Hupne. destruct major_split as [Hll Hup].
    destruct (pick_levels_shape tsize (c_maxamp cfg) _ (eligible tsize ll) (base_size tsize ll) Hup) as (U & lp & D & q & HU & _ & HR).
    remember (last ll []) as base. rewrite HU, <- app_assoc in Hll. cbn [app] in Hll.
    assert (Hlen' : length ll = (length U + S (length D + 1))%nat) by (rewrite Hll, !app_length; cbn; rewrite app_length; reflexivity).
    assert (Hip : nth_error ll (length U) = Some lp) by (rewrite Hll, nth_error_app2, Nat.sub_diag by lia; reflexivity).
    apply (merge_down_good (firstn q (sort_age lp)) Hv Hne Htarget Hip).
    - cbn. lia.
    - (* the picks and the base level are what lies below lp *)
      intros r. transitivity (In r (firstn q (sort_age lp)) \/ In r (concat (D ++ [base]))).
      { unfold major. cbn [cs_rem]. rewrite <- Heqbase, concat_app, !in_app_iff, HR. cbn. rewrite app_nil_r. clear. tauto. }
      rewrite (nth_after_split U (D ++ [base]) lp r), <- Hll.
      split; (intros [H|(j & lj & Hj & Hlj & Hr)]; [left; exact H|right; exists j, lj; split; [|auto]]).
      + (* j is the index of a level *) assert (j < length ll)%nat by (apply nth_error_Some; congruence). cbn. lia.
      + cbn in Hj. lia.
    - intros r Hr. apply sort_age_in. exact (In_firstn _ _ _ Hr).
    - (* level 0 is in age order, so the tables picked are a prefix of it and older than the rest *)
      intros E0 r t e e' Hr Ht HtP. rewrite E0 in Hip. pose proof (v_sep _ Hv _ Hip) as Hsep.
      rewrite (sort_age_sep _ Hsep (fun t => Hne lp t (nth_error_In _ _ Hip))) in *. rewrite <- (firstn_skipn q lp) in Hsep, Ht.
      apply sep_app in Hsep as (_ & _ & Hc). apply in_app_or in Ht as [Ht|Ht]; [contradiction|]. exact (Hc r t e e' Hr Ht).
    - destruct (major_takes_upper Hupne) as (l & t & _ & _ & HtR). exists t. exact HtR.
    - reflexivity.
  Qed.
End Major.

Section Compact.
  Variables (tsize : table -> N) (cfg : ccfg).

  Lemma lvl_size_pos l : 0 < lvl_size tsize l -> l <> [].
  Proof. intros H ->. cbn in H. lia. Qed.

  Lemma eligible_pos ll : 0 < eligible tsize ll -> exists l, In l (removelast ll) /\ l <> [].
  Proof.
    unfold eligible. induction (removelast ll) as [|l r IH]; cbn; [lia|]. intros H.
    destruct (N.eq_dec (lvl_size tsize l) 0) as [E|E].
    - destruct IH as (l' & H1 & H2); [lia|]. exists l'. auto.
    - exists l. split; [left; reflexivity|apply lvl_size_pos; lia].
  Qed.

  Lemma minor_loop_spec fuel ll mcl cs mcl' :
    minor_loop tsize fuel cfg ll mcl = (Some cs, mcl') ->
    exists i, (S i < length ll)%nat /\ cs = merge_levels cfg ll i /\ mcl' = S i /\ (mcl <= i)%nat /\ 0 < lvl_size tsize (nth i ll []).
  Proof.
    revert mcl. induction fuel as [|f IH]; intros mcl H; cbn [minor_loop] in H; [discriminate|].
    destruct (Nat.ltb mcl (length ll - 1)) eqn:L; [|discriminate]. apply Nat.ltb_lt in L.
    destruct (c_smallest cfg * N.of_nat mcl <? lvl_size tsize (nth mcl ll [])) eqn:Hsz.
    - injection H as <- <-. apply N.ltb_lt in Hsz. exists mcl. repeat split; auto; lia.
    - destruct (IH _ H) as (i & H1 & H2 & H3 & H4 & H5). exists i. repeat split; auto. lia.
  Qed.

  (* what Compact returns: a major compaction, the cursor unchanged, when the upper levels are too large; otherwise the
     merge of the first level i at or after the cursor that is large enough (level 0 at its trigger), the cursor on i+1 *)
  Lemma compact_cases ll mcl cs mcl' :
    (2 <= length ll)%nat -> 1 <= c_trigger cfg -> compact tsize cfg mcl ll = (Some cs, mcl') ->
    (cs = major tsize cfg ll /\ mcl' = mcl /\ exists l, In l (removelast ll) /\ l <> []) \/
    (exists i, (S i < length ll)%nat /\ cs = merge_levels cfg ll i /\ mcl' = S i /\ (mcl <= i)%nat /\ nth i ll [] <> []).
  Proof.
    intros Hlen Htrig H. unfold compact in H.
    destruct (Nat.eqb mcl 0 && (N.of_nat (length (hd [] ll)) <? c_trigger cfg)) eqn:E1; [discriminate|].
    destruct (c_maxamp cfg <? pct (eligible tsize ll) (base_size tsize ll)) eqn:E2.
    - injection H as <- <-. left. split; [reflexivity|]. split; [reflexivity|]. apply eligible_pos. apply N.ltb_lt in E2.
      unfold pct in E2. destruct (eligible tsize ll =? 0) eqn:E0; [lia|]. apply N.eqb_neq in E0. lia.
    - right. unfold minor in H. destruct mcl as [|k].
      + injection H as <- <-. exists 0%nat. cbn in E1. apply N.ltb_ge in E1.
        destruct ll as [|[|t l0] ll']; cbn in *; repeat split; try lia. discriminate.
      + destruct (minor_loop_spec _ _ _ _ _ H) as (i & H1 & H2 & H3 & H4 & H5). exists i. repeat split; auto. exact (lvl_size_pos _ H5).
  Qed.

  Theorem compact_good ll mcl cs mcl' :
    LLInv ll -> (2 <= length ll)%nat -> 1 <= c_target cfg -> 1 <= c_trigger cfg -> nonempty ll ->
    compact tsize cfg mcl ll = (Some cs, mcl') -> good_cs ll cs.
  Proof.
    intros Hv Hlen Htarget Htrig Hne H.
    destruct (compact_cases _ _ _ _ Hlen Htrig H) as [(-> & _ & Hup)|(i & Hi & -> & _ & _ & Hl)];
      [apply major_good|apply merge_levels_good]; assumption.
  Qed.
End Compact.

(* the layout seen by readers: the real level list [ll] with further components [m] (memtables, newly flushed
   tables) appended to level 0 *)
Definition vlay (ll : levels) (m : list table) : levels := (hd [] ll ++ m) :: tl ll.

Lemma vlay_nth_S ll m i : nth_error (vlay ll m) (S i) = nth_error ll (S i).
Proof. destruct ll as [|l ll]; [destruct i|]; reflexivity. Qed.
Lemma vlay_length ll m : ll <> [] -> length (vlay ll m) = length ll.
Proof. destruct ll; [congruence|reflexivity]. Qed.
Lemma vlay_nil ll : ll <> [] -> vlay ll [] = ll.
Proof. destruct ll; [congruence|]. intros _. unfold vlay. cbn. rewrite app_nil_r. reflexivity. Qed.
Lemma vlay_vlay ll a b : vlay (vlay ll a) b = vlay ll (a ++ b).
Proof. unfold vlay. cbn [hd tl]. rewrite app_assoc. reflexivity. Qed.
Lemma add_l0_vlay extra ll : ll <> [] -> add_l0 extra ll = vlay ll extra.
Proof. destruct ll; [congruence|reflexivity]. Qed.
