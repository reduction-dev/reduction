(* C10: one KeyGroupPriorityQueue of the current code (quirks_now) over the DKV specification.
   Invariant PInv: the cache is a prefix of the group's sorted DB content, and all of it when allDataInCache is set;
   size_ok: byteSize is exactly the number of cached bytes.  kq_load_spec, which reads the DB, is stated over PInv; the cache
   operations (push_cache_spec, delete_cache_spec) see only the group's content and are stated over CInv, the same invariant
   with that content as a parameter (PInv_CInv). *)
From RV Require Import Base.Lists Base.Bytes Model.TimerStore Model.TimerStoreKV Proofs.C10_Sorted.
From Coq Require Import ZifyN ZifyNat ZifyBool.
Open Scope N_scope.

(* [quirks_now]: the three switches of Model/TimerStore.v off; the lemmas of this file are about that setting alone *)
Local Notation Q := quirks_now.

Definition sum_len (l : list bytes) : N := fold_right (fun b acc => blen b + acc) 0 l.
Arguments sum_len : simpl never.
Definition items (p : kgq) : list bytes := c_items (k_cache p).
Definition content (p : kgq) (d : db) : list bytes := db_scan (k_prefix p) d.

Definition csize_ok (c : cache) : Prop := c_size c = sum_len (c_items c).
Definition size_ok (p : kgq) : Prop := csize_ok (k_cache p).
Definition PInv (d : db) (p : kgq) : Prop :=
  exists r, content p d = items p ++ r /\ (k_all p = true -> r = []).
Definition CInv (ct : list bytes) (p : kgq) : Prop :=
  exists r, ct = items p ++ r /\ (k_all p = true -> r = []).

Lemma PInv_CInv d p : PInv d p <-> CInv (content p d) p.
Proof. reflexivity. Qed.

Lemma sum_len_cons x l : sum_len (x :: l) = blen x + sum_len l.
Proof. reflexivity. Qed.
Lemma sum_len_nil : sum_len [] = 0.
Proof. reflexivity. Qed.

Lemma sum_len_app a b : sum_len (a ++ b) = sum_len a + sum_len b.
Proof. apply (fold_sum_app blen). Qed.

(* the byte count follows insertion and deletion whether or not the list is sorted: [smem] and [sins] / [sdel] walk alike *)
Lemma sum_len_sins v l : sum_len (sins v l) = if smem v l then sum_len l else sum_len l + blen v.
Proof.
  induction l as [|y l IH]; cbn [sins smem]; [rewrite !sum_len_cons, sum_len_nil; lia|].
  destruct (bcmp v y) eqn:E; rewrite !sum_len_cons.
  - (* v = y *) apply bcmp_eq in E. subst. reflexivity.
  - (* v < y *) lia.
  - (* v > y *) rewrite IH. destruct (smem v l); lia.
Qed.

Lemma sum_len_sdel v l : smem v l = true -> sum_len (sdel v l) + blen v = sum_len l.
Proof.
  induction l as [|y l IH]; cbn [sdel smem]; [discriminate|].
  destruct (bcmp v y) eqn:E; rewrite ?sum_len_cons; intros H.
  - (* v = y *) apply bcmp_eq in E. subst. lia.
  - (* v < y *) discriminate.
  - (* v > y *) specialize (IH H). lia.
Qed.

Lemma c_push_size_ok v c : csize_ok c -> csize_ok (c_push Q v c).
Proof. unfold csize_ok. intros H. cbn. rewrite sum_len_sins, H. destruct (smem v (c_items c)); reflexivity. Qed.

(* Push with [q_push_beyond_max] off caches [v] unless it sorts after everything cached *)
Lemma within_cache_spec v c : ssorted (c_items c) ->
  if within_cache v c then exists x, In x (c_items c) /\ bcmp v x <> Gt else Forall (fun x => slt x v) (c_items c).
Proof.
  unfold within_cache. intros Hs. destruct (c_items c) as [|y l] eqn:E; [constructor|]. rewrite <- E in *.
  assert (Hd : c_items c = removelast (c_items c) ++ [last (c_items c) []]) by (apply app_removelast_last; congruence).
  set (la := last (c_items c) []) in *.
  assert (Hla : In la (c_items c)) by (rewrite Hd; apply in_or_app; right; left; reflexivity).
  unfold bleb. destruct (bcmp v la) eqn:B.
  - (* v is the last item *) exists la. split; [exact Hla|congruence].
  - (* v before the last item *) exists la. split; [exact Hla|congruence].
  - (* v after the last item, hence after every item *)
    rewrite Hd in Hs |- *. apply bcmp_gt_lt in B. apply ssorted_app_inv in Hs as (_ & _ & Cx).
    apply Forall_app. split; [|constructor; [exact B|constructor]].
    apply Forall_forall. intros x Hx. apply (slt_trans _ la); [apply Cx; [exact Hx|left; reflexivity]|exact B].
Qed.

Lemma c_pop_last_spec c : c_items c <> [] -> csize_ok c ->
  c_items c = c_items (c_pop_last c) ++ [last (c_items c) []] /\ csize_ok (c_pop_last c).
Proof.
  unfold csize_ok, c_pop_last. intros Hne H. destruct (c_items c) as [|x l] eqn:E; [congruence|]. cbn [c_items c_size].
  assert (Hd : x :: l = removelast (x :: l) ++ [last (x :: l) []]) by (apply app_removelast_last; discriminate).
  split; [exact Hd|]. rewrite Hd, sum_len_app, sum_len_cons, sum_len_nil in H. lia.
Qed.

Lemma evict_spec fuel : forall c all c' all',
  csize_ok c -> evict fuel c all = (c', all') ->
  exists dropped, c_items c = c_items c' ++ dropped /\ (all' = true -> all = true /\ dropped = []) /\ csize_ok c'.
Proof.
  induction fuel as [|f IH]; cbn; intros c all c' all' Hs E.
  - inversion E; subst. exists []. rewrite app_nil_r. auto.
  - destruct (c_full c && negb (c_empty c)) eqn:C; [|inversion E; subst; exists []; rewrite app_nil_r; auto].
    apply andb_true_iff in C as [_ Cn].
    assert (Hne : c_items c <> []) by (unfold c_empty in Cn; destruct (c_items c); discriminate).
    destruct (c_pop_last_spec c Hne Hs) as (Hi & Hs').
    destruct (IH _ _ _ _ Hs' E) as (dr & Hi' & Ha & Hs'').
    exists (dr ++ [last (c_items c) []]). split; [rewrite Hi at 1; rewrite Hi'; apply app_assoc_reverse|].
    split; [|exact Hs'']. intros Ht. destruct (Ha Ht) as [F _]. discriminate.
Qed.

Lemma load_new_spec es : forall c c' ex,
  ssorted (c_items c ++ es) -> csize_ok c -> load_new Q es c = (c', ex) ->
  exists r, c_items c ++ es = c_items c' ++ r /\ (ex = true -> r = []) /\ csize_ok c' /\ (c_items c' = [] -> c_items c ++ es = []).
Proof.
  induction es as [|e r IH]; cbn [load_new]; intros c c' ex Hs Hsz E.
  - inversion E; subst. exists []. repeat split; auto. intros ->. reflexivity.
  - destruct (c_full c && negb (c_empty c)) eqn:C.
    + inversion E; subst. exists (e :: r). repeat split; auto; try discriminate.
      intros Hi. apply andb_true_iff in C as [_ C]. unfold c_empty in C. rewrite Hi in C. discriminate.
    + destruct (ssorted_app_inv _ _ Hs) as (_ & _ & Cx).
      assert (Hi : c_items (c_push Q e c) = c_items c ++ [e]).
      { apply sins_last, Forall_forall. intros x Hx. apply Cx; [exact Hx|left; reflexivity]. }
      rewrite (app_assoc _ [e] r : c_items c ++ e :: r = _), <- Hi in Hs |- *.
      destruct (IH _ _ _ Hs (c_push_size_ok e c Hsz) E) as (rs & Hc & Hex & Hsz' & Hne). exists rs. auto.
Qed.

Lemma content_sorted p d : ssorted d -> ssorted (content p d).
Proof. apply filter_sorted. Qed.

Lemma content_ext p q d : k_prefix p = k_prefix q -> content p d = content q d.
Proof. unfold content. intros ->. reflexivity. Qed.

Lemma In_content p d y : In y (content p d) <-> In y d /\ is_prefix (k_prefix p) y = true.
Proof. apply filter_In. Qed.

Lemma PInv_items_sorted d p : ssorted d -> PInv d p -> ssorted (items p).
Proof.
  intros Hd (r & Hc & _). pose proof (content_sorted p d Hd) as Hs. rewrite Hc in Hs.
  apply ssorted_app_inv in Hs. tauto.
Qed.

Lemma kq_load_spec d p :
  ssorted d -> PInv d p -> size_ok p ->
  let p1 := kq_load Q d p in
  PInv d p1 /\ c_peek (k_cache p1) = hd_error (content p d) /\ size_ok p1 /\ k_prefix p1 = k_prefix p.
Proof.
  intros Hd HP Hsz p1.
  enough (H : (PInv d p1 /\ (items p1 = [] -> content p1 d = [])) /\ size_ok p1 /\ k_prefix p1 = k_prefix p).
  { destruct H as ([HP1 He] & Hsz1 & Hpf). repeat split; auto. destruct HP1 as (r & Hc & _).
    unfold c_peek. fold (items p1). unfold content in *. rewrite <- Hpf.
    destruct (items p1); [rewrite He by reflexivity|rewrite Hc]; reflexivity. }
  unfold p1, kq_load, c_empty. fold (items p).
  destruct (items p) as [|x l] eqn:Hi; cbn [negb orb]; [destruct (k_all p) eqn:C|].
  - (* empty cache, allDataInCache: the group is empty, no load *)
    destruct HP as (r & Hc & Ha). repeat split; auto. exists r; auto. intros _. rewrite Hc, Hi, (Ha C). reflexivity.
  - (* empty cache, not allDataInCache: load *) cbn [q_load_marks_all Q]. fold (content p d).
    destruct (load_new Q (content p d) (k_cache p)) as [c' ex] eqn:E. unfold items in Hi.
    assert (Hs : ssorted (c_items (k_cache p) ++ content p d)) by (rewrite Hi; apply content_sorted, Hd).
    destruct (load_new_spec _ _ _ _ Hs Hsz E) as (rs & Hc & Hex & Hsz' & Hne). rewrite Hi in Hc, Hne.
    repeat split; auto. exists rs. auto.
  - (* non-empty cache: no load *) repeat split; auto. rewrite Hi. discriminate.
Qed.

Lemma delete_cache_spec ct p v :
  ssorted ct -> CInv ct p -> size_ok p ->
  CInv (sdel v ct) (kq_delete_cache v p) /\ size_ok (kq_delete_cache v p) /\ k_prefix (kq_delete_cache v p) = k_prefix p.
Proof.
  intros Hct (r & -> & Ha) Hsz. rewrite sdel_app by exact Hct. unfold kq_delete_cache, c_delete, CInv, size_ok, csize_ok, items in *. cbn.
  destruct (smem v (c_items (k_cache p))) eqn:Em; cbn.
  - split; [exists r; auto|]. split; [|reflexivity]. pose proof (sum_len_sdel v _ Em). lia.
  - split; [|auto]. exists (sdel v r). split; auto. intros Ht. rewrite (Ha Ht). reflexivity.
Qed.

Lemma push_cache_spec ct p v :
  ssorted ct -> CInv ct p -> size_ok p ->
  CInv (sins v ct) (kq_push_cache Q v p) /\ size_ok (kq_push_cache Q v p) /\ k_prefix (kq_push_cache Q v p) = k_prefix p.
Proof.
  intros Hct (r & -> & Ha) Hsz. destruct (ssorted_app_inv _ _ Hct) as (Si & _ & _).
  pose proof (within_cache_spec v (k_cache p) Si) as Hw. unfold kq_push_cache. cbn [q_push_beyond_max Q orb].
  destruct (k_all p || within_cache v (k_cache p)) eqn:C.
  - destruct (evict _ (c_push Q v (k_cache p)) (k_all p)) as [c2 all2] eqn:Ev.
    destruct (evict_spec _ _ _ _ _ (c_push_size_ok v _ Hsz) Ev) as (dr & Hi2 & Ha2 & Hsz2).
    split; [|split; [exact Hsz2|reflexivity]]. exists (dr ++ r). unfold items in *. cbn [k_cache k_all].
    rewrite app_assoc, <- Hi2. split.
    + (* [v] goes into the cached part: everything is cached, or it does not sort after the last cached item *)
      destruct (k_all p); [rewrite (Ha eq_refl), !app_nil_r; reflexivity|]. cbn [orb] in C. rewrite C in Hw.
      destruct Hw as (x & Hx & Hle). eapply sins_app_left; eauto.
    + intros Ht. destruct (Ha2 Ht) as [Ht1 ->]. apply Ha, Ht1.
  - (* only to the DB *)
    apply orb_false_iff in C as [Call Cw]. rewrite Cw in Hw. split; [|auto].
    exists (sins v r). split; [apply sins_app_right, Hw|]. rewrite Call. discriminate.
Qed.

Lemma PInv_new d kg mx : PInv d (kgq_new kg mx) /\ size_ok (kgq_new kg mx).
Proof. split; [|reflexivity]. exists (content (kgq_new kg mx) d). split; [reflexivity|discriminate]. Qed.
