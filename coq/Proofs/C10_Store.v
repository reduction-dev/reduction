(* C10: the TimerStore (all partitions of an operator's key-group range) over the DKV specification.
   SInv: every partition satisfies the cache-prefix invariant for its own prefix; TimerKeys: the DB content is a strictly
   sorted list of well-formed timer keys of this range.  GetEarliest returns a globally earliest timer. *)
From RV Require Import Base.Lists Base.Bytes Model.TimerStore Model.TimerStoreKV Proofs.C10_Sorted Proofs.C10_Queue Proofs.C10_Codec.
From Coq Require Import ZifyN ZifyNat ZifyBool.
Open Scope N_scope.

(* [quirks_now]: the three switches of Model/TimerStore.v off; the lemmas of this file are about that setting alone *)
Local Notation Q := quirks_now.

Section Store.
Variable kgf : bytes -> N.
Variables start size : N.
(* the key group is the first two bytes of a key ([be16]): [key_kg_timer] and [is_prefix_pfx] need every group below 2^16 *)
Hypothesis Hrange : start + size <= 65536.

Definition in_range (kg : N) : Prop := start <= kg < start + size.
Definition wf_entry (x : bytes) : Prop :=
  exists key t, x = timer_key (kgf key) t key /\ t_in t /\ in_range (kgf key).
Definition TimerKeys (d : db) : Prop := ssorted d /\ Forall wf_entry d.

Definition SInv (d : db) (s : tstore) : Prop :=
  ts_start s = start /\ length (ts_parts s) = N.to_nat size /\
  forall i p, nth_error (ts_parts s) i = Some p ->
    k_prefix p = pfx (start + N.of_nat i) /\ PInv d p /\ size_ok p.

Definition StInv (d : db) (s : tstore) : Prop := SInv d s /\ TimerKeys d.

Lemma SInv_new d mx : SInv d (tstore_new start size mx).
Proof.
  unfold tstore_new. split; [reflexivity|]. split; cbn [ts_parts].
  - rewrite map_length, seq_length. reflexivity.
  - intros i p H. assert (Hi : (i < N.to_nat size)%nat).
    { rewrite <- (seq_length (N.to_nat size) 0), <- (map_length (fun i => kgq_new (start + N.of_nat i) (mx / size))).
      apply nth_error_Some. congruence. }
    rewrite nth_error_map, (nth_error_nth' _ 0%nat), seq_nth in H by (rewrite ?seq_length; exact Hi).
    inversion H. destruct (PInv_new d (start + N.of_nat i) (mx / size)). auto.
Qed.

Lemma TimerKeys_nil : TimerKeys [].
Proof. split; [exact I|constructor]. Qed.

Lemma part_index_wf d s x : SInv d s -> wf_entry x ->
  exists i p, part_index s x = Some i /\ nth_error (ts_parts s) i = Some p /\
    forall j q, nth_error (ts_parts s) j = Some q -> is_prefix (k_prefix q) x = (j =? i)%nat.
Proof.
  intros (Hst & Hlen & Hp) (key & t & -> & Ht & Hr). unfold in_range in Hr.
  set (kg := kgf key) in *. set (i := N.to_nat (kg - start)).
  assert (Hpre : forall j q, nth_error (ts_parts s) j = Some q -> is_prefix (k_prefix q) (timer_key kg t key) = (j =? i)%nat).
  { intros j q Eq. destruct (Hp _ _ Eq) as (-> & _).
    assert ((j < length (ts_parts s))%nat) by (apply nth_error_Some; congruence).
    rewrite is_prefix_pfx by lia. destruct (Nat.eqb_spec j i); [apply N.eqb_eq|apply N.eqb_neq]; unfold i in *; lia. }
  destruct (nth_error (ts_parts s) i) as [p|] eqn:Ep; [|apply nth_error_None in Ep; unfold i in Ep; lia].
  exists i, p. split; [|split; [exact Ep|exact Hpre]].
  unfold part_index. rewrite key_kg_timer by lia. rewrite Hst. fold kg.
  destruct (kg <? start) eqn:E; [lia|]. fold i. destruct (i <? length (ts_parts s))%nat eqn:E2; [reflexivity|lia].
Qed.

Lemma TimerKeys_sins d x : TimerKeys d -> wf_entry x -> TimerKeys (sins x d).
Proof.
  intros [Hs Hw] Hx. split; [apply sins_sorted; exact Hs|].
  apply Forall_forall. intros y Hy. apply In_sins in Hy as [->|Hy]; auto. rewrite Forall_forall in Hw. auto.
Qed.

Lemma TimerKeys_sdel d x : TimerKeys d -> TimerKeys (sdel x d).
Proof.
  intros [Hs Hw]. split; [apply sdel_sorted; exact Hs|].
  apply Forall_forall. intros y Hy. apply In_sdel in Hy as [Hy _]; auto. rewrite Forall_forall in Hw. auto.
Qed.

(* Put and Delete of an entry [x]: load the partition of [x]'s key group, change its cache by [cop] and the DB by [g]
   (sins x / sdel x) *)
Definition ts_op (cop : kgq -> kgq) (g : db -> db) (x : bytes) (d : db) (s : tstore) : tstore * db :=
  match part_index s x with
  | None => (s, d)
  | Some i =>
      match nth_error (ts_parts s) i with
      | None => (s, d)
      | Some p => ({| ts_parts := upd i (cop (kq_load Q d p)) (ts_parts s); ts_start := ts_start s |}, g d)
      end
  end.

Lemma ts_op_spec (cop : kgq -> kgq) (g : db -> db) x d s s' d' :
  (forall P l, ssorted l -> filter P (g l) = if P x then g (filter P l) else filter P l) ->
  (forall ct p, ssorted ct -> CInv ct p -> size_ok p -> CInv (g ct) (cop p) /\ size_ok (cop p) /\ k_prefix (cop p) = k_prefix p) ->
  (TimerKeys d -> TimerKeys (g d)) ->
  StInv d s -> wf_entry x -> ts_op cop g x d s = (s', d') -> d' = g d /\ StInv d' s'.
Proof.
  intros Hg Hc Hgd [HS HD] Hx E. pose proof HD as [Hd _].
  destruct (part_index_wf d s x HS Hx) as (i & p & Ei & Ep & Hpre).
  unfold ts_op in E. rewrite Ei, Ep in E. inversion E; subst s' d'. clear E.
  split; [reflexivity|]. split; [|apply Hgd, HD].
  destruct HS as (Hst & Hlen & Hp). destruct (Hp _ _ Ep) as (Hpf & HP & Hsz).
  destruct (kq_load_spec d p Hd HP Hsz) as (HP1 & _ & Hsz1 & Hpf1).
  destruct (Hc _ _ (content_sorted _ d Hd) (proj1 (PInv_CInv _ _) HP1) Hsz1) as (HP2 & Hsz2 & Hpf2).
  assert (Hct : forall q, content q (g d) = if is_prefix (k_prefix q) x then g (content q d) else content q d)
    by (intros q; apply Hg, Hd).
  split; [exact Hst|]. split; [cbn; rewrite set_at_length; exact Hlen|].
  cbn [ts_parts]. intros j q Ej. rewrite PInv_CInv, Hct.
  destruct (Nat.eq_dec j i) as [->|Hne].
  - rewrite nth_error_set_at_eq in Ej by (apply nth_error_Some; congruence). inversion Ej; subst q.
    rewrite Hpf2, Hpf1, (Hpre _ _ Ep), Nat.eqb_refl, (content_ext _ _ d Hpf2). split; [congruence|]. split; [exact HP2|exact Hsz2].
  - rewrite nth_error_set_at_neq in Ej by auto. rewrite (Hpre _ _ Ej), (proj2 (Nat.eqb_neq j i) Hne), <- PInv_CInv. exact (Hp _ _ Ej).
Qed.

Lemma ts_push_op x d s : ts_push Q x d s = ts_op (kq_push_cache Q x) (sins x) x d s.
Proof. reflexivity. Qed.

Lemma ts_delete_op x d s : ts_delete Q x d s = ts_op (kq_delete_cache x) (sdel x) x d s.
Proof. reflexivity. Qed.

Lemma ts_push_spec d s x s' d' :
  StInv d s -> wf_entry x -> ts_push Q x d s = (s', d') -> d' = sins x d /\ StInv d' s'.
Proof.
  intros HS Hx. rewrite ts_push_op. apply (ts_op_spec (kq_push_cache Q x) (sins x)); auto using filter_sins, push_cache_spec.
  intros HD. apply TimerKeys_sins; assumption.
Qed.

Lemma ts_delete_spec d s x s' d' :
  StInv d s -> wf_entry x -> ts_delete Q x d s = (s', d') -> d' = sdel x d /\ StInv d' s'.
Proof.
  intros HS Hx. rewrite ts_delete_op. apply (ts_op_spec (kq_delete_cache x) (sdel x)); auto using filter_sdel, delete_cache_spec, TimerKeys_sdel.
Qed.

(* The Peek of a partition, [None] if it is empty, and the time it stands for in heapCompare's order "empty partitions
   last": 2^63, above every admissible timestamp ([t_in t] is 0 <= t < 2^63), so that [peek_lt] is [<] on these times. *)
Definition owf (o : option bytes) : Prop := match o with None => True | Some x => wf_entry x end.
Definition ot (o : option bytes) : Z := match o with None => (2 ^ 63)%Z | Some x => key_time x end.

Lemma wf_time x : wf_entry x -> t_in (key_time x).
Proof. intros (key & t & -> & Ht & _). rewrite key_time_timer; auto. Qed.

Lemma peek_lt_ot a b : owf a -> owf b -> peek_lt a b = (ot a <? ot b)%Z.
Proof.
  destruct a as [x|], b as [y|]; cbn [peek_lt ot owf]; intros Ha Hb.
  - (* both have a Peek *) destruct Ha as (k1 & t1 & -> & H1 & _). destruct Hb as (k2 & t2 & -> & H2 & _).
    rewrite ts_bytes_lt, !key_time_timer by auto. reflexivity.
  - (* only a *) apply wf_time in Ha. destruct Ha. symmetry. apply Z.ltb_lt. lia.
  - (* only b *) apply wf_time in Hb. destruct Hb. symmetry. apply Z.ltb_ge. lia.
  - (* neither *) reflexivity.
Qed.

Lemma min_peek_spec l : forall best, owf best -> Forall owf l ->
  In (min_peek best l) (best :: l) /\ forall o, In o (best :: l) -> (ot (min_peek best l) <= ot o)%Z.
Proof.
  induction l as [|o l IH]; intros best Hb Hl; cbn [min_peek].
  - split; [left; reflexivity|]. intros o [<-|[]]. lia.
  - inversion Hl as [|? ? Ho Hl']; subst.
    assert (Hb' : owf (if peek_lt o best then o else best)) by (destruct (peek_lt o best); auto).
    destruct (IH _ Hb' Hl') as [Hin Hmin]. split.
    + destruct Hin as [Hin|Hin]; [|right; right; exact Hin].
      rewrite <- Hin. destruct (peek_lt o best); [right; left|left]; reflexivity.
    + assert (H0 := Hmin _ (or_introl eq_refl)). revert H0 Hmin. rewrite (peek_lt_ot o best Ho Hb).
      destruct (Z.ltb_spec (ot o) (ot best)) as [Hlt|Hge]; intros H0 Hmin o' [<-|[<-|Hin']].
      * (* o is earlier, the new best: against best *) lia.
      * (* against o *) exact H0.
      * (* against l *) apply Hmin. right. exact Hin'.
      * (* best stays: against best *) exact H0.
      * (* against o *) lia.
      * (* against l *) apply Hmin. right. exact Hin'.
Qed.

Lemma content_head_time d p kg x l y :
  TimerKeys d -> kg < 65536 -> k_prefix p = pfx kg -> content p d = x :: l -> In y (x :: l) -> (key_time x <= key_time y)%Z.
Proof.
  intros [Hs Hw] Hkg Hpf Ec Hy. rewrite Forall_forall in Hw.
  assert (Hg : forall z, In z (x :: l) -> exists key t, z = timer_key kg t key /\ t_in t).
  { intros z Hz. rewrite <- Ec in Hz. apply In_content in Hz as [Hz Hp]. destruct (Hw _ Hz) as (key & t & -> & Ht & Hr).
    unfold in_range in Hr. rewrite Hpf, is_prefix_pfx in Hp by lia. apply N.eqb_eq in Hp. rewrite Hp. eauto. }
  pose proof (content_sorted p d Hs) as Hx. rewrite Ec in Hx. destruct Hx as [Hx _]. rewrite Forall_forall in Hx.
  destruct (Hg x (or_introl eq_refl)) as (k1 & t1 & -> & H1). destruct (Hg y Hy) as (k2 & t2 & E & H2).
  rewrite E, !key_time_timer by assumption. apply (same_group_order kg t1 k1 t2 k2 H1 H2). rewrite <- E.
  destruct Hy as [<-|Hy]; [rewrite bcmp_refl|rewrite (Hx _ Hy)]; discriminate.
Qed.

Lemma SInv_load d s : SInv d s -> ssorted d -> SInv d {| ts_parts := map (kq_load Q d) (ts_parts s); ts_start := ts_start s |}.
Proof.
  intros (Hst & Hlen & Hp) Hd. split; [exact Hst|]. split; cbn [ts_parts]; [rewrite map_length; exact Hlen|].
  intros i p1 H. rewrite nth_error_map in H. destruct (nth_error (ts_parts s) i) as [p|] eqn:Ep; [|discriminate].
  inversion H; subst p1. destruct (Hp _ _ Ep) as (Hpf & HP & Hsz).
  destruct (kq_load_spec d p Hd HP Hsz) as (HP1 & _ & Hsz1 & Hpf1). split; [congruence|auto].
Qed.

Lemma peeks_loaded d s : SInv d s -> ssorted d ->
  map (fun p => c_peek (k_cache p)) (map (kq_load Q d) (ts_parts s)) = map (fun p => hd_error (content p d)) (ts_parts s).
Proof.
  intros (_ & _ & Hp) Hd. rewrite map_map. apply map_ext_in. intros p Hin. apply In_nth_error in Hin as [i Hi].
  destruct (Hp _ _ Hi) as (_ & HP & Hsz). apply (kq_load_spec d p Hd HP Hsz).
Qed.

Lemma ts_peek_spec d s o s' :
  StInv d s -> ts_peek Q d s = (o, s') ->
  StInv d s' /\
  match o with
  | None => d = []
  | Some x => In x d /\ forall y, In y d -> (key_time x <= key_time y)%Z
  end.
Proof.
  intros [HS HD] E. unfold ts_peek in E. inversion E; subst o s'. clear E. pose proof HD as [Hds Hdw].
  split; [split; [apply SInv_load|]; assumption|]. rewrite (peeks_loaded d s HS Hds). set (hs := map _ (ts_parts s)).
  rewrite Forall_forall in Hdw.
  assert (Hin_d : forall h, In (Some h) hs -> In h d).
  { intros h Hh. apply in_map_iff in Hh as (p & Eh & _). apply (In_content p).
    destruct (content p d); inversion Eh. left. reflexivity. }
  (* every entry lies in the content of its partition, whose head is not later *)
  assert (Hhead : forall y, In y d -> exists h, In (Some h) hs /\ (key_time h <= key_time y)%Z).
  { intros y Hy. destruct (part_index_wf d s y HS (Hdw _ Hy)) as (i & p & _ & Ep & Hpre).
    assert (Hyc : In y (content p d)) by (apply In_content; rewrite (Hpre _ _ Ep), Nat.eqb_refl; auto).
    destruct (content p d) as [|h l] eqn:Ec; [contradiction|]. exists h. split.
    - apply in_map_iff. exists p. rewrite Ec. split; [reflexivity|eapply nth_error_In; eauto].
    - destruct HS as (_ & Hlen & Hp). assert ((i < N.to_nat size)%nat) by (rewrite <- Hlen; apply nth_error_Some; congruence).
      apply (content_head_time d p (start + N.of_nat i) h l y); auto; [lia|apply (Hp _ _ Ep)]. }
  assert (Hwf : Forall owf hs) by (apply Forall_forall; intros [h|] Hh; cbn; auto).
  destruct (min_peek_spec hs None I Hwf) as [Hin Hmin].
  destruct (min_peek None hs) as [x|].
  - destruct Hin as [Hin|Hin]; [discriminate|]. split; [apply Hin_d, Hin|].
    intros y Hy. destruct (Hhead _ Hy) as (h & Hh & Hle). specialize (Hmin (Some h) (or_intror Hh)). cbn in Hmin. lia.
  - destruct d as [|y d']; [reflexivity|]. exfalso.
    destruct (Hhead y (or_introl eq_refl)) as (h & Hh & _). specialize (Hmin (Some h) (or_intror Hh)). cbn in Hmin.
    destruct (wf_time h (Hdw _ (Hin_d _ Hh))). lia.
Qed.

End Store.
