(* SearchUnique: the repaired half-open binary search finds the (unique) matching element of a slice sorted relative to the
   target; the code before the repair (high = i - 1) does not (witness with the statement in Props/C19.v). *)
From Coq Require Import Sorted.
From RV Require Import Base.Bytes Base.Lists Model.Search.
Open Scope nat_scope.

Section SearchProofs.
  Context {E T : Type} (cmp : E -> T -> comparison).

  (* x is strictly sorted relative to target t: for positions i < j, either x[i] is below the target or x[j] is above it
     (so at most one element matches, everything before it is below and everything after it is above) *)
  Definition sorted_for (t : T) (x : list E) : Prop :=
    forall i j ei ej, i < j -> nth_error x i = Some ei -> nth_error x j = Some ej -> cmp ei t = Lt \/ cmp ej t = Gt.

  (* loop invariant: every match lies in the window [low, high) *)
  Lemma su_loop_spec (x : list E) (t : T) (Hs : sorted_for t x) :
    forall fuel low high,
      high - low < fuel -> high <= length x ->
      (forall k e, nth_error x k = Some e -> cmp e t = Eq -> low <= k < high) ->
      match su_loop cmp fuel x t low high with
      | Some i => exists e, nth_error x i = Some e /\ cmp e t = Eq
      | None => forall k e, nth_error x k = Some e -> cmp e t <> Eq
      end.
  Proof.
    induction fuel as [|f IH]; intros low high Hf Hlen Hwin; [lia|].
    cbn [su_loop]. destruct (Nat.ltb_spec low high) as [Hlt|Hge].
    - pose proof (div2_mid low high Hlt) as Hmid. set (i := Nat.div2 (low + high)) in *.
      destruct (nth_error x i) as [e|] eqn:Hnth; [|apply nth_error_None in Hnth; lia].
      destruct (cmp e t) eqn:Hc.
      + eauto.
      + (* x[i] is below the target: a match at k is not at i, and sorted_for rules out k < i *)
        apply IH; [lia | lia |]. intros k e' Hk He'. specialize (Hwin k e' Hk He').
        destruct (Nat.lt_trichotomy k i) as [H|[->|H]]; [|congruence|lia].
        destruct (Hs k i e' e H Hk Hnth); congruence.
      + (* x[i] is above the target: likewise, sorted_for rules out i < k *)
        apply IH; [lia | lia |]. intros k e' Hk He'. specialize (Hwin k e' Hk He').
        destruct (Nat.lt_trichotomy k i) as [H|[->|H]]; [lia|congruence|].
        destruct (Hs i k e e' H Hnth Hk); congruence.
    - intros k e Hk He. specialize (Hwin k e Hk He). lia.
  Qed.

  Lemma search_unique_sound (x : list E) (t : T) : sorted_for t x ->
    match search_unique cmp x t with
    | Some i => exists e, nth_error x i = Some e /\ cmp e t = Eq
    | None => forall k e, nth_error x k = Some e -> cmp e t <> Eq
    end.
  Proof.
    intros Hs. unfold search_unique. apply su_loop_spec; [exact Hs | lia | lia |].
    intros k e Hk _. split; [lia | apply nth_error_Some; congruence].
  Qed.

  (* full strength: the result is Some i exactly when x[i] matches the target *)
  Theorem search_unique_finds_gen (x : list E) (t : T) : sorted_for t x ->
    forall i, search_unique cmp x t = Some i <-> exists e, nth_error x i = Some e /\ cmp e t = Eq.
  Proof.
    intros Hs i. pose proof (search_unique_sound x t Hs) as H. split.
    - intros Hr. rewrite Hr in H. exact H.
    - intros [e [Hnth Heq]]. destruct (search_unique cmp x t) as [j|] eqn:Hr; [|destruct (H i e Hnth Heq)].
      destruct H as [e' [Hnth' Heq']]. f_equal.
      destruct (Nat.lt_trichotomy j i) as [Hji|[Hji|Hji]]; [|exact Hji|].
      + destruct (Hs j i e' e Hji Hnth' Hnth) as [H1|H1]; congruence.
      + destruct (Hs i j e e' Hji Hnth Hnth') as [H1|H1]; congruence.
  Qed.

  Corollary search_unique_none (x : list E) (t : T) : sorted_for t x ->
    (search_unique cmp x t = None <-> forall e, In e x -> cmp e t <> Eq).
  Proof.
    intros Hs. pose proof (search_unique_sound x t Hs) as H. split.
    - intros Hr e Hin. rewrite Hr in H. apply In_nth_error in Hin as [k Hk]. exact (H k e Hk).
    - intros Hno. destruct (search_unique cmp x t) as [j|]; [|reflexivity].
      destruct H as [e [Hnth Heq]]. destruct (Hno e (nth_error_In _ _ Hnth) Heq).
  Qed.
End SearchProofs.

(* a strictly increasing slice of numbers (the textbook case) *)
Lemma sorted_for_N (x : list N) (t : N) : StronglySorted N.lt x -> sorted_for N.compare t x.
Proof.
  intros Hs i j ei ej Hij Hi Hj. pose proof (StronglySorted_nth _ _ Hs i j ei ej Hij Hi Hj) as Hlt.
  destruct (N.compare_spec ei t) as [->|H|H]; [right|left; reflexivity|right]; apply N.compare_gt_iff; lia.
Qed.

(* the use in the LSM: tables of a level with disjoint ascending key ranges, Table.RangeKeyCompare *)
Definition ranges_ok (tbls : list (bytes * bytes)) : Prop :=
  Forall (fun tb => bcmp (fst tb) (snd tb) <> Gt) tbls /\ StronglySorted (fun a b => bcmp (snd a) (fst b) = Lt) tbls.
Definition in_range (tb : bytes * bytes) (key : bytes) : Prop := bcmp (fst tb) key <> Gt /\ bcmp (snd tb) key <> Lt.

Lemma range_key_compare_eq tb key : range_key_compare tb key = Eq <-> in_range tb key.
Proof.
  unfold range_key_compare, in_range. destruct (bcmp (fst tb) key), (bcmp (snd tb) key); split; intros H;
    first [reflexivity | discriminate H | (split; discriminate) | (destruct H as [H1 H2]; congruence)].
Qed.

Lemma bcmp_gt_lt a b : bcmp a b = Gt <-> bcmp b a = Lt.
Proof. rewrite (bcmp_antisym a b). destruct (bcmp a b); cbn; split; congruence. Qed.

Lemma bcmp_le_lt_trans a b c : bcmp a b <> Gt -> bcmp b c = Lt -> bcmp a c = Lt.
Proof.
  destruct (bcmp_spec a b) as [->|E|E]; intros Hab Hbc; [exact Hbc | exact (bcmp_lt_trans _ _ _ E Hbc) | congruence].
Qed.

Lemma sorted_for_ranges tbls key : ranges_ok tbls -> sorted_for range_key_compare key tbls.
Proof.
  intros [Hwf Hs] i j ei ej Hij Hi Hj.
  pose proof (StronglySorted_nth _ _ Hs i j ei ej Hij Hi Hj) as Hlt.   (* end_i < start_j *)
  pose proof (proj1 (Forall_forall _ _) Hwf ei (nth_error_In _ _ Hi)) as Hwi.   (* start_i <= end_i *)
  cbn beta in Hlt, Hwi. unfold range_key_compare.
  (* unless start_j is above the key, end_i < start_j <= key, and start_i with it *)
  destruct (bcmp_spec (fst ej) key) as [<-|E|E]; [left | left | right; reflexivity].
  - rewrite (bcmp_le_lt_trans _ _ _ Hwi Hlt), Hlt. reflexivity.
  - pose proof (bcmp_lt_trans _ _ _ Hlt E) as He. rewrite (bcmp_le_lt_trans _ _ _ Hwi He), He. reflexivity.
Qed.
