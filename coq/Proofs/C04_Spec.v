(* C04: what "operator i receives exactly the sub-sequence of the ideal stream routed to it" means for
   records, keys, splits and markers; the in-order instance of the reorder stage. *)
From Coq Require Import List NArith Bool Arith Lia.
Import ListNotations.
From RV Require Import Model.RunnerPipe Proofs.C04_RunnerPipe.
From RV Require Import Base.Lists.

Lemma marker_eq_dec : forall a b : marker, {a = b} + {a <> b}.
Proof. decide equality. apply N.eq_dec. Qed.
Lemma kev_eq_dec : forall a b : kev, {a = b} + {a <> b}.
Proof. decide equality; [apply N.eq_dec|apply list_eq_dec, N.eq_dec]. Qed.
Lemma ev_eq_dec : forall a b : ev, {a = b} + {a <> b}.
Proof. decide equality; [apply kev_eq_dec|apply N.eq_dec|apply marker_eq_dec]. Qed.

Lemma count_filter : forall (P : ev -> bool) l e,
  count_occ ev_eq_dec (filter P l) e = if P e then count_occ ev_eq_dec l e else 0.
Proof.
  intros P l e. induction l as [|a l IH]; cbn [filter count_occ].
  - destruct (P e); reflexivity.
  - destruct (P a) eqn:Pa; cbn [count_occ]; destruct (ev_eq_dec a e) as [->|Hne].
    + rewrite IH, Pa. reflexivity.
    + exact IH.
    + rewrite IH, Pa. reflexivity.
    + exact IH.
Qed.

Section SpecFacts.
  Variable kb : N -> list kev.
  Variable route : list N -> nat.
  Variable nops : nat.
  Variable input : list item.
  Variable split_of : N -> N.

  (* selects the keyed events with key k of the records of split sp (no marker): the filter under which exact_ordered_at
     states that a split's order is kept *)
  Definition same_split_key (sp : N) (k : list N) (e : ev) : bool :=
    match e with
    | EK x kv => N.eqb (split_of x) sp && (if list_eq_dec N.eq_dec (fst kv) k then true else false)
    | EM _ => false
    end.

  (* A stream [d] that equals the sub-sequence routed to operator i has every property the text asks for. *)
  Definition exact_ordered_at (i : nat) (d : list ev) : Prop :=
    (* every keyed event of a record whose key the router maps to i: exactly as often as the key-by function
       produced it (once per produced event), and no keyed event of any other key *)
    (forall x kv, count_occ ev_eq_dec d (EK x kv) =
                  if Nat.eqb (route (fst kv)) i then count_occ ev_eq_dec (ideal kb input) (EK x kv) else 0) /\
    (* every marker, as often as it was read *)
    (forall m, count_occ ev_eq_dec d (EM m) = count_occ ev_eq_dec (ideal kb input) (EM m)) /\
    (* same split and same key: the order in which the split produced them (any key routed to i) *)
    (forall sp k, route k = i -> filter (same_split_key sp k) d = filter (same_split_key sp k) (ideal kb input)) /\
    (* a marker read after [pre] and before [post] sits exactly between the events of [pre] and of [post] that are
       routed to i: it overtakes no earlier record and no later record overtakes it *)
    (forall pre m post, ideal kb input = pre ++ EM m :: post ->
                        d = filter (sel route i) pre ++ EM m :: filter (sel route i) post).

  Lemma expected_exact_ordered : forall i, exact_ordered_at i (expected kb route input i).
  Proof.
    intro i. unfold exact_ordered_at, expected. repeat split.
    - intros x kv. rewrite count_filter. reflexivity.
    - intros m. rewrite count_filter. reflexivity.
    - intros sp k Hk. apply filter_filter_imp. intros e He. destruct e as [x kv|m]; [|discriminate].
      unfold same_split_key in He. apply andb_true_iff in He. destruct He as [_ He].
      destruct (list_eq_dec N.eq_dec (fst kv) k) as [Hkv|]; [|discriminate]. unfold sel. rewrite Hkv, Hk. apply Nat.eqb_refl.
    - intros pre m post H. rewrite H, filter_app. reflexivity.
  Qed.

  (* ... and, over all operators: every keyed event at exactly one operator *)
  Lemma one_operator : (forall k, route k < nops) ->
    forall x kv, exists i, i < nops /\
      count_occ ev_eq_dec (expected kb route input i) (EK x kv) = count_occ ev_eq_dec (ideal kb input) (EK x kv) /\
      forall j, j <> i -> count_occ ev_eq_dec (expected kb route input j) (EK x kv) = 0.
  Proof.
    intros Hlt x kv. exists (route (fst kv)). split; [apply Hlt|]. unfold expected. split.
    - rewrite count_filter. cbn. now rewrite Nat.eqb_refl.
    - intros j Hj. rewrite count_filter. cbn.
      destruct (Nat.eqb (route (fst kv)) j) eqn:E; [apply Nat.eqb_eq in E; congruence|reflexivity].
  Qed.
End SpecFacts.

Section BatchedStage.
  Variable kb : N -> list kev.
  Variable mx : nat.
  Variable delay : bool.
  Let R := batched_stage kb mx delay.

  Lemma batched_inv : forall tr r, rrun R tr r ->
    map kb (ladds R tr) = louts R tr ++ snd r ++ map kb (fst r).
  Proof.
    intros tr r H. induction H as [|tr r x r' H IH Eadd|tr r r' H IH Eflush|tr r a r' H IH Eint|tr r res r' H IH Eout];
      [reflexivity|rewrite ladds_snoc, louts_snoc, ?app_nil_r, ?map_app, IH..].
    - injection Eadd as <-. destruct (mx <=? _); cbn; rewrite ?map_app, <- !app_assoc, ?app_nil_r; reflexivity.
    - injection Eflush as <-. cbn. now rewrite app_nil_r.
    - cbn in Eint. destruct delay; [|discriminate]. destruct (fst r) eqn:Ef; [discriminate|]. injection Eint as <-.
      unfold bs_flush. cbn. now rewrite Ef, app_nil_r.
    - cbn in Eout. destruct (snd r) eqn:Es; [discriminate|]. injection Eout as <- <-. cbn. now rewrite <- !app_assoc.
  Qed.
End BatchedStage.
