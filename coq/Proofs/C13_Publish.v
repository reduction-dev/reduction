(* C13, publication: for EVERY schedule of the steps of Model/Publish.v (any number of overlapping publications,
   any order of write / locked update / remove / notifier steps, crashes anywhere) the snapshot file of the
   newest checkpoint ever written is in storage, a restart loads exactly it, and the retained-id notifications
   are received in strictly increasing order: the invariants [KS] (storage and the ledger of ids) and [NS] (the
   notifiers), kept by every step kind ([reach]); Props/C13.v reads its statement off the two.  Then, on their own:
   [cur_id] and its monotonicity within a store lifetime (the statement of Props/C12.v about overlapping publications),
   the witnesses for the unguarded code (D17; Props/C13.v evaluates [d17_schedule]), and the operator side of retention ([retain_only], [retain_run]). *)
From RV Require Import Base.Bytes Model.PathSeg Model.Publish Proofs.C13_PathSeg.
From RV Require Import Base.Lists.
From Coq Require Import ZifyN ZifyNat ZifyBool.
Open Scope N_scope.

Lemma mem_In x l : mem x l = true <-> In x l.
Proof. apply (existsb_eqb_In N.eqb N.eqb_eq). Qed.

Lemma In_remove_id x n l : In x (remove_id n l) <-> In x l /\ x <> n.
Proof. unfold remove_id. rewrite filter_In, negb_true_iff, N.eqb_neq. reflexivity. Qed.

Lemma In_remove_ids x ids l : In x (remove_ids ids l) <-> In x l /\ ~ In x ids.
Proof. unfold remove_ids. rewrite filter_In, negb_true_iff, <- not_true_iff_false, mem_In. reflexivity. Qed.

(* an id that no publication in flight carries any more, and that is not handed out again in this lifetime *)
Definition retired (s : pstate) (x : N) : Prop := ~ In x (inflW s) /\ ~ In x (inflU s) /\ x <= last s.

(* a notification for [x] is received, held or waiting *)
Definition notif_ids (s : pstate) (x : N) : Prop := In x (received s) \/ nhold s = Some x \/ In x (nwait s).

(* Storage and the ledger of ids.  [k_files], [k_newest]: every file was written, and the newest id ever written has
   its file; [k_rm]: a spawned Remove names only older ids; [k_ok]: written ids fit 64 bits (their names decode);
   [k_W], [k_U]: an id in flight before / after its write was handed out in this lifetime, and is in one of the two
   lists only; [k_done]: a completed or announced id is [retired] - so an id passes Start, W, U once per lifetime. *)
Record KS (s : pstate) : Prop := MkKS {
  k_files : forall f, In f (files s) -> In f (written s);
  k_newest : written s = [] \/ In (list_max (written s)) (files s);
  k_rm : forall ids i, In ids (pend_rm s) -> In i ids -> i < list_max (written s);
  k_ok : forall x, In x (written s) -> x <= max64;
  k_W : forall n, In n (inflW s) -> n <= last s /\ n <= max64 /\ ~ In n (inflU s);
  k_U : forall n, In n (inflU s) -> n <= last s /\ In n (written s);
  k_done : forall x, In x (completed s) \/ notif_ids s x -> retired s x /\ In x (written s) }.
(* the state comes from the goal, so that a field of [KS s] can be given for a state that differs from [s] only in
   fields the invariant's clause does not read *)
Arguments MkKS s & _ _ _ _ _ _ _.

(* what LoadCheckpoint (repaired) returns on the storage of a state satisfying the invariant *)
Lemma load_of_KS s : KS s ->
  load false (files s) = match written s with [] => None | _ => Some (list_max (written s)) end.
Proof.
  intros K. destruct (k_newest s K) as [E|Hm].
  - rewrite E. destruct (files s) as [|f l] eqn:Ef; [reflexivity|].
    assert (H : In f (written s)) by (apply (k_files s K); rewrite Ef; left; reflexivity).
    rewrite E in H. destruct H.
  - assert (Hf : files s <> []) by (intros E; rewrite E in Hm; exact Hm).
    assert (Hw := k_files s K _ Hm).
    rewrite load_picks_max_lemma; [|exact Hf|apply Forall_forall; intros x Hx; apply (k_ok s K), (k_files s K), Hx].
    replace (list_max (files s)) with (list_max (written s)); [destruct (written s); [destruct Hw|reflexivity]|].
    apply N.le_antisymm; apply list_max_ge; [exact Hm|apply (k_files s K), list_max_In, Hf].
Qed.

(* a store right after a start: nothing in flight, no Remove spawned, no notifier *)
Definition quiet_state (fs c : list N) (l : N) (w r : list N) : pstate :=
  {| files := fs; completed := c; last := l; inflW := []; inflU := []; pend_rm := []; nwait := []; nhold := None;
     written := w; received := r |}.

Lemma KS_quiet fs c l w r :
  (forall f, In f fs -> In f w) -> (w = [] \/ In (list_max w) fs) -> (forall x, In x w -> x <= max64) ->
  (forall x, In x c \/ In x r -> x <= l /\ In x w) -> KS (quiet_state fs c l w r).
Proof.
  intros Hfiles Hnewest Hok Hdone.
  refine {| k_files := Hfiles; k_newest := Hnewest; k_ok := Hok; k_done := _ |}; try (cbn; easy).
  intros x Hx. destruct (Hdone x) as [Hlast Hwr]; [destruct Hx as [Hx|[Hx|[[=]|[]]]]; auto|]. repeat split; auto.
Qed.

Lemma crash_state s : KS s ->
  exec1 prepaired s Crash =
  quiet_state (files s) (match written s with [] => [] | _ => [list_max (written s)] end) (list_max (written s))
              (written s) (received s).
Proof.
  intros K. unfold exec1. cbn [load_first_listed prepaired]. rewrite (load_of_KS s K).
  destruct (written s); reflexivity.
Qed.

Lemma not_superseded n l c : existsb (fun c => n <? c) l = false -> In c l -> c <= n.
Proof.
  intros E Hc. apply N.ltb_ge. destruct (n <? c) eqn:Ec; [|reflexivity].
  rewrite <- E. symmetry. apply existsb_exists. exists c. split; assumption.
Qed.

(* n is above every id in use *)
Lemma KS_Start s n : KS s -> KS (exec1 prepaired s (Start n)).
Proof.
  intros K. unfold exec1. destruct ((last s <? n) && (n <=? max64)) eqn:E; [|exact K]. apply andb_prop in E.
  refine {| k_files := k_files s K; k_newest := k_newest s K; k_rm := k_rm s K; k_ok := k_ok s K;
            k_W := ?[W]; k_U := ?[U]; k_done := ?[done] |}; cbn [last inflW inflU written].
  [W]: { intros m [Hm| <-]%in_snoc; [apply (k_W s K) in Hm; intuition lia|].
    repeat split; try lia. intros Hn%(k_U s K). lia. }
  [U]: { intros m Hm%(k_U s K). intuition lia. }
  [done]: { intros x [(HnW & HnU & Hlast) Hwr]%(k_done s K). split; [|exact Hwr].
    split; [intros [H| <-]%in_snoc; [exact (HnW H)|lia]|split; [exact HnU|cbn [last]; lia]]. }
Qed.

Lemma KS_W s n : KS s -> KS (exec1 prepaired s (W n)).
Proof.
  intros K. unfold exec1. destruct (mem n (inflW s)) eqn:E; [|exact K]. apply mem_In in E.
  destruct (k_W s K n E) as (Hlast & Hmax & HnU).
  refine {| k_files := ?[files]; k_newest := ?[newest]; k_rm := ?[rm]; k_ok := ?[ok]; k_W := ?[W]; k_U := ?[U];
            k_done := ?[done] |}; cbn [files last inflW inflU pend_rm written].
  [files]: { intros f [<-|[Hf _]%In_remove_id]; [left; reflexivity|right; exact (k_files s K f Hf)]. }
  [newest]: { (* the newest file so far stays unless n is newer *)
    rewrite list_max_cons. right. destruct (N.max_spec n (list_max (written s))) as [[Hlt ->]|[_ ->]]; [right|left; reflexivity].
    apply In_remove_id. destruct (k_newest s K) as [Hw|Hw]; [rewrite Hw in Hlt; cbn in Hlt|]; split; try lia. exact Hw. }
  [rm]: { rewrite list_max_cons. intros ids i Hids Hi. pose proof (k_rm s K ids i Hids Hi). lia. }
  [ok]: { intros x [<-|Hx]; [exact Hmax|exact (k_ok s K x Hx)]. }
  [W]: { intros m [Hm Hne]%In_remove_id. rewrite in_snoc. apply (k_W s K) in Hm. intuition. }
  [U]: { intros m [Hm| <-]%in_snoc; [apply (k_U s K) in Hm; intuition|]. split; [exact Hlast|left; reflexivity]. }
  [done]: { intros x [(HxW & HxU & Hxlast) Hwr]%(k_done s K). split; [|right; exact Hwr].
    split; [intros [H _]%In_remove_id; exact (HxW H)|].
    split; [intros [H| <-]%in_snoc; [exact (HxU H)|exact (HxW E)]|exact Hxlast]. }
Qed.

Lemma KS_U s n : KS s -> KS (exec1 prepaired s (U n)).
Proof.
  intros K. unfold exec1. destruct (mem n (inflU s)) eqn:E; [|exact K]. apply mem_In in E.
  cbn [no_id_guard prepaired negb andb].
  destruct (k_U s K n E) as [Hlast Hwr].
  refine {| k_files := k_files s K; k_newest := k_newest s K; k_ok := k_ok s K;
            k_rm := ?[rm]; k_W := ?[W]; k_U := ?[U]; k_done := ?[done] |}; cbn [last inflW inflU pend_rm written].
  [rm]: { (* the ids handed to Remove are older than n, whose file is written *)
    intros ids i Hids Hi. destruct (negb (is_nil (completed s)) && negb _) eqn:Ec; [|exact (k_rm s K ids i Hids Hi)].
    apply in_snoc in Hids as [Hids| <-]; [exact (k_rm s K ids i Hids Hi)|]. apply andb_prop in Ec as [_ Esup%negb_true_iff].
    assert (i <= n) by (eapply not_superseded; eassumption).
    assert (i <> n) by (intros ->; destruct (k_done s K n (or_introl Hi)) as [(_ & HnU & _) _]; exact (HnU E)).
    apply list_max_ge in Hwr. lia. }
  [W]: { intros m (Hmlast & Hmax & HmU)%(k_W s K). split; [exact Hmlast|split; [exact Hmax|intros [H _]%In_remove_id; exact (HmU H)]]. }
  [U]: { intros m [Hm _]%In_remove_id. exact (k_U s K m Hm). }
  [done]: { (* if not superseded, n is completed and may get a notifier; what was completed or notified stays retired *)
    intros x Hx. assert (Hx' : n = x \/ In x (completed s) \/ notif_ids s x).
    { unfold notif_ids in *. cbn [nwait nhold received completed] in Hx.
      destruct (existsb _ (completed s)), (is_nil (completed s)); cbn [negb andb] in Hx; rewrite ?in_snoc in Hx; cbn [In] in Hx; tauto. }
    destruct Hx' as [<-|[(HxW & HxU & Hxlast) Hxwr]%(k_done s K)].
    + split; [|exact Hwr]. split; [intros H%(k_W s K); tauto|split; [intros [_ H]%In_remove_id; exact (H eq_refl)|exact Hlast]].
    + split; [|exact Hxwr]. split; [exact HxW|split; [intros [H _]%In_remove_id; exact (HxU H)|exact Hxlast]]. }
Qed.

(* the call names only ids below the newest *)
Lemma KS_R s k : KS s -> KS (exec1 prepaired s (R k)).
Proof.
  intros K. unfold exec1. destruct (nth_error (pend_rm s) k) as [ids|] eqn:E; [|exact K]. apply nth_error_In in E.
  refine {| k_files := ?[files]; k_newest := ?[newest]; k_rm := ?[rm];
            k_ok := k_ok s K; k_W := k_W s K; k_U := k_U s K; k_done := k_done s K |}; cbn [files pend_rm written].
  [files]: { intros f [Hf _]%In_remove_ids. exact (k_files s K f Hf). }
  [newest]: { destruct (k_newest s K) as [Hw|Hw]; [left; exact Hw|right]. apply In_remove_ids. split; [exact Hw|].
    intros Hi. pose proof (k_rm s K ids _ E Hi). lia. }
  [rm]: { intros ids' i Hids%In_drop_at. exact (k_rm s K ids' i Hids). }
Qed.

Lemma KS_TL s k : KS s -> KS (exec1 prepaired s (TL k)).
Proof.
  intros K. unfold exec1. destruct (nhold s); [exact K|].
  destruct (nth_error (nwait s) k) as [n|] eqn:E; [|exact K]. apply nth_error_In in E.
  refine {| k_files := k_files s K; k_newest := k_newest s K; k_rm := k_rm s K; k_ok := k_ok s K;
            k_W := k_W s K; k_U := k_U s K; k_done := _ |}.
  intros x Hx. apply (k_done s K). unfold notif_ids in *. cbn [nwait nhold received completed] in Hx.
  destruct Hx as [Hx|[Hx|[Hx|Hx%In_drop_at]]]; auto. destruct (_ || _); [injection Hx as <-; auto|discriminate].
Qed.

Lemma KS_TR s : KS s -> KS (exec1 prepaired s TR).
Proof.
  intros K. unfold exec1. destruct (nhold s) as [h|] eqn:E; [|exact K].
  refine {| k_files := k_files s K; k_newest := k_newest s K; k_rm := k_rm s K; k_ok := k_ok s K;
            k_W := k_W s K; k_U := k_U s K; k_done := _ |}.
  intros x Hx. apply (k_done s K). unfold notif_ids in *. cbn [nwait nhold received completed] in Hx. rewrite in_snoc in Hx.
  destruct Hx as [Hx|[[Hx| <-]|[[=]|Hx]]]; auto.
Qed.

(* what was received is written, hence not above the checkpoint loaded *)
Lemma KS_Crash s : KS s -> KS (exec1 prepaired s Crash).
Proof.
  intros K. rewrite (crash_state s K). apply KS_quiet; try apply K. intros x Hx.
  assert (Hw : In x (written s)).
  { destruct Hx as [Hx|Hx]; [|apply (k_done s K); right; left; exact Hx].
    destruct (written s); [destruct Hx|destruct Hx as [<-|[]]]. apply list_max_In. discriminate. }
  split; [apply list_max_ge|]; exact Hw.
Qed.

(* the savepoint was written *)
Lemma KS_Rewind s sp : KS s -> KS (exec1 prepaired s (Rewind sp)).
Proof.
  intros K. unfold exec1. destruct (mem sp (written s)) eqn:E; [|exact K]. apply mem_In in E.
  apply (KS_quiet (files s) [sp] sp (written s) []); try apply K. intros x [[<-|[]]|[]]. split; [lia|exact E].
Qed.

Lemma KS_WFail s n : KS s -> KS (exec1 prepaired s (WFail n)).
Proof.
  intros K. unfold exec1. destruct (mem n (inflW s)); [|exact K].
  refine {| k_files := k_files s K; k_newest := k_newest s K; k_rm := k_rm s K; k_ok := k_ok s K; k_U := k_U s K;
            k_W := ?[W]; k_done := ?[done] |}; cbn [inflW].
  [W]: { intros m [Hm _]%In_remove_id. exact (k_W s K m Hm). }
  [done]: { intros x [(HxW & HxU & Hxlast) Hwr]%(k_done s K). split; [|exact Hwr].
    split; [intros [H _]%In_remove_id; exact (HxW H)|split; assumption]. }
Qed.

Lemma KS_step s st : KS s -> KS (exec1 prepaired s st).
Proof.
  intros K. destruct st as [n|n|n|k|k| | |sp|n];
    [apply KS_Start|apply KS_W|apply KS_U|apply KS_R|apply KS_TL|apply KS_TR|apply KS_Crash|apply KS_Rewind|apply KS_WFail];
    exact K.
Qed.

(* the storage before the first start: it holds the snapshot of checkpoint [base], or nothing *)
Lemma KS_pre base : base <= max64 ->
  KS (quiet_state (if base =? 0 then [] else [base]) [] 0 (if base =? 0 then [] else [base]) []).
Proof.
  intros Hb. destruct (base =? 0); apply KS_quiet; cbn; try easy; try tauto.
  - right. left. lia.
  - intros x [<-|[]]. exact Hb.
Qed.

(* the checkpoint used for recovery; within a store lifetime it never goes back *)
Definition cur_id (s : pstate) : N := list_max (completed s).

Lemma cur_monotone_step s st :
  match st with Crash | Rewind _ => True | _ => cur_id s <= cur_id (exec1 prepaired s st) end.
Proof.
  (* only U changes [completed] *)
  destruct st as [n|n|n|k|k| | |sp|n]; unfold exec1, cur_id.
  - (* Start *) destruct ((last s <? n) && (n <=? max64)); cbn [completed]; lia.
  - (* W *) destruct (mem n (inflW s)); cbn [completed]; lia.
  - (* U *) destruct (mem n (inflU s)); [|lia]. cbn [no_id_guard prepaired negb andb].
    destruct (existsb (fun c => n <? c) (completed s)) eqn:Esup; cbn [completed]; [lia|].
    (* not superseded: nothing completed is newer than n *)
    rewrite list_max_cons. assert (list_max (completed s) <= n) by (apply list_max_le; intros c; apply not_superseded, Esup). lia.
  - (* R *) destruct (nth_error (pend_rm s) k); cbn [completed]; lia.
  - (* TL *) destruct (nhold s); [lia|]. destruct (nth_error (nwait s) k); cbn [completed]; lia.
  - (* TR *) destruct (nhold s); cbn [completed]; lia.
  - (* Crash *) exact I.
  - (* Rewind *) exact I.
  - (* WFail *) destruct (mem n (inflW s)); cbn [completed]; lia.
Qed.

(* strictly increasing: every element is below all later ones *)
Fixpoint incr (l : list N) : Prop :=
  match l with [] => True | x :: l' => (forall y, In y l' -> x < y) /\ incr l' end.

Lemma incr_snoc l h : incr l -> (forall r, In r l -> r < h) -> incr (l ++ [h]).
Proof.
  induction l as [|x l IH]; intros Hi Hh; cbn [app incr]; [easy|]. destruct Hi as [H1 H2]. split.
  - intros y [Hy| <-]%in_snoc; [exact (H1 y Hy)|apply Hh; left; reflexivity].
  - apply IH; [exact H2|]. intros r Hr. apply Hh. right. exact Hr.
Qed.

Lemma single_last (l : list N) n : (length l <= 1)%nat -> last_of l = Some n -> l = [n].
Proof.
  destruct l as [|x [|y l]]; cbn; intros H E; try discriminate; [inversion E; reflexivity|lia].
Qed.

(* The notifiers' side speaks of four fields only: completedSnapshots [c], the notifiers waiting for the lock [w],
   the one holding it [h], the notifications received [r].  Steps that leave them alone keep it by conversion.
   [n_len]: completedSnapshots has at most one element, so the [last_of] that TL tests is its maximum; [n_recv_le],
   [n_hold]: received and held ids are not above the current checkpoint, the held one above everything received;
   [n_fresh], [n_nodup]: the id of a waiting notifier is neither received nor held, and waits once - so the notifier
   that TL lets through exceeds everything received. *)
Record NSf (c w : list N) (h : option N) (r : list N) : Prop := MkNS {
  n_len : (length c <= 1)%nat;
  n_sorted : incr r;
  n_recv_le : forall x, In x r -> x <= list_max c;
  n_hold : forall x, h = Some x -> (forall y, In y r -> y < x) /\ x <= list_max c;
  n_fresh : forall n, In n w -> ~ In n r /\ h <> Some n;
  n_nodup : NoDup w }.

Arguments MkNS c w h r & _ _ _ _ _ _.
Arguments n_len {c w h r}.
Arguments n_sorted {c w h r}.
Arguments n_recv_le {c w h r}.
Arguments n_hold {c w h r}.
Arguments n_fresh {c w h r}.
Arguments n_nodup {c w h r}.

Definition NS (s : pstate) : Prop := NSf (completed s) (nwait s) (nhold s) (received s).

(* if not superseded, n becomes the current checkpoint; it is newer than the one before and has no notification yet *)
Lemma NS_U s n : KS s -> NS s -> NS (exec1 prepaired s (U n)).
Proof.
  intros K Nn. unfold exec1. destruct (mem n (inflU s)) eqn:E; [|exact Nn]. apply mem_In in E.
  cbn [no_id_guard prepaired negb andb].
  destruct (existsb (fun c => n <? c) (completed s)) eqn:Esup; cbn [negb]; rewrite ?andb_false_r, ?andb_true_r; [exact Nn|].
  assert (Hcur : list_max (completed s) <= n) by (apply list_max_le; intros c; apply not_superseded, Esup).
  assert (Hn : ~ notif_ids s n) by (intros [(_ & HnU & _) _]%(fun H => k_done s K n (or_intror H)); exact (HnU E)).
  unfold notif_ids in Hn.
  refine {| n_sorted := n_sorted Nn; n_len := ?[len]; n_recv_le := ?[recv_le]; n_hold := ?[hold]; n_fresh := ?[fresh];
            n_nodup := ?[nodup] |}; cbn [completed nwait nhold received].
  [len]: { cbn. lia. }
  [recv_le]: { intros r Hr%(n_recv_le Nn). cbn. lia. }
  [hold]: { intros h [Hrecv Hle]%(n_hold Nn). split; [exact Hrecv|cbn; lia]. }
  [fresh]: { intros m Hm. destruct (is_nil (completed s)); cbn [negb] in Hm; [exact (n_fresh Nn m Hm)|].
    apply in_snoc in Hm as [Hm| <-]; [exact (n_fresh Nn m Hm)|tauto]. }
  [nodup]: { destruct (is_nil (completed s)); cbn [negb]; [exact (n_nodup Nn)|]. apply NoDup_snoc; [exact (n_nodup Nn)|tauto]. }
Qed.

(* the notifier goes on only if n is still the current checkpoint *)
Lemma NS_TL s k : NS s -> NS (exec1 prepaired s (TL k)).
Proof.
  intros Nn. unfold exec1. destruct (nhold s) as [h0|] eqn:Eh; [exact Nn|].
  destruct (nth_error (nwait s) k) as [n|] eqn:En; [|exact Nn].
  cbn [no_id_guard prepaired orb].
  assert (Hn : In n (nwait s)) by (eapply nth_error_In; exact En).
  destruct (NoDup_drop_at _ _ _ (n_nodup Nn) En) as [Hnodup Hgone].
  assert (V : forall h, (if match last_of (completed s) with Some c => c =? n | None => false end then Some n else None) = Some h ->
                        h = n /\ list_max (completed s) = n).
  { destruct (last_of (completed s)) as [c|] eqn:Ec; [|discriminate]. destruct (N.eqb_spec c n) as [->|]; [|discriminate].
    intros h [= <-]. rewrite (single_last _ _ (n_len Nn) Ec). cbn. lia. }
  refine {| n_len := n_len Nn; n_sorted := n_sorted Nn; n_recv_le := n_recv_le Nn; n_nodup := Hnodup;
            n_hold := ?[hold]; n_fresh := ?[fresh] |}; cbn [completed nwait nhold received].
  [hold]: { intros h [-> Hc]%V. split; [|lia]. intros r Hr. pose proof (n_recv_le Nn r Hr).
    assert (r <> n) by (intros ->; exact (proj1 (n_fresh Nn n Hn) Hr)). lia. }
  [fresh]: { intros m Hm. split; [exact (proj1 (n_fresh Nn m (In_drop_at _ _ _ Hm)))|]. intros [-> _]%V. exact (Hgone Hm). }
Qed.

Lemma NS_TR s : NS s -> NS (exec1 prepaired s TR).
Proof.
  intros Nn. unfold exec1. destruct (nhold s) as [h|] eqn:Eh; [|exact Nn].
  destruct (n_hold Nn h Eh) as [Hrecv Hle].
  refine {| n_len := n_len Nn; n_nodup := n_nodup Nn; n_sorted := ?[sorted]; n_recv_le := ?[recv_le]; n_hold := ?[hold];
            n_fresh := ?[fresh] |}; cbn [completed nwait nhold received].
  [sorted]: { apply incr_snoc; [exact (n_sorted Nn)|exact Hrecv]. }
  [recv_le]: { intros r [Hr| <-]%in_snoc; [exact (n_recv_le Nn r Hr)|exact Hle]. }
  [hold]: { discriminate. }
  [fresh]: { intros m Hm. destruct (n_fresh Nn m Hm) as [Hnr Hnh]. split; [|discriminate].
    intros [Hr| <-]%in_snoc; [exact (Hnr Hr)|exact (Hnh Eh)]. }
Qed.

(* what was received is written, hence not above the checkpoint loaded *)
Lemma NS_Crash s : KS s -> NS s -> NS (exec1 prepaired s Crash).
Proof.
  intros K Nn. rewrite (crash_state s K).
  refine {| n_sorted := n_sorted Nn; n_nodup := NoDup_nil N; n_len := ?[len]; n_recv_le := ?[recv_le]; n_hold := ?[hold];
            n_fresh := ?[fresh] |}; cbn [quiet_state completed nwait nhold received].
  [len]: { destruct (written s); cbn; lia. }
  [recv_le]: { intros x Hx. assert (Hw : In x (written s)) by (apply (k_done s K); right; left; exact Hx).
    apply list_max_ge in Hw as Hle. destruct (written s); [destruct Hw|]. cbn [list_max fold_right] in *. lia. }
  [hold]: { discriminate. }
  [fresh]: { intros n []. }
Qed.

(* new subscribers, nothing received yet *)
Lemma NS_Rewind s sp : NS s -> NS (exec1 prepaired s (Rewind sp)).
Proof.
  intros Nn. unfold exec1. destruct (mem sp (written s)); [|exact Nn]. constructor; cbn; try easy. constructor.
Qed.

Lemma NS_step s st : KS s -> NS s -> NS (exec1 prepaired s st).
Proof.
  intros K Nn. destruct st as [n|n|n|k|k| | |sp|n].
  - (* Start *) unfold exec1. destruct ((last s <? n) && (n <=? max64)); exact Nn.
  - (* W *) unfold exec1. destruct (mem n (inflW s)); exact Nn.
  - (* U *) apply NS_U; assumption.
  - (* R *) unfold exec1. destruct (nth_error (pend_rm s) k); exact Nn.
  - (* TL *) apply NS_TL, Nn.
  - (* TR *) apply NS_TR, Nn.
  - (* Crash *) apply NS_Crash; assumption.
  - (* Rewind *) apply NS_Rewind, Nn.
  - (* WFail *) unfold exec1. destruct (mem n (inflW s)); exact Nn.
Qed.

Lemma reach base sched : base <= max64 ->
  let s := exec prepaired (boot prepaired base) sched in KS s /\ NS s.
Proof.
  intros Hb. apply (fold_left_inv (exec1 prepaired) (fun s => KS s /\ NS s)).
  - intros s st [K Nn]. split; [apply KS_step|apply NS_step]; assumption.
  - (* [boot] is the Crash step (the start of a Store) from the storage before it: the step lemmas apply *)
    pose proof (KS_pre base Hb) as K. split; [apply KS_step, K|]. apply NS_step; [exact K|].
    constructor; cbn; try easy; [lia|constructor].
Qed.

(* the code before the repair of D17 (no id guard) *)
Definition d17_schedule : list pstep :=
  [Start 1; W 1; U 1; Start 2; Start 3; W 3; U 3; W 2; U 2; R 1; TL 0; TR; TL 0; TR].

Lemma d17_witness :
  let s := exec (MkPQ false true) (boot (MkPQ false true) 0) d17_schedule in
  list_max (written s) = 3 /\ files s = [2; 1] /\ received s = [3; 2] /\ completed s = [2].
Proof. vm_compute. repeat split. Qed.

(* D17 / seeded C12r3-3: without the guard the current checkpoint goes back from 3 to 2 *)
Lemma current_goes_back_unguarded :
  let s := exec (MkPQ false true) (boot (MkPQ false true) 0) [Start 1; W 1; U 1; Start 2; Start 3; W 3; U 3; W 2] in
  cur_id s = 3 /\ cur_id (exec1 (MkPQ false true) s (U 2)) = 2.
Proof. vm_compute. split; reflexivity. Qed.

Lemma retain_only_keeps_newest_lemma n l : In n l -> In (list_max l) (retain_only [n] l).
Proof.
  intros Hn. apply filter_In. split; [apply list_max_In; intros E; rewrite E in Hn; exact Hn|].
  apply list_max_ge in Hn. unfold mem. cbn [existsb is_nil negb andb]. rewrite list_max_cons. cbn [list_max fold_right]. fold (list_max l). lia.
Qed.

Lemma retain_only_sub ids l x : In x (retain_only ids l) -> In x l.
Proof. intros [H _]%filter_In. exact H. Qed.

(* whole notification sequences: whatever the delays, the newest DKV checkpoint taken is the newest still held *)
Lemma retain_run_max steps : forall l next,
  list_max l = next - 1 -> retain_valid l next steps ->
  list_max (retain_run l next steps) = taken next steps.
Proof.
  induction steps as [|[|id] steps IH]; intros l next Hm Hv; cbn [taken retain_run retain_valid] in *; [exact Hm| |].
  - apply IH; [|exact Hv]. rewrite list_max_snoc. lia.
  - destruct Hv as [Hid Hv]. apply IH; [|exact Hv]. rewrite <- Hm. apply N.le_antisymm.
    + apply list_max_le. intros x Hx%retain_only_sub. apply list_max_ge, Hx.
    + apply list_max_ge, retain_only_keeps_newest_lemma, Hid.
Qed.
