(* C16, embedded splitter (sliceu.Partition): every split has exactly one reader, for every split count and
   every runner count >= 1. *)
From Coq Require Import List NArith Bool Lia Permutation PeanoNat.
From RV Require Import Base.Lists Model.Splitters.
Import ListNotations.

Lemma app_at_length {A} : forall (groups : list (list A)) gi x, length (app_at groups gi x) = length groups.
Proof. induction groups as [|g r IH]; intros [|k] x; cbn [app_at length]; auto. Qed.

Lemma app_at_perm {A} : forall (groups : list (list A)) gi x, (gi < length groups)%nat ->
  Permutation (concat (app_at groups gi x)) (x :: concat groups).
Proof.
  induction groups as [|g r IH]; intros gi x H; cbn [length] in H; [lia|]. destruct gi as [|k]; cbn [app_at concat].
  - rewrite <- app_assoc. symmetry. apply Permutation_middle.
  - rewrite (IH k x) by lia. symmetry. apply Permutation_middle.
Qed.

Lemma partition_go_spec {A} : forall (l : list A) gi maxg groups,
  (gi <= maxg)%nat -> (maxg < length groups)%nat ->
  length (partition_go l gi maxg groups) = length groups /\
  Permutation (concat (partition_go l gi maxg groups)) (concat groups ++ l).
Proof.
  induction l as [|x r IH]; intros gi maxg groups Hgi Hmax; cbn [partition_go].
  - rewrite app_nil_r. split; reflexivity.
  - destruct (IH (if Nat.ltb gi maxg then S gi else O) maxg (app_at groups gi x)) as [Hlen Hperm].
    + destruct (Nat.ltb_spec gi maxg); lia.
    + rewrite app_at_length. exact Hmax.
    + rewrite app_at_length in Hlen. split; [exact Hlen|].
      rewrite Hperm, (app_at_perm groups gi x) by lia. apply Permutation_middle.
Qed.

Lemma partition_spec {A} : forall (l : list A) n, (1 <= n)%nat ->
  length (partition l n) = n /\ Permutation (concat (partition l n)) l.
Proof.
  intros l n Hn. unfold partition.
  destruct (partition_go_spec l 0 (n - 1) (repeat [] n)) as [Hlen Hperm]; [lia|rewrite repeat_length; lia|].
  rewrite repeat_length in Hlen. split; [exact Hlen|].
  replace (concat (repeat [] n)) with (@nil A) in Hperm by (clear; induction n; auto). exact Hperm.
Qed.

Lemma in_nth_concat {A} : forall (gs : list (list A)) j x, In x (nth j gs []) -> In x (concat gs).
Proof.
  intros gs j x H. apply in_concat. exists (nth j gs []). split; [|exact H]. apply nth_In.
  destruct (Nat.lt_ge_cases j (length gs)) as [Hlt|Hge]; [exact Hlt|]. rewrite nth_overflow in H by exact Hge. destruct H.
Qed.

Lemma nodup_concat_unique {A} : forall (gs : list (list A)) x j k,
  NoDup (concat gs) -> In x (nth j gs []) -> In x (nth k gs []) -> j = k.
Proof.
  induction gs as [|g r IH]; intros x j k Hnd Hj Hk; [destruct j; destruct Hj|].
  cbn [concat] in Hnd. apply NoDup_app_iff in Hnd as (_ & Hr & Hdis). destruct j as [|j], k as [|k]; cbn [nth] in *.
  - reflexivity.
  - destruct (Hdis x Hj (in_nth_concat r k x Hk)).
  - destruct (Hdis x Hk (in_nth_concat r j x Hj)).
  - f_equal. exact (IH x j k Hr Hj Hk).
Qed.

Open Scope N_scope.

(* round robin over n >= 1 groups: one group per index, and every element of a duplicate-free list in exactly one of them *)
Theorem partition_unique {A} : forall (l : list A) n, NoDup l -> (1 <= n)%nat ->
  length (partition l n) = n /\
  forall x, In x l ->
    exists j, (j < n)%nat /\ In x (nth j (partition l n) []) /\ forall k, In x (nth k (partition l n) []) -> k = j.
Proof.
  intros l n Hnd Hn. destruct (partition_spec l n Hn) as [Hlen Hperm]. split; [exact Hlen|]. intros x Hx.
  apply (Permutation_in _ (Permutation_sym Hperm)), in_concat in Hx as (g & Hg & Hxg).
  destruct (In_nth _ _ [] Hg) as (j & Hj & <-).
  exists j. split; [rewrite <- Hlen; exact Hj|]. split; [exact Hxg|].
  intros k Hk. eapply nodup_concat_unique; [|exact Hk|exact Hxg].
  exact (Permutation_NoDup (Permutation_sym Hperm) Hnd).
Qed.

(* no other split ids are handed out *)
Theorem embedded_only_splits : forall split_count runners j i, (1 <= runners)%nat ->
  In i (nth j (embedded_assign split_count runners) []) -> i < N.of_nat split_count.
Proof.
  intros sc r j i Hr Hin%in_nth_concat. unfold embedded_assign in Hin.
  eapply Permutation_in in Hin; [|apply partition_spec, Hr]. apply In_iota in Hin. lia.
Qed.
