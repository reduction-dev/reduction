(* C19: util/ds/sorted_map.go (Model/SortedMap.v): map + key slice sorted on demand = association list sorted by key.
   [smap_inv] carries the conjunct [NoDup (map fst (m s))]: a Go map has one entry per key, the association list that
   models it needs to be told so (smap_delete_needs_unique_map_keys).
   The reference of a map is sorted by key, has the map's lookups, and is the only such list (smap_ref_unique):
   Set and Delete are proved by comparing lookups. *)
From RV Require Import Base.Lists Base.KeySorted Model.SortedMap.
From Coq Require Import Sorted Permutation.
Open Scope N_scope.

Definition smap_ref (s : smap) : list (bytes * N) :=
  map (fun k => (k, match map_get k (m s) with Some v => v | None => 0%N end)) (sort_keys (keys s)).

Definition smap_inv (s : smap) : Prop :=
  NoDup (keys s) /\ NoDup (map fst (m s)) /\ forall k, In k (keys s) <-> map_get k (m s) <> None.

Lemma sort_keys_cons k l : sort_keys (k :: l) = sort_ins k (sort_keys l).
Proof. reflexivity. Qed.

Theorem sort_keys_perm : forall l, Permutation (sort_keys l) l.
Proof. exact (sort_by_perm bleb). Qed.

Lemma sort_keys_in l x : In x (sort_keys l) <-> In x l.
Proof. exact (In_sort_by bleb x l). Qed.

(* only for a new key: where k is present sort_ins adds a second copy and kput replaces *)
Lemma sort_ins_kput k l : ~ In k l -> sort_ins k l = kput (fun x => x) k l.
Proof.
  induction l as [|x l IH]; cbn [sort_ins kput In]; [reflexivity|]. intros Hni. unfold bleb.
  destruct (bcmp_spec k x) as [->|E|E]; [tauto | reflexivity | f_equal; tauto].
Qed.

Theorem sort_keys_sorted : forall l, NoDup l -> StronglySorted (fun a b => bcmp a b = Lt) (sort_keys l).
Proof.
  induction 1 as [|k l Hni Hnd IH]; [constructor|].
  rewrite sort_keys_cons, sort_ins_kput by (rewrite sort_keys_in; exact Hni). apply (kput_ssorted (fun x => x)), IH.
Qed.

Lemma sort_keys_same_set l1 l2 :
  NoDup l1 -> NoDup l2 -> (forall x, In x l1 <-> In x l2) -> sort_keys l1 = sort_keys l2.
Proof.
  intros H1 H2 Hiff. apply (ssorted_unique (fun x => x)); try (apply sort_keys_sorted; assumption).
  intros x. rewrite !sort_keys_in. apply Hiff.
Qed.

Theorem sort_keys_sorted_id : forall l, StronglySorted (fun a b => bcmp a b = Lt) l -> sort_keys l = l.
Proof.
  intros l Hs. pose proof (ssorted_nodup (fun x => x) l Hs) as Hnd.
  apply (ssorted_unique (fun x => x)); [apply sort_keys_sorted, Hnd | exact Hs | apply sort_keys_in].
Qed.

Theorem sort_keys_idem : forall l, NoDup l -> sort_keys (sort_keys l) = sort_keys l.
Proof. intros l Hnd. apply sort_keys_sorted_id, sort_keys_sorted, Hnd. Qed.

Lemma map_get_in k mm : map_get k mm <> None <-> In k (map fst mm).
Proof.
  induction mm as [|[k' v'] mm IH]; cbn [map_get map fst In]; [split; [congruence | intros []]|].
  destruct (beqb k k') eqn:E.
  - apply beqb_eq in E as ->. split; [auto | congruence].
  - rewrite IH. apply beqb_false in E. split; [auto | intros [H|H]; [congruence | exact H]].
Qed.

Lemma map_get_notin k mm : ~ In k (map fst mm) -> map_get k mm = None.
Proof. intros Hni. destruct (map_get k mm) eqn:E; [|reflexivity]. destruct Hni. apply map_get_in. congruence. Qed.

(* the tests of two different keys commute: both sides differ only if x is both k and k' *)
Lemma beqb_if_swap {B} x k k' (p q r : B) : beqb k k' = false ->
  (if beqb x k' then p else if beqb x k then q else r) = (if beqb x k then q else if beqb x k' then p else r).
Proof.
  intros E. destruct (beqb x k) eqn:E1, (beqb x k') eqn:E2; try reflexivity.
  apply beqb_eq in E1, E2. subst. rewrite beqb_refl in E. discriminate.
Qed.

Lemma map_get_set x k v mm : map_get x (map_set k v mm) = if beqb x k then Some v else map_get x mm.
Proof.
  induction mm as [|[k' v'] mm IH]; cbn [map_set map_get]; [reflexivity|].
  destruct (beqb k k') eqn:E; cbn [map_get].
  - apply beqb_eq in E as <-. destruct (beqb x k); reflexivity.
  - rewrite IH. apply beqb_if_swap, E.
Qed.

Lemma map_get_del x k mm :
  NoDup (map fst mm) -> map_get x (map_del k mm) = if beqb x k then None else map_get x mm.
Proof.
  induction mm as [|[k' v'] mm IH]; cbn [map_del map_get map fst]; [destruct (beqb x k); reflexivity|].
  intros [Hni Hnd]%NoDup_cons_iff. destruct (beqb k k') eqn:E; cbn [map_get].
  - apply beqb_eq in E as <-. destruct (beqb x k) eqn:E1; [|reflexivity].
    apply beqb_eq in E1 as ->. apply map_get_notin, Hni.
  - rewrite (IH Hnd). apply beqb_if_swap, E.
Qed.

Lemma map_set_nodup k v mm : NoDup (map fst mm) -> NoDup (map fst (map_set k v mm)).
Proof.
  induction mm as [|[k' v'] mm IH]; cbn [map_set map fst]; [repeat constructor; intros []|].
  intros [Hni Hnd]%NoDup_cons_iff. destruct (beqb k k') eqn:E; cbn [map fst].
  - apply beqb_eq in E as <-. constructor; assumption.
  - constructor; [|apply IH, Hnd]. rewrite <- map_get_in, map_get_set, beqb_sym, E, map_get_in. exact Hni.
Qed.

Lemma map_del_nodup k mm : NoDup (map fst mm) -> NoDup (map fst (map_del k mm)).
Proof.
  induction mm as [|[k' v'] mm IH]; cbn [map_del map fst]; [auto|].
  intros [Hni Hnd]%NoDup_cons_iff. destruct (beqb k k'); [exact Hnd|]. cbn [map fst]. constructor; [|apply IH, Hnd].
  rewrite <- map_get_in, map_get_del by exact Hnd. destruct (beqb k' k); [congruence|]. rewrite map_get_in. exact Hni.
Qed.

Lemma map_get_mapf k (f : bytes -> N) l :
  map_get k (map (fun x => (x, f x)) l) = if existsb (beqb k) l then Some (f k) else None.
Proof.
  induction l as [|a l IH]; cbn [map map_get existsb]; [reflexivity|].
  destruct (beqb k a) eqn:E; cbn [orb]; [|exact IH]. apply beqb_eq in E as <-. reflexivity.
Qed.

Lemma rm_put_kput k v l : rm_put k v l = kput fst (k, v) l.
Proof. induction l as [|[a b] l IH]; cbn [rm_put kput fst]; [|destruct (bcmp k a); rewrite ?IH]; reflexivity. Qed.

Lemma kget_map_get k l : kget fst k l = option_map (pair k) (map_get k l).
Proof.
  induction l as [|[a b] l IH]; [reflexivity|]. cbn [map_get]. rewrite kget_cons, beqb_sym. cbn [fst].
  destruct (beqb k a) eqn:E; [apply beqb_eq in E as ->; reflexivity | exact IH].
Qed.

Lemma map_get_kget k l : map_get k l = option_map snd (kget fst k l).
Proof. rewrite kget_map_get. destruct (map_get k l); reflexivity. Qed.

Lemma map_get_rm_put x k v l : map_get x (rm_put k v l) = if beqb x k then Some v else map_get x l.
Proof. rewrite rm_put_kput, !map_get_kget, kget_kput, beqb_sym. cbn [fst]. destruct (beqb x k); reflexivity. Qed.

Lemma map_get_rm_del x k l : map_get x (rm_del k l) = if beqb x k then None else map_get x l.
Proof.
  unfold rm_del. induction l as [|[a b] l IH]; cbn [filter map_get fst]; [destruct (beqb x k); reflexivity|].
  destruct (beqb k a) eqn:E; cbn [negb map_get]; rewrite IH.
  - apply beqb_eq in E as <-. destruct (beqb x k); reflexivity.
  - apply beqb_if_swap, E.
Qed.

Theorem smap_ref_sorted : forall s, smap_inv s ->
  StronglySorted (fun a b => bcmp (fst a) (fst b) = Lt) (smap_ref s).
Proof.
  intros s (Hnd & _). unfold smap_ref.
  induction (sort_keys_sorted _ Hnd) as [|a l Hs IH Hf]; cbn [map]; constructor; [exact IH|].
  apply Forall_map. exact Hf.
Qed.

Lemma smap_ref_fst s : map fst (smap_ref s) = sort_keys (keys s).
Proof. unfold smap_ref. rewrite map_map. apply map_id. Qed.

Lemma smap_has_key k s : smap_inv s ->
  existsb (beqb k) (sort_keys (keys s)) = match map_get k (m s) with Some _ => true | None => false end.
Proof.
  intros (_ & _ & Hin). apply eq_true_iff_eq. rewrite existsb_beqb_In, sort_keys_in, Hin.
  destruct (map_get k (m s)); split; congruence.
Qed.

Lemma smap_ref_get k s : smap_inv s -> map_get k (smap_ref s) = map_get k (m s).
Proof.
  intros Hinv. unfold smap_ref. rewrite map_get_mapf, smap_has_key by exact Hinv.
  destruct (map_get k (m s)); reflexivity.
Qed.

Lemma smap_ref_unique s l :
  smap_inv s -> StronglySorted (klt fst) l -> (forall x, map_get x l = map_get x (m s)) -> smap_ref s = l.
Proof.
  intros Hinv Hl Hget. apply (asc_ext fst); [apply ssorted_asc, smap_ref_sorted, Hinv | apply ssorted_asc, Hl |].
  intros k. rewrite !kget_map_get, Hget, smap_ref_get by exact Hinv. reflexivity.
Qed.

Theorem smap_empty_inv : smap_inv smap_empty.
Proof.
  split; [constructor|]. split; [constructor|]. intros k. cbn. split; [intros [] | congruence].
Qed.

Theorem smap_empty_ref : smap_ref smap_empty = [].
Proof. reflexivity. Qed.

Theorem smap_get_spec : forall k s, smap_inv s -> smap_get k s = rm_get k (smap_ref s).
Proof. intros k s Hinv. symmetry. apply smap_ref_get, Hinv. Qed.

Theorem smap_has_spec : forall k s, smap_inv s -> (smap_has k s = true <-> rm_get k (smap_ref s) <> None).
Proof.
  intros k s Hinv. rewrite <- (smap_get_spec k s Hinv). unfold smap_has, smap_get.
  destruct (map_get k (m s)); split; congruence.
Qed.

Lemma smap_ref_put k v s s' :
  smap_inv s -> smap_inv s' -> (forall x, map_get x (m s') = if beqb x k then Some v else map_get x (m s)) ->
  smap_ref s' = rm_put k v (smap_ref s).
Proof.
  intros Hinv Hinv' Hget. apply smap_ref_unique; [exact Hinv' | |].
  - rewrite rm_put_kput. apply kput_ssorted, smap_ref_sorted, Hinv.
  - intros x. rewrite map_get_rm_put, smap_ref_get, Hget by exact Hinv. reflexivity.
Qed.

Lemma smap_ref_del k s s' :
  smap_inv s -> smap_inv s' -> (forall x, map_get x (m s') = if beqb x k then None else map_get x (m s)) ->
  smap_ref s' = rm_del k (smap_ref s).
Proof.
  intros Hinv Hinv' Hget. apply smap_ref_unique; [exact Hinv' | apply StronglySorted_filter, smap_ref_sorted, Hinv |].
  intros x. rewrite map_get_rm_del, smap_ref_get, Hget by exact Hinv. reflexivity.
Qed.

(* both branches of Set: the map gets the entry, the key slice holds k and the old keys *)
Lemma smap_set_keys k v s K :
  smap_inv s -> NoDup K -> (forall x, In x K <-> k = x \/ In x (keys s)) ->
  let s' := {| keys := K; m := map_set k v (m s) |} in smap_inv s' /\ smap_ref s' = rm_put k v (smap_ref s).
Proof.
  intros Hinv HK HinK s'. assert (Hinv' : smap_inv s').
  { destruct Hinv as (_ & Hmnd & Hin). split; [exact HK|]. split; [apply map_set_nodup, Hmnd|].
    intros x. unfold s'. cbn [keys m]. rewrite HinK, map_get_set, Hin. destruct (beqb x k) eqn:E.
    - apply beqb_eq in E. split; [discriminate | auto].
    - apply beqb_false in E. intuition congruence. }
  split; [exact Hinv' | apply (smap_ref_put k v s s' Hinv Hinv')]. intros x. apply map_get_set.
Qed.

Theorem smap_set_spec : forall k v s, smap_inv s ->
  smap_inv (fst (smap_set k v s)) /\ smap_ref (fst (smap_set k v s)) = rm_put k v (smap_ref s) /\
  snd (smap_set k v s) = match rm_get k (smap_ref s) with None => true | Some _ => false end.
Proof.
  intros k v s Hinv. unfold rm_get. rewrite (smap_ref_get k s Hinv). unfold smap_set.
  pose proof Hinv as (Hnd & _ & Hin). destruct (map_get k (m s)) eqn:Hg; cbn [fst snd].
  - destruct (smap_set_keys k v s (keys s) Hinv Hnd) as [H1 H2]; [|auto].
    intros x. split; [auto | intros [<-|H]; [apply Hin; congruence | exact H]].
  - assert (Hk : ~ In k (keys s)) by (rewrite Hin; congruence).
    destruct (smap_set_keys k v s (keys s ++ [k]) Hinv) as [H1 H2]; [apply NoDup_snoc; assumption | | auto].
    intros x. rewrite in_app_iff. cbn [In]. tauto.
Qed.

Lemma ensure_sorted_spec s : smap_inv s -> smap_inv (ensure_sorted s) /\ smap_ref (ensure_sorted s) = smap_ref s.
Proof.
  intros (Hnd & Hmnd & Hin). unfold smap_ref, ensure_sorted. cbn [keys m]. split; [|rewrite sort_keys_idem by exact Hnd; reflexivity].
  split; [apply (ssorted_nodup (fun x => x)), sort_keys_sorted, Hnd | split; [exact Hmnd|]].
  intros k. cbn [keys m]. rewrite sort_keys_in. apply Hin.
Qed.

Theorem smap_delete_spec : forall k s, smap_inv s ->
  smap_inv (fst (smap_delete k s)) /\ smap_ref (fst (smap_delete k s)) = rm_del k (smap_ref s) /\
  snd (smap_delete k s) = match rm_get k (smap_ref s) with None => false | Some _ => true end.
Proof.
  intros k s Hinv. unfold rm_get. rewrite (smap_ref_get k s Hinv). unfold smap_delete.
  destruct (ensure_sorted_spec s Hinv) as [Hinv1 _]. cbn [ensure_sorted keys m] in *. rewrite (smap_has_key k s Hinv).
  pose proof Hinv as (Hnd & Hmnd & Hin). destruct (map_get k (m s)) eqn:Hg; cbn [fst snd].
  - assert (Hinv' : smap_inv {| keys := filter (fun x => negb (beqb k x)) (sort_keys (keys s)); m := map_del k (m s) |}).
    { split; [apply NoDup_filter, Hinv1 | split; [apply map_del_nodup, Hmnd|]]. intros x. cbn [keys m].
      rewrite filter_In, sort_keys_in, (map_get_del x k _ Hmnd), negb_true_iff, (beqb_sym k x), Hin.
      destruct (beqb x k); intuition congruence. }
    split; [exact Hinv' | split; [|reflexivity]]. apply (smap_ref_del k s _ Hinv Hinv'). intros x. apply map_get_del, Hmnd.
  - (* nothing to delete: the sorted state looks up like the old one, where k is absent *)
    split; [exact Hinv1 | split; [|reflexivity]]. apply (smap_ref_del k s _ Hinv Hinv1). intros x. cbn [m].
    destruct (beqb x k) eqn:E; [|reflexivity]. apply beqb_eq in E as ->. exact Hg.
Qed.

Theorem smap_all_spec : forall s, smap_inv s ->
  smap_inv (fst (smap_all s)) /\ smap_ref (fst (smap_all s)) = smap_ref s /\ snd (smap_all s) = smap_ref s.
Proof. intros s Hinv. destruct (ensure_sorted_spec s Hinv) as [H1 H2]. exact (conj H1 (conj H2 eq_refl)). Qed.

Theorem smap_keys_spec : forall s, smap_inv s ->
  smap_inv (fst (smap_keys s)) /\ smap_ref (fst (smap_keys s)) = smap_ref s /\ snd (smap_keys s) = map fst (smap_ref s).
Proof.
  intros s Hinv. destruct (ensure_sorted_spec s Hinv) as [H1 H2]. exact (conj H1 (conj H2 (eq_sym (smap_ref_fst s)))).
Qed.

Theorem smap_values_spec : forall s, smap_inv s ->
  smap_inv (fst (smap_values s)) /\ smap_ref (fst (smap_values s)) = smap_ref s /\ snd (smap_values s) = map snd (smap_ref s).
Proof.
  intros s Hinv. destruct (ensure_sorted_spec s Hinv) as [H1 H2]. split; [exact H1 | split; [exact H2|]].
  unfold smap_ref. rewrite map_map. reflexivity.
Qed.

Theorem smap_size_spec : forall s, smap_size s = length (smap_ref s).
Proof.
  intros s. unfold smap_size, smap_ref. rewrite map_length.
  symmetry. apply Permutation_length, sort_keys_perm.
Qed.

Theorem smap_ref_keys : forall s k, smap_inv s -> (In k (map fst (smap_ref s)) <-> map_get k (m s) <> None).
Proof.
  intros s k (_ & _ & Hin). rewrite smap_ref_fst, sort_keys_in. apply Hin.
Qed.

(* Why smap_inv needs [NoDup (map fst (m s))]:
   With only [NoDup keys /\ (In k keys <-> map_get k m <> None)], the association list [(k,1);(k,2)] with keys [k]
   satisfies the invariant, but deleting k leaves [(k,2)] in the list with keys = []. *)
Example smap_delete_needs_unique_map_keys :
  let s := {| keys := [[1]]; m := [([1], 1); ([1], 2)] |} in
  (NoDup (keys s) /\ forall k, In k (keys s) <-> map_get k (m s) <> None) /\
  let s' := fst (smap_delete [1] s) in
  keys s' = [] /\ map_get [1] (m s') = Some 2.
Proof.
  cbv zeta. split; [|split; reflexivity]. split; [repeat constructor; intros []|].
  intros k. rewrite map_get_in. cbn. tauto.
Qed.

Print Assumptions smap_empty_inv.
Print Assumptions smap_empty_ref.
Print Assumptions sort_keys_sorted.
Print Assumptions sort_keys_perm.
Print Assumptions sort_keys_idem.
Print Assumptions sort_keys_sorted_id.
Print Assumptions smap_set_spec.
Print Assumptions smap_get_spec.
Print Assumptions smap_has_spec.
Print Assumptions smap_delete_spec.
Print Assumptions smap_all_spec.
Print Assumptions smap_keys_spec.
Print Assumptions smap_values_spec.
Print Assumptions smap_size_spec.
Print Assumptions smap_ref_sorted.
Print Assumptions smap_ref_keys.
