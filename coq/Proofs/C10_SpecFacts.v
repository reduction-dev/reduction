(* C10: the pending-set specification by itself: which timers are pending after an advance, and what that says in the
   words of the property; and the loop of AdvanceWatermark's iterator as a relation on sets of timers ([fires]), with what
   it hands out measured against the specification ([fires_partial]). *)
From RV Require Import Base.Lists Base.Bytes Model.TimerRegistry Proofs.C10_Spec.
From Coq Require Import Permutation.
Open Scope N_scope.

Lemma fired_eqb_eq a b : fired_eqb a b = true <-> a = b.
Proof.
  unfold fired_eqb. destruct a as [k1 t1], b as [k2 t2]. cbn. rewrite andb_true_iff, Z.eqb_eq, beqb_eq.
  split; [intros [-> ->]; reflexivity|intros H; inversion H; auto].
Qed.

Lemma existsb_fired x l : existsb (fired_eqb x) l = true <-> In x l.
Proof. apply (existsb_eqb_In fired_eqb fired_eqb_eq). Qed.

Lemma sp_add_present x l : In x l -> sp_add x l = l.
Proof. intros H. unfold sp_add. rewrite (proj2 (existsb_fired x l) H). reflexivity. Qed.

Lemma In_sp_add x y l : In y (sp_add x l) <-> y = x \/ In y l.
Proof.
  unfold sp_add. destruct (existsb (fired_eqb x) l) eqn:E.
  - apply existsb_fired in E. split; [auto|]. intros [->|H]; auto.
  - cbn. intuition.
Qed.

Lemma NoDup_sp_add x l : NoDup l -> NoDup (sp_add x l).
Proof.
  unfold sp_add. destruct (existsb (fired_eqb x) l) eqn:E; auto.
  intros H. constructor; auto. intros Hin. apply existsb_fired in Hin. congruence.
Qed.

Lemma In_removed out P x : In x (removed out P) <-> In x P /\ ~ In x out.
Proof. unfold removed. rewrite filter_In, negb_true_iff, <- not_true_iff_false, existsb_fired. tauto. Qed.

(* [x] is a timer registered by one of the consumer's SetTimer calls [during], made after yield number a with
   lo < a <= hi, for a time later than [cw] *)
Definition set_in (lo hi : nat) (cw : Z) (e : nat * bytes * Z) (x : fired) : Prop :=
  (lo < fst (fst e) <= hi)%nat /\ (cw < snd e)%Z /\ x = (snd (fst e), snd e).
Definition sets (during : list (nat * bytes * Z)) (lo hi : nat) (cw : Z) (x : fired) : Prop :=
  exists e, In e during /\ set_in lo hi cw e x.

Lemma sets_split during lo mid hi cw y : (lo <= mid <= hi)%nat ->
  (sets during lo hi cw y <-> sets during lo mid cw y \/ sets during mid hi cw y).
Proof.
  intros Hm. unfold sets, set_in. split.
  - intros (e & Hin & Ha & H). destruct (Nat.le_gt_cases (fst (fst e)) mid); [left|right]; exists e; repeat split; tauto || lia.
  - intros [(e & Hin & Ha & H)|(e & Hin & Ha & H)]; exists e; repeat split; tauto || lia.
Qed.

Lemma sp_advance_partial_pending sender wm during out s :
  NoDup (sp_pending s) ->
  let s' := snd (sp_advance_partial sender wm during out s) in
  NoDup (sp_pending s') /\
  forall x, In x (sp_pending s') <-> (In x (sp_pending s) /\ ~ In x out) \/
    sets during 0 (length out) (ups_min (ups_set sender wm (sp_ups s))) x.
Proof.
  intros Hn. unfold sp_advance_partial. cbn [snd sp_pending]. set (cw := ups_min _). setoid_rewrite <- In_removed.
  apply (fold_left_adds _ (@NoDup fired) (fun l x => In x l) (set_in 0 (length out) cw)); [|apply NoDup_filter, Hn].
  intros l [[a k] t] _ Hl. unfold set_in. cbn [fst snd].
  destruct ((1 <=? a)%nat && (a <=? length out)%nat && (cw <? t)%Z) eqn:C.
  - split; [apply NoDup_sp_add, Hl|]. intros x. rewrite In_sp_add. intuition lia.
  - split; [exact Hl|]. intros x. intuition lia.
Qed.

Lemma sp_advance_drained sender wm during out s :
  Permutation out (fst (sp_advance sender wm during s)) ->
  sp_advance_partial sender wm during out s = sp_advance sender wm during s.
Proof.
  unfold sp_advance_partial, sp_advance. cbn [fst]. intros Hp. rewrite (Permutation_length Hp).
  do 3 f_equal. apply filter_ext_in. intros x Hx. f_equal. apply eq_true_iff_eq.
  rewrite existsb_fired. split; intros H.
  - apply (Permutation_in _ Hp), filter_In in H. tauto.
  - apply (Permutation_in _ (Permutation_sym Hp)), filter_In. auto.
Qed.

Lemma partial_ok_drained k due out :
  (length due < k)%nat -> partial_ok k due out -> Permutation out due /\ time_sorted out = true /\ NoDup out.
Proof. intros Hk (Hn & Hi & Hs & Hl & _). split; [|auto]. apply NoDup_Permutation_bis; auto. lia. Qed.

Lemma time_sorted_cons x l :
  (forall y, In y l -> (snd x <= snd y)%Z) -> time_sorted l = true -> time_sorted (x :: l) = true.
Proof.
  intros H Hl. destruct l as [|y l]; [reflexivity|].
  change (time_sorted (x :: y :: l)) with ((snd x <=? snd y)%Z && time_sorted (y :: l)).
  rewrite Hl, andb_true_r. apply Z.leb_le, H. left. reflexivity.
Qed.

Section Fires.
Variables (cw : Z) (during : list (nat * bytes * Z)).

(* The loop of AdvanceWatermark's iterator on a set of timers [T], [fuel] rounds at most (a consumer that stops after
   [fuel] items; enough fuel = a drained iterator), [n] timers yielded before: stop when out of fuel or nothing is due;
   else take out an earliest timer (delete, then yield), let the consumer register what it registers after yield n+1, go
   on.  Which of several earliest timers is taken is left open. *)
Inductive fires : nat -> nat -> (fired -> Prop) -> list fired -> (fired -> Prop) -> Prop :=
| fires_stop fuel n (T : fired -> Prop) : ((0 < fuel)%nat -> forall y, T y -> (cw < snd y)%Z) -> fires fuel n T [] T
| fires_yield fuel n (T : fired -> Prop) x (T1 : fired -> Prop) out T' :
    T x -> (snd x <= cw)%Z -> (forall y, T y -> (snd x <= snd y)%Z) ->
    (forall y, T1 y <-> (T y /\ y <> x) \/ sets during n (S n) cw y) ->
    fires fuel (S n) T1 out T' -> fires (S fuel) n T (x :: out) T'.

(* The handed-out timers are distinct due timers, earliest first, none later than a timer that was not handed out; if the
   fuel was not used up every due timer was handed out; exactly the handed-out timers left the set, and what the consumer
   registered meanwhile joined it. *)
Lemma fires_post fuel n T out T' : fires fuel n T out T' ->
  NoDup out /\ (forall x, In x out -> T x /\ (snd x <= cw)%Z) /\ time_sorted out = true /\
  (forall x y, In x out -> T y -> ~ In y out -> (snd x <= snd y)%Z) /\
  (length out <= fuel)%nat /\ ((length out < fuel)%nat -> forall y, T y -> (snd y <= cw)%Z -> In y out) /\
  forall x, T' x <-> (T x /\ ~ In x out) \/ sets during n (n + length out) cw x.
Proof.
  induction 1 as [fuel n T Hnone|fuel n T x T1 out T' Hx Hc Hmin M1 _ (Hnd & Hdue & Hso & Hear & Hlen & Hall & M')].
  - refine (conj _ (conj _ (conj _ (conj _ (conj _ (conj _ _)))))).
    + (* distinct *) constructor.
    + (* due *) intros x [].
    + (* sorted *) reflexivity.
    + (* earliest *) intros x y [].
    + (* length *) apply Nat.le_0_l.
    + (* all due *) intros Hf y Hy Hle. specialize (Hnone Hf y Hy). lia.
    + (* what is left *) intros x. split; [intros H; left; split; [exact H|intros []]|].
      intros [[H _]|(e & _ & Ha & _)]; [exact H|cbn in Ha; lia].
  - (* what the consumer registered is not due, hence not handed out *)
    assert (Hnew : forall y, sets during n (S n) cw y -> ~ In y out).
    { intros y (e & _ & _ & Hw & ->) H. apply Hdue in H as [_ H]. cbn in H. lia. }
    assert (Hout : forall y, In y out -> T y /\ y <> x).
    { intros y Hy. destruct (Hdue y Hy) as [H1 _]. apply M1 in H1 as [?|H]; [assumption|]. destruct (Hnew y H Hy). }
    cbn [length In]. refine (conj _ (conj _ (conj _ (conj _ (conj _ (conj _ _)))))).
    + (* distinct *) constructor; [|exact Hnd]. intros H. apply Hout in H as [_ H]. apply H. reflexivity.
    + (* due *) intros y [<-|Hy]; [split; assumption|]. split; [apply Hout, Hy|apply Hdue, Hy].
    + (* sorted *) apply time_sorted_cons; [|exact Hso]. intros y Hy. apply Hmin, Hout, Hy.
    + (* earliest *) intros x0 y [<-|Hx0] Hy Hny; [apply Hmin, Hy|]. apply Hear; [exact Hx0| |].
      * apply M1. left. split; [exact Hy|]. intros ->. apply Hny. left. reflexivity.
      * intros H. apply Hny. right. exact H.
    + (* length *) lia.
    + (* all due *) intros Hl y Hy Hle. destruct (fired_eqb x y) eqn:E; [left; apply fired_eqb_eq, E|right].
      apply Hall; [lia|apply M1; left; split; [exact Hy|]|exact Hle]. intros ->. rewrite (proj2 (fired_eqb_eq x x) eq_refl) in E. discriminate.
    + (* what is left *) intros y. rewrite M', M1, (sets_split during n (S n) (n + S (length out))) by lia.
      replace (S n + length out)%nat with (n + S (length out))%nat by lia. split.
      * intros [[[[Hy Hne]|Hs] Hno]|Hs]; [left|right; left; exact Hs|right; right; exact Hs].
        split; [exact Hy|]. intros [E|Hi]; [apply Hne; symmetry; exact E|exact (Hno Hi)].
      * intros [[Hy Hno]|[Hs|Hs]]; [left|left; split; [right; exact Hs|apply Hnew, Hs]|right; exact Hs].
        split; [left; split; [exact Hy|intros ->; apply Hno; left; reflexivity]|intros Hi; apply Hno; right; exact Hi].
Qed.
End Fires.

(* on the set of the pending timers the loop hands out what the specification allows a consumer that stops after [k]
   items, and leaves the set of the timers that are pending afterwards *)
Lemma fires_partial sender wm during k (T T' : fired -> Prop) out sp :
  NoDup (sp_pending sp) -> (forall x, In x (sp_pending sp) <-> T x) ->
  fires (ups_min (ups_set sender wm (sp_ups sp))) during k 0 T out T' ->
  let r := sp_advance_partial sender wm during out sp in
  partial_ok k (fst r) out /\ NoDup (sp_pending (snd r)) /\ forall x, In x (sp_pending (snd r)) <-> T' x.
Proof.
  intros Hn HT F r. apply fires_post in F as (Hnd & Hdue & Hso & Hear & Hlen & Hall & M).
  destruct (sp_advance_partial_pending sender wm during out sp Hn) as [Hn' M']. fold r in Hn', M'.
  set (cw := ups_min _) in *. set (due := filter (is_due cw) (sp_pending sp)). change (fst r) with due.
  assert (Hin_due : forall x, In x due <-> T x /\ (snd x <= cw)%Z).
  { intros x. unfold due, is_due. rewrite filter_In, Z.leb_le, HT. reflexivity. }
  assert (Hincl : incl out due) by (intros x Hx; apply Hin_due, Hdue, Hx).
  split; [|split; [exact Hn'|]].
  - split; [exact Hnd|]. split; [exact Hincl|]. split; [exact Hso|]. split.
    + pose proof (NoDup_incl_length Hnd Hincl) as Hle.
      destruct (Nat.lt_ge_cases (length out) k) as [Hlt|Hge]; [|lia].
      (* the loop stopped early, so everything due was handed out *)
      assert (Hge : (length due <= length out)%nat); [|lia].
      apply NoDup_incl_length; [apply NoDup_filter, Hn|]. intros y Hy. apply Hin_due in Hy as [Hy Hc]. apply Hall; assumption.
    + intros x y Hx Hy. apply Hear; [exact Hx|apply Hin_due, Hy].
  - intros x. rewrite M', M, HT. reflexivity.
Qed.

Lemma sp_set_guard k t s : (t <= sp_wm s)%Z -> sp_set k t s = s.
Proof. intros H. unfold sp_set. destruct (sp_wm s <? t)%Z eqn:E; [apply Z.ltb_lt in E; lia|reflexivity]. Qed.

Lemma sp_set_idem k t s : sp_set k t (sp_set k t s) = sp_set k t s.
Proof.
  unfold sp_set. destruct (sp_wm s <? t)%Z eqn:E; cbn [sp_wm sp_pending sp_ups]; rewrite E; [|reflexivity].
  f_equal. apply sp_add_present, In_sp_add. left. reflexivity.
Qed.

Lemma sp_set_pending k t s : (sp_wm s < t)%Z -> NoDup (sp_pending s) ->
  In (k, t) (sp_pending (sp_set k t s)) /\ NoDup (sp_pending (sp_set k t s)).
Proof.
  intros H Hn. unfold sp_set. apply Z.ltb_lt in H. rewrite H. cbn [sp_pending]. split.
  - apply In_sp_add. left. reflexivity.
  - apply NoDup_sp_add. exact Hn.
Qed.

(* an advance fires exactly the pending timers with t <= the new composite watermark; afterwards nothing at or before
   the watermark is pending, in particular nothing that just fired *)
Lemma sp_advance_facts sender wm during s :
  NoDup (sp_pending s) ->
  let due := fst (sp_advance sender wm during s) in
  let s' := snd (sp_advance sender wm during s) in
  sp_wm s' = ups_min (ups_set sender wm (sp_ups s)) /\
  NoDup due /\
  (forall x, In x due <-> In x (sp_pending s) /\ (snd x <= sp_wm s')%Z) /\
  NoDup (sp_pending s') /\
  (forall x, In x (sp_pending s') -> (sp_wm s' < snd x)%Z) /\
  (forall x, In x due -> ~ In x (sp_pending s')) /\
  (forall x, In x (sp_pending s) -> (sp_wm s' < snd x)%Z -> In x (sp_pending s')).
Proof.
  intros Hn due s'.
  destruct (sp_advance_partial_pending sender wm during due s Hn) as [Hn' M].
  rewrite (sp_advance_drained sender wm during due s (Permutation_refl _)) in Hn', M. fold s' in Hn', M.
  assert (Hdue : forall x, In x due <-> In x (sp_pending s) /\ (snd x <= sp_wm s')%Z).
  { intros x. unfold due, sp_advance. cbn [fst]. rewrite filter_In. unfold is_due. rewrite Z.leb_le. reflexivity. }
  assert (Hafter : forall x, In x (sp_pending s') -> (sp_wm s' < snd x)%Z).
  { intros x Hx. apply M in Hx as [[Hx Hnd]|(e & _ & _ & Hw & ->)]; [|exact Hw].
    rewrite Hdue in Hnd. apply Z.nle_gt. tauto. }
  split; [reflexivity|]. split; [apply NoDup_filter, Hn|]. split; [exact Hdue|]. split; [exact Hn'|]. split; [exact Hafter|]. split.
  - intros x Hx Hin. apply Hafter in Hin. apply Hdue in Hx. lia.
  - intros x Hx Hc. apply M. left. split; [exact Hx|]. rewrite Hdue. lia.
Qed.
