(* Key-sorted lists of entries: lookup, insertion, merge (specification of kv.MergeEntries), extensionality;
   [newest S k o], the specification of a point read over a set S of entries, and [Mx S t], the tables that answer it
   at every key. *)
From Coq Require Import List NArith Bool Lia.
From RV Require Import Base.KeySorted Model.LsmBase.
Import ListNotations.
Open Scope N_scope.

Definition klt (a b : bytes) : Prop := bcmp a b = Lt.

Lemma klt_irrefl a : ~ klt a a.
Proof. unfold klt. rewrite bcmp_refl. discriminate. Qed.
Lemma klt_trans a b c : klt a b -> klt b c -> klt a c.
Proof. apply bcmp_lt_trans. Qed.
(* [sorted] is [asc ekey] of Base/KeySorted.v, LsmBase.tbl_get / mt_put / sortedb are [kget] / [kput] / [ascb] at [ekey], all
   by conversion; the laws below are those of KeySorted.v restated over the model's names, because [rewrite] does not see
   through a name to the function it is convertible with. *)
Fixpoint sorted (t : table) : Prop :=
  match t with
  | [] => True
  | x :: r => (forall y, In y r -> klt (ekey x) (ekey y)) /\ sorted r
  end.

Lemma sorted_app a b :
  sorted (a ++ b) <-> sorted a /\ sorted b /\ (forall x y, In x a -> In y b -> klt (ekey x) (ekey y)).
Proof. exact (asc_app ekey a b). Qed.

Lemma sorted_filter f t : sorted t -> sorted (filter f t).
Proof. exact (asc_filter ekey f t). Qed.

Lemma sortedb_sorted t : sortedb t = true -> sorted t.
Proof. exact (ascb_asc ekey t). Qed.

Lemma tbl_get_some k t e : tbl_get k t = Some e -> In e t /\ ekey e = k.
Proof. exact (kget_some ekey k t e). Qed.
Lemma tbl_get_none k t : tbl_get k t = None -> forall e, In e t -> ekey e <> k.
Proof. exact (proj1 (kget_none ekey k t)). Qed.
Lemma tbl_get_none_intro k t : (forall e, In e t -> ekey e <> k) -> tbl_get k t = None.
Proof. exact (proj2 (kget_none ekey k t)). Qed.
Lemma tbl_get_none_lt k t : (forall e, In e t -> klt k (ekey e)) -> tbl_get k t = None.
Proof. exact (kget_above ekey k t). Qed.
Lemma sorted_get t e : sorted t -> In e t -> tbl_get (ekey e) t = Some e.
Proof. exact (kget_In ekey t e). Qed.
Lemma sorted_key_inj t e e' : sorted t -> In e t -> In e' t -> ekey e = ekey e' -> e = e'.
Proof. exact (key_inj ekey t e e'). Qed.

Lemma tbl_get_cons k x t : tbl_get k (x :: t) = if beqb (ekey x) k then Some x else tbl_get k t.
Proof. reflexivity. Qed.

Lemma tbl_get_filter (f : entry -> bool) k t :
  sorted t -> tbl_get k (filter f t) = match tbl_get k t with Some e => if f e then Some e else None | None => None end.
Proof. exact (kget_filter ekey f k t). Qed.

Lemma tbl_get_scan p k t :
  sorted t -> tbl_get k (tbl_scan p t) = if is_prefix p k then tbl_get k t else None.
Proof.
  intros Hs. unfold tbl_scan. rewrite tbl_get_filter by exact Hs. destruct (tbl_get k t) eqn:E.
  - apply tbl_get_some in E as [_ <-]. unfold has_prefix. destruct (is_prefix p (ekey e)); reflexivity.
  - destruct (is_prefix p k); reflexivity.
Qed.

Lemma sorted_ext a b : sorted a -> sorted b -> (forall k, tbl_get k a = tbl_get k b) -> a = b.
Proof. exact (asc_ext ekey a b). Qed.

Lemma mt_put_in e m x : In x (mt_put e m) -> x = e \/ In x m.
Proof. exact (kput_in ekey e m x). Qed.
Lemma mt_put_has e m : In e (mt_put e m).
Proof. exact (kput_has ekey e m). Qed.
Lemma mt_put_keeps e m x : In x m -> ekey x <> ekey e -> In x (mt_put e m).
Proof. exact (kput_keeps ekey e m x). Qed.
Lemma mt_put_sorted e m : sorted m -> sorted (mt_put e m).
Proof. exact (kput_asc ekey e m). Qed.
Lemma mt_put_get e m k : sorted m -> tbl_get k (mt_put e m) = if beqb (ekey e) k then Some e else tbl_get k m.
Proof. intros _. exact (kget_kput ekey e m k). Qed.

(* [Mx S t]: t holds, per key, a greatest element of the set S of inserted entries *)

Definition Mx (S : entry -> Prop) (t : table) : Prop :=
  sorted t /\
  (forall e, In e t -> S e) /\
  (forall e, S e -> exists m, tbl_get (ekey e) t = Some m /\ eseq e <= eseq m).

Lemma Mx_nil : Mx (fun _ => False) [].
Proof. repeat split; cbn; intros; contradiction. Qed.

Lemma Mx_ext (S S' : entry -> Prop) t : (forall e, S e <-> S' e) -> Mx S t -> Mx S' t.
Proof.
  intros H (H1 & H2 & H3). repeat split; auto.
  - intros e He. apply H. auto.
  - intros e He. apply H3. apply H. exact He.
Qed.

Lemma ins_in e l x : In x (ins e l) -> x = e \/ In x l.
Proof.
  induction l as [|y l IH]; cbn; [intros [<-|[]]; auto|].
  destruct (bcmp (ekey e) (ekey y)); cbn; intros [H|H]; auto.
  - subst x. unfold newer. destruct (eseq e <? eseq y); auto.
  - apply IH in H as [H|H]; auto.
Qed.
Lemma ins_key_in e l x : In x (ins e l) -> ekey x = ekey e \/ In x l.
Proof. intros H. apply ins_in in H as [->|H]; auto. Qed.

(* kv.MergeEntries' insertion is a memtable put of the newer of the entry and the one it meets *)
Definition met (e : entry) (l : table) : entry := match tbl_get (ekey e) l with Some x => newer x e | None => e end.

Lemma met_key e l : ekey (met e l) = ekey e.
Proof.
  unfold met. destruct (tbl_get (ekey e) l) as [x|] eqn:G; [|reflexivity]. apply tbl_get_some in G as [_ G].
  unfold newer. now destruct (eseq e <? eseq x).
Qed.

Lemma ins_mt_put e l : sorted l -> ins e l = mt_put (met e l) l.
Proof.
  induction l as [|y l IH]; [reflexivity|]. intros [H1 H2]. cbn [ins mt_put]. rewrite met_key. unfold met. rewrite tbl_get_cons.
  destruct (bcmp_spec (ekey e) (ekey y)) as [E|E|E].
  - now rewrite <- E, beqb_refl.
  - rewrite beqb_sym, (beqb_lt _ _ E), tbl_get_none_lt; [reflexivity|]. exact (above_trans ekey _ _ _ E H1).
  - rewrite (beqb_lt _ _ E). f_equal. exact (IH H2).
Qed.

Lemma ins_sorted e l : sorted l -> sorted (ins e l).
Proof. intros H. rewrite (ins_mt_put e l H). now apply mt_put_sorted. Qed.

Lemma ins_get e l k :
  sorted l ->
  tbl_get k (ins e l) =
    if beqb (ekey e) k then Some (match tbl_get k l with Some x => newer x e | None => e end) else tbl_get k l.
Proof.
  intros H. rewrite (ins_mt_put e l H), (mt_put_get _ _ _ H), met_key. destruct (beqb (ekey e) k) eqn:E; [|reflexivity].
  now apply beqb_eq in E as <-.
Qed.

Lemma Mx_ins (S : entry -> Prop) t e : Mx S t -> Mx (fun x => x = e \/ S x) (ins e t).
Proof.
  intros (H1 & H2 & H3). split; [apply ins_sorted; exact H1|]. split.
  - intros x Hx. apply ins_in in Hx as [Hx|Hx]; auto.
  - intros x Hx. rewrite ins_get by exact H1. destruct (beqb (ekey e) (ekey x)) eqn:E.
    + apply beqb_eq in E. destruct Hx as [->|Hx].
      * destruct (tbl_get (ekey e) t) as [y|]; (eexists; split; [reflexivity|]); [|lia].
        unfold newer. destruct (eseq e <? eseq y) eqn:L; [apply N.ltb_lt in L|]; lia.
      * destruct (H3 x Hx) as (m & Hm1 & Hm2). rewrite Hm1. eexists; split; [reflexivity|].
        unfold newer. destruct (eseq e <? eseq m) eqn:L; [lia|apply N.ltb_ge in L; lia].
    + destruct Hx as [->|Hx]; [rewrite beqb_refl in E; discriminate|]. apply H3. exact Hx.
Qed.

Lemma Mx_merge_into (S : entry -> Prop) l acc : Mx S acc -> Mx (fun x => In x l \/ S x) (merge_into l acc).
Proof.
  induction l as [|e l IH]; cbn; intros H.
  - eapply Mx_ext; [|exact H]. intros x. split; [auto|intros [[]|Hx]; exact Hx].
  - eapply Mx_ext; [|apply Mx_ins, IH, H]. intros x. cbn. split.
    + intros [->|[Hx|Hx]]; auto.
    + intros [[<-|Hx]|Hx]; auto.
Qed.

Definition ents_of (ls : list table) (e : entry) : Prop := exists l, In l ls /\ In e l.

Lemma ents_of_cons t ts e : ents_of (t :: ts) e <-> In e t \/ ents_of ts e.
Proof.
  split.
  - intros (l & [<-|Hl] & He); [left; exact He|right; exists l; auto].
  - intros [He|(l & Hl & He)]; [exists t|exists l]; cbn; auto.
Qed.

Lemma ents_of_app a b e : ents_of (a ++ b) e <-> ents_of a e \/ ents_of b e.
Proof.
  unfold ents_of. setoid_rewrite in_app_iff. split.
  - intros (t & [Ht|Ht] & He); eauto.
  - intros [(t & Ht & He)|(t & Ht & He)]; eauto.
Qed.
Lemma ents_of_snoc M a x : ents_of (M ++ [a]) x <-> ents_of M x \/ In x a.
Proof.
  rewrite ents_of_app. split; (intros [H|H]; [left; exact H|right]).
  - destruct H as (t & [<-|[]] & H). exact H.
  - exists a. cbn. auto.
Qed.

Lemma Mx_merge_all ls : Mx (ents_of ls) (merge_all ls).
Proof.
  induction ls as [|l ls IH]; cbn.
  - eapply Mx_ext; [|exact Mx_nil]. intros e. split; [intros []|intros (l & [] & _)].
  - eapply Mx_ext; [|apply Mx_merge_into, IH]. intros e. cbn. split.
    + intros [He|(l' & Hl & He)]; [exists l; split; [left; reflexivity|exact He]|exists l'; split; [right; exact Hl|exact He]].
    + intros (l' & [<-|Hl] & He); [left; exact He|right; exists l'; split; assumption].
Qed.

Lemma merge_all_sorted ls : sorted (merge_all ls).
Proof. apply Mx_merge_all. Qed.

(* one version per key and sequence number *)
Definition uniq (S : entry -> Prop) : Prop :=
  forall e e', S e -> S e' -> ekey e = ekey e' -> eseq e = eseq e' -> e = e'.

(* the specification of a point read: [o] is the entry of key [k] with the greatest sequence number in [S], if any *)
Definition newest (S : entry -> Prop) (k : bytes) (o : option entry) : Prop :=
  match o with
  | Some m => S m /\ ekey m = k /\ forall e, S e -> ekey e = k -> eseq e <= eseq m
  | None => forall e, S e -> ekey e <> k
  end.

Lemma newest_ext S S' k o : (forall e, ekey e = k -> (S e <-> S' e)) -> newest S k o -> newest S' k o.
Proof.
  intros H. destruct o as [m|]; cbn.
  - intros (H1 & H2 & H3). split; [apply H; auto|]. split; [exact H2|]. intros e He Hk. apply H3; [apply H|]; auto.
  - intros H1 e He Hk. apply (H1 e); [apply H|]; auto.
Qed.

Lemma sorted_newest t k : sorted t -> newest (fun e => In e t) k (tbl_get k t).
Proof.
  intros Hs. destruct (tbl_get k t) as [m|] eqn:E; [|exact (tbl_get_none _ _ E)].
  apply tbl_get_some in E as [H1 H2]. split; [exact H1|]. split; [exact H2|].
  intros e He Hk. rewrite (sorted_key_inj t e m); auto; [lia|congruence].
Qed.

Lemma newest_skip S1 S2 k o : newest S1 k None -> newest S2 k o -> newest (fun e => S1 e \/ S2 e) k o.
Proof.
  intros H1. apply newest_ext. intros e Hk. split; [auto|intros [H|H]; [destruct (H1 e H Hk)|exact H]].
Qed.

Lemma newest_pick S1 S2 k a h : newest S1 k a -> newest S2 k h -> newest (fun e => S1 e \/ S2 e) k (l0_pick a h).
Proof.
  intros Ha Hh. destruct h as [v|]; [|eapply newest_ext; [intros e _; apply or_comm|apply newest_skip; assumption]].
  destruct a as [n|]; [|apply newest_skip; assumption].
  destruct Ha as (A1 & A2 & A3), Hh as (B1 & B2 & B3). cbn [l0_pick].
  destruct (eseq n <? eseq v) eqn:L; [apply N.ltb_lt in L|apply N.ltb_ge in L].
  - split; [auto|]. split; [exact B2|]. intros e [He|He] Hk; [specialize (A3 e He Hk); lia|auto].
  - split; [auto|]. split; [exact A2|]. intros e [He|He] Hk; [auto|specialize (B3 e He Hk); lia].
Qed.

Lemma newest_first S1 S2 k o1 o2 :
  newest S1 k o1 -> newest S2 k o2 -> (forall e1 e2, S1 e1 -> S2 e2 -> ekey e1 = ekey e2 -> eseq e2 < eseq e1) ->
  newest (fun e => S1 e \/ S2 e) k (match o1 with Some m => Some m | None => o2 end).
Proof.
  intros H1 H2 Hord. destruct o1 as [m|]; [|apply newest_skip; assumption].
  destruct H1 as (A1 & A2 & A3). split; [auto|]. split; [exact A2|].
  intros e [He|He] Hk; [auto|]. specialize (Hord m e A1 He ltac:(congruence)). lia.
Qed.

Lemma newest_fun S k o o' : uniq S -> newest S k o -> newest S k o' -> o = o'.
Proof.
  intros Hu. destruct o as [m|], o' as [m'|]; cbn; try reflexivity.
  - intros (A1 & A2 & A3) (B1 & B2 & B3). f_equal. apply Hu; auto; [congruence|]. specialize (A3 m' B1 B2). specialize (B3 m A1 A2). lia.
  - intros (A1 & A2 & _) B. destruct (B m A1 A2).
  - intros A (B1 & B2 & _). destruct (A m' B1 B2).
Qed.

Lemma Mx_newest S t k : Mx S t -> newest S k (tbl_get k t).
Proof.
  intros (H1 & H2 & H3). destruct (tbl_get k t) as [m|] eqn:G; cbn.
  - pose proof (tbl_get_some _ _ _ G) as [G1 G2]. repeat split; auto.
    intros e He Hk. destruct (H3 e He) as (x & Hx1 & Hx2). rewrite Hk in Hx1. congruence.
  - intros e He Hk. destruct (H3 e He) as (x & Hx & _). congruence.
Qed.

Lemma newest_get S t k o : Mx S t -> uniq S -> newest S k o -> tbl_get k t = o.
Proof. intros HM Hu. apply (newest_fun S k _ _ Hu), Mx_newest, HM. Qed.

(* t answers e's key by an entry at least as new, e itself on equal numbers *)
Definition dominated (t : table) (e : entry) : Prop :=
  exists m, tbl_get (ekey e) t = Some m /\ eseq e <= eseq m /\ (eseq e = eseq m -> e = m).

Lemma dominated_scan p t e : sorted t -> has_prefix p e = true -> dominated t e -> dominated (tbl_scan p t) e.
Proof. unfold dominated, has_prefix. intros Hs Hp H. rewrite tbl_get_scan, Hp by exact Hs. exact H. Qed.

(* a key-sorted table that dominates every entry of S and holds nothing newer than S is the merge over S *)
Lemma Mx_dom_eq S t t' :
  Mx S t -> sorted t' ->
  (forall e, S e -> dominated t' e) ->
  (forall m, In m t' -> exists y, S y /\ ekey y = ekey m /\ eseq m <= eseq y) ->
  t = t'.
Proof.
  intros (T1 & T2 & T3) Hs Hdom Hin. apply sorted_ext; [exact T1|exact Hs|]. intros k.
  (* [dominated t' x], at the key k *)
  assert (Hle : forall x, tbl_get k t = Some x -> exists m, tbl_get k t' = Some m /\ eseq x <= eseq m /\ (eseq x = eseq m -> x = m)).
  { intros x Hx. apply tbl_get_some in Hx as [Hx <-]. exact (Hdom x (T2 x Hx)). }
  destruct (tbl_get k t') as [m|] eqn:G.
  - apply tbl_get_some in G as [G <-]. destruct (Hin m G) as (y & Hy & Hk & Hym). destruct (T3 y Hy) as (x & Hx & Hyx).
    rewrite Hk in Hx. rewrite Hx. destruct (Hle x Hx) as (m' & [= <-] & Hxm & Heq). f_equal. apply Heq. lia.
  - destruct (tbl_get k t) as [x|]; [|reflexivity]. destruct (Hle x eq_refl) as (m & [=] & _).
Qed.

Lemma Mx_scan S t p : Mx S t -> Mx (fun e => S e /\ has_prefix p e = true) (tbl_scan p t).
Proof.
  intros (H1 & H2 & H3). split; [apply sorted_filter; exact H1|]. split.
  - intros e He. apply filter_In in He as [He Hp]. auto.
  - intros e [He Hp]. destruct (H3 e He) as (m & Hm1 & Hm2). exists m. split; [|exact Hm2].
    rewrite tbl_get_scan by exact H1. unfold has_prefix in Hp. rewrite Hp. exact Hm1.
Qed.

(* a merge does not change when only versions are added that a version already there dominates *)
Lemma Mx_sub_eq S S' t t' :
  Mx S t -> Mx S' t' -> uniq S' -> (forall e, S e -> S' e) ->
  (forall e, S' e -> exists m, S m /\ ekey m = ekey e /\ eseq e <= eseq m) -> t = t'.
Proof.
  intros Ht (T1 & T2 & T3) Hu Hsub Hdom. apply (Mx_dom_eq S); auto.
  intros e He. destruct (T3 e (Hsub e He)) as (m & Hm & Hle). exists m. split; [exact Hm|]. split; [exact Hle|].
  apply tbl_get_some in Hm as [Hm Hk]. apply Hu; auto.
Qed.
