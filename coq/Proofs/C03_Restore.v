(* C03: restore over the LSM model without a hypothesis, composing C07 (reads of the LSM under any schedule) with C08
   (a checkpoint reopened = the database at the call) through the specification map.

   The DKV is the pair (LSM model, durability model) of Model/StateStoreCkpt.v. Invariant of every state: the LSM side
   has C07's invariant and no read in flight, the durable side is a database that can exist in the sense of C08
   ([reach]), and both hold the same map: sm_get k (absm lsm) = db_get durable k for every key.

   Props/C03.v states the theorem of Proofs/C03_RestoreBg.v (the same pair with background actions on the durable side)
   and takes from this file [write_agree] and [lsm_load_spec] (with [sm_put_last], [load_from]); [agree] ...
   [restore_over_lsm] are the pair without such actions and serve no statement of Props. *)
From Coq Require Import List NArith Bool Lia.
From RV Require Import Base.KeySorted Model.StateStore Model.StateStoreLsm Model.StateStoreCkpt Proofs.C03_Store Proofs.C03_OverLsm.
From RV Require Model.Lsm Model.Ckpt.
From RV Require Proofs.C07_Spec Proofs.C07_Refine Proofs.C08_Ckpt.
Import ListNotations.
Open Scope N_scope.

Lemma sm_put_last k v acc m : C07_Spec.ksorted (acc ++ (k, v) :: m) -> Lsm.sm_put k v acc = acc ++ [(k, v)].
Proof.
  intros (_ & _ & H)%(asc_app fst). rewrite C07_Spec.sm_put_kput. apply (kput_last fst).
  intros y Hy. exact (H y (k, v) Hy (or_introl eq_refl)).
Qed.

Lemma write_agree (m : C07_Spec.smap) d k (del : bool) v :
  C07_Spec.ksorted m -> C08_Ckpt.reach d -> (forall k', Lsm.sm_get k' m = Ckpt.db_get d k') ->
  forall k', Lsm.sm_get k' (if del then StateStore.sm_del k m else StateStore.sm_put k v m) =
             Ckpt.db_get (fst (Ckpt.db_write d k del v)) k'.
Proof.
  intros Hm R A k'. rewrite (C08_Ckpt.db_write_get _ k del v k' (C08_Ckpt.reach_inv _ R)), <- A, (beqb_sym k' k).
  destruct del.
  - rewrite <- lsm_sm_del_eq by exact Hm. now apply C07_Spec.sm_del_get.
  - rewrite <- lsm_sm_put_eq. now apply C07_Spec.sm_put_get.
Qed.

Section Restore.
  Variable cfg : Lsm.dbcfg.
  Hypothesis Hcfg : C07_Refine.cfg_ok cfg.

  Lemma load_from (m : list (bytes * bytes)) : forall st, good st -> C07_Spec.ksorted (C07_Refine.absm st ++ m) ->
    good (fold_left (fun st kv => fst (Lsm.write cfg st (fst kv) (snd kv) false)) m st) /\
    C07_Refine.absm (fold_left (fun st kv => fst (Lsm.write cfg st (fst kv) (snd kv) false)) m st) = C07_Refine.absm st ++ m.
  Proof.
    induction m as [|[k v] m IH]; intros st [HI Hrd] Hs; cbn [fold_left fst snd]; [now rewrite app_nil_r|].
    destruct (Lsm.write cfg st k v false) as [st' rot] eqn:W. cbn [fst].
    destruct (C07_Refine.write_ok cfg st k v false st' rot HI Hrd W) as (J1 & J2 & J3).
    rewrite (sm_put_last k v _ m Hs) in J2.
    destruct (IH st' (conj J1 J3)) as [G E]; [now rewrite J2, <- app_assoc|].
    rewrite J2, <- app_assoc in E. auto.
  Qed.

  Lemma lsm_load_spec m : C07_Spec.ksorted m ->
    good (lsm_load cfg m) /\ C07_Refine.absm (lsm_load cfg m) = m.
  Proof.
    intros Hm. pose proof (C07_Refine.absm_init cfg) as H0.
    destruct (load_from m (Lsm.init cfg) (init_good cfg Hcfg)) as [G E]; rewrite H0 in *; [exact Hm|now split].
  Qed.

  Lemma ckpt_reopen_spec d : C08_Ckpt.reach d ->
    C08_Ckpt.reach (ckpt_reopen d) /\ forall k, Ckpt.db_get (ckpt_reopen d) k = Ckpt.db_get d k.
  Proof.
    intros R. unfold ckpt_reopen.
    destruct (C08_Ckpt.checkpoint_exact_db d Ckpt.OwnAll (Ckpt.d_mem d) (Ckpt.d_walmax d) R) as (es & E & R' & G & _).
    rewrite E. split; [exact R'|]. intros k. apply G. reflexivity.
  Qed.

  Definition agree (x : pair_raw) : Prop :=
    good (fst (fst x)) /\ C08_Ckpt.reach (snd x) /\
    forall k, Lsm.sm_get k (C07_Refine.absm (fst (fst x))) = Ckpt.db_get (snd x) k.

  Lemma pair_put_ok k v x : agree x -> agree (pair_put cfg k v x).
  Proof.
    intros (G & R & A). destruct (raw_put_spec cfg Hcfg k v (fst x) G) as [G' E]. split; [exact G'|].
    split; [exact (C08_Ckpt.reach_act (snd x) (C08_Ckpt.AWrite k false v) R I)|]. cbn [pair_put fst snd]. rewrite E.
    exact (write_agree _ _ k false v (C07_Refine.absm_sorted _) R A).
  Qed.

  Lemma pair_del_ok k x : agree x -> agree (pair_del cfg k x).
  Proof.
    intros (G & R & A). destruct (raw_del_spec cfg Hcfg k (fst x) G) as [G' E]. split; [exact G'|].
    split; [exact (C08_Ckpt.reach_act (snd x) (C08_Ckpt.AWrite k true []) R I)|]. cbn [pair_del fst snd]. rewrite E.
    exact (write_agree _ _ k true [] (C07_Refine.absm_sorted _) R A).
  Qed.

  Lemma pair_scan_ok p x : agree x -> agree (snd (pair_scan cfg p x)).
  Proof.
    intros (G & R & A). unfold agree, pair_scan. cbn [fst snd].
    destruct (raw_scan_spec cfg Hcfg p (fst x) G) as (_ & G' & E). split; [exact G'|]. split; [exact R|].
    intros k. rewrite E. apply A.
  Qed.

  (* redeploy: the reloaded LSM serves the map of the barrier, and that is the content of the database C08 reopens *)
  Lemma pair_restore_ok cur saved : agree saved -> agree (pair_restore cfg C07_Refine.absm cur saved).
  Proof.
    intros (G & R & A). unfold agree, pair_restore. cbn [fst snd].
    destruct (lsm_load_spec _ (C07_Refine.absm_sorted (fst (fst saved)))) as [G' E]. destruct (ckpt_reopen_spec _ R) as [R' D].
    split; [exact G'|]. split; [exact R'|]. intros k. rewrite E, D. apply A.
  Qed.

  Definition pair_st : Type := { x : pair_raw | agree x }.

  Definition pkv_put (k v : bytes) (s : pair_st) : pair_st := exist _ _ (pair_put_ok k v _ (proj2_sig s)).
  Definition pkv_del (k : bytes) (s : pair_st) : pair_st := exist _ _ (pair_del_ok k _ (proj2_sig s)).
  Definition pkv_scan (p : bytes) (s : pair_st) : option kvlist * pair_st :=
    (Some (fst (pair_scan cfg p (proj1_sig s))), exist _ _ (pair_scan_ok p _ (proj2_sig s))).
  Definition pkv_restore (cur saved : pair_st) : pair_st :=
    exist _ _ (pair_restore_ok (proj1_sig cur) _ (proj2_sig saved)).

  (* the DKV that is the pair (LSM side, durable side without background actions), redeployed by [ckpt_reopen] and
     [lsm_load]; [restore_over_lsm] is stated over it *)
  Definition pair_kv : KV :=
    {| kv_st := pair_st; kv_put := pkv_put; kv_del := pkv_del; kv_scan := pkv_scan; kv_restore := pkv_restore |}.

  Definition pair_contents (s : pair_st) : kvlist := C07_Refine.absm (fst (fst (proj1_sig s))).
  Definition durable (s : pair_st) : Ckpt.dbc := snd (proj1_sig s).

  Lemma init_agree sc mem wm : agree ((Lsm.init cfg, sc), Ckpt.db_new mem wm).
  Proof.
    split; [exact (init_good cfg Hcfg)|]. split; [apply C08_Ckpt.reach_new|].
    intros k. cbn [fst snd]. rewrite (C07_Refine.absm_init cfg). reflexivity.
  Qed.

  Definition pair_init (sc : schedule) (mem wm : N) : pair_st := exist _ _ (init_agree sc mem wm).

  Lemma pair_refines : refines_sm pair_kv pair_contents.
  Proof.
    apply (over_lsm_refines cfg Hcfg pair_kv (fun s => fst (proj1_sig s))); [|reflexivity|reflexivity|now split|].
    - intros s. exact (proj1 (proj2_sig s)).
    - intros cur s. apply lsm_load_spec, C07_Refine.absm_sorted.
  Qed.

  (* Every history with checkpoints and redeploys, every flush / compaction schedule before and after them: the
     operator over the pair never panics, the handler-visible trace is the specification machine's (after a redeploy:
     the fold of the mutations up to the barrier of the restored checkpoint, then of those since), and at the end
     (hence, histories being arbitrary, at every moment) the map served equals, key by key, the content of the durable
     database - which went through C08's Checkpoint capture and table-load + WAL-replay at every redeploy - and that
     database is one that can exist in the sense of C08. *)
  Theorem restore_over_lsm kgf accept h steps sc mem wm :
    handler_ok h -> Forall step_ok steps ->
    exists y, StateStore.run pair_kv kgf accept h (init_sys pair_kv (pair_init sc mem wm)) steps = Some y /\
              sy_trace y = o_trace (o_run h o_init steps) /\
              C08_Ckpt.reach (durable (sy_db y)) /\
              forall k, Lsm.sm_get k (pair_contents (sy_db y)) = Ckpt.db_get (durable (sy_db y)) k.
  Proof.
    intros Hh Hs.
    destruct (refines_trace pair_kv pair_contents pair_refines kgf accept h steps (pair_init sc mem wm)
                (C07_Refine.absm_init cfg) Hh Hs) as (y & E & T).
    exists y. exact (conj E (conj T (proj2 (proj2_sig (sy_db y))))).
  Qed.
End Restore.
