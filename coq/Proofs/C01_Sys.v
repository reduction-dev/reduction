(* C01 -- proofs about the protocol model Sys: the delivery invariant over ALL schedules (crash actions included),
   and exactly-once from it.

   Invariant of a deployment generation (delivery_inv): for every key k and split s, the records of (s,k) already
   applied at the owner of k, followed by those still waiting in the channel (runner of s -> owner of k), are exactly
   the records of key k among the first [pos s] records of split s, in split order.  Nothing lost, nothing twice, order
   kept -- at every moment, whatever the interleaving of emits, barriers, deliveries, checkpoint starts and
   acknowledgements (in any order).
   A crash re-establishes the invariant iff the checkpoint it restarts from is exact (Sys.ckpt_exact: per key and
   split exactly the records before the recorded position).  Exactness of what an acknowledgement publishes is the
   premise of step_inv_pub here; C01_Cut.publication_exact discharges it, from Sys's own alignment and publication (no
   theorem of another property is used).  Section WithComponents assumes it of every state with Inv instead; that
   hypothesis is refutable and nothing rests on the section. *)
From Coq Require Import List NArith Bool Arith Lia.
From RV Require Import Model.Sys.
From RV Require Import Base.Lists.
Import ListNotations.
Import Sys.

Lemma upd_same : forall (A : Type) (f : nat -> A) i v, upd f i v i = v.
Proof. intros; unfold upd; rewrite Nat.eqb_refl; reflexivity. Qed.
Lemma upd_other : forall (A : Type) (f : nat -> A) i j v, j <> i -> upd f i v j = f j.
Proof. intros A f i j v H; unfold upd. destruct (Nat.eqb_spec j i); [contradiction|reflexivity]. Qed.
Lemma upd2_same : forall (A : Type) (f : nat -> nat -> A) i j v, upd2 f i j v i j = v.
Proof. intros; unfold upd2; rewrite !Nat.eqb_refl; reflexivity. Qed.
Lemma upd2_other : forall (A : Type) (f : nat -> nat -> A) i j a b v, ~ (a = i /\ b = j) -> upd2 f i j v a b = f a b.
Proof.
  intros A f i j a b v H; unfold upd2.
  destruct (Nat.eqb_spec a i); destruct (Nat.eqb_spec b j); cbn; try reflexivity. exfalso; tauto.
Qed.
Lemma upd2_cases : forall (A : Type) (f : nat -> nat -> A) i j v a b,
  (a = i /\ b = j /\ upd2 f i j v a b = v) \/ upd2 f i j v a b = f a b.
Proof.
  intros A f i j v a b; unfold upd2.
  destruct (Nat.eqb_spec a i); destruct (Nat.eqb_spec b j); cbn; auto.
Qed.

(* which of the two an application of upd2 is, with the indices identified in the first case *)
Ltac case_upd2 :=
  match goal with |- context [upd2 ?f ?i ?j ?v ?a ?b] => destruct (upd2_cases _ f i j v a b) as [(-> & -> & ->)| ->] end.

Section Proofs.
Variable splits : list (list rec).
Variable owner : nat -> N -> nat.

Notation splitl := (Sys.split splits).
Notation nspl := (Sys.nsplits splits).
Notation stepS := (Sys.step splits owner).
Notation runS := (Sys.run splits owner).
Notation restartS := (Sys.restart owner).

(* an applied entry is of key k *)
Definition keyb (k : N) (e : entry) : bool := N.eqb (rkey (snd e)) k.
(* the records of split s among those applied for key k at k's owner, in application order *)
Definition papp (st : state) (s : nat) (k : N) : list rec := proj s (applied_of owner st k).

Lemma papp_eq : forall st s k, papp st s k = proj s (filter (keyb k) (olog st (owner (n st) k))).
Proof. reflexivity. Qed.

Lemma sub_app : forall k l1 l2, sub k (l1 ++ l2) = sub k l1 ++ sub k l2.
Proof. intros; apply filter_app. Qed.

Lemma proj_app : forall s l1 l2, proj s (l1 ++ l2) = proj s l1 ++ proj s l2.
Proof. intros; unfold proj; rewrite filter_app, map_app; reflexivity. Qed.

Lemma in_chan_app : forall s k q1 q2, in_chan s k (q1 ++ q2) = in_chan s k q1 ++ in_chan s k q2.
Proof. intros; apply flat_map_app. Qed.


(* the contribution of one applied entry / one channel item to (split s, key k) *)
Definition hit (s : nat) (k : N) (s0 : nat) (rc : rec) : list rec :=
  if Nat.eqb s0 s && N.eqb (rkey rc) k then [rc] else [].

Lemma hit_nil : forall s k s0 rc, s0 <> s \/ rkey rc <> k -> hit s k s0 rc = [].
Proof.
  intros s k s0 rc H; unfold hit.
  destruct (Nat.eqb_spec s0 s); [|reflexivity]. destruct (N.eqb_spec (rkey rc) k); [exfalso; tauto|reflexivity].
Qed.

Lemma hit_cases : forall s k s0 rc, (s0 = s /\ rkey rc = k) \/ hit s k s0 rc = [].
Proof.
  intros s k s0 rc; unfold hit.
  destruct (Nat.eqb_spec s0 s); [|auto]. destruct (N.eqb_spec (rkey rc) k); auto.
Qed.

Lemma papp_entry : forall s k l s0 rc,
  proj s (filter (fun e : entry => N.eqb (rkey (snd e)) k) (l ++ [(s0, rc)])) =
  proj s (filter (fun e : entry => N.eqb (rkey (snd e)) k) l) ++ hit s k s0 rc.
Proof.
  intros. rewrite filter_app, proj_app. f_equal.
  unfold hit, proj; cbn.
  destruct (N.eqb (rkey rc) k); cbn; [|rewrite andb_false_r; reflexivity].
  destruct (Nat.eqb s0 s); reflexivity.
Qed.

Lemma sub_hit : forall s k rc, sub k [rc] = hit s k s rc.
Proof. intros; unfold sub, hit; cbn. rewrite Nat.eqb_refl; cbn. destruct (N.eqb (rkey rc) k); reflexivity. Qed.

Lemma in_chan_snoc : forall s k q s0 rc, in_chan s k (q ++ [IRec s0 rc]) = in_chan s k q ++ hit s k s0 rc.
Proof. intros. rewrite in_chan_app. f_equal. apply app_nil_r. Qed.

Definition delivery_inv (st : state) : Prop :=
  forall s k, s < nspl ->
    papp st s k ++ in_chan s k (chan st (runner_of (n st) s) (owner (n st) k)) = sub k (firstn (pos st s) (splitl s)).

(* a record in channel (r,o) is of a split r runs and of a key o owns: lets step_deliver and cut_deliver attribute the
   head record of a channel *)
Definition item_wf (m r o : nat) (it : item) : Prop :=
  match it with IRec s rc => runner_of m s = r /\ owner m (rkey rc) = o | IBar => True end.
Definition chan_wf (st : state) : Prop := forall r o, Forall (item_wf (n st) r o) (chan st r o).

Definition pub_ok (st : state) : Prop :=
  match pub st with Some c => ckpt_exact splits c | None => True end.

(* what every state of a run satisfies provided publications are exact; the statement of
   Props.C01.restart_from_exact_checkpoint_is_consistent reads it *)
Definition Inv (st : state) : Prop := delivery_inv st /\ chan_wf st /\ pub_ok st.

(* the hypothesis of Section WithComponents: what an acknowledgement publishes is exact, asked of every state with Inv,
   reachable or not *)
Definition consistent_publication : Prop :=
  forall st i, Inv st -> pub_ok (stepS st (AAck i)).

(* the action delivers no acknowledgement to the job *)
Definition no_ack (a : action) : Prop := forall i, a <> AAck i.

Lemma restart_inv : forall m pb,
  (match pb with Some c => ckpt_exact splits c | None => True end) -> Inv (restartS m pb).
Proof.
  intros m pb Hpb. split; [|split].
  - intros s k Hs. destruct pb as [c|]; [|reflexivity].
    rewrite !papp_eq. cbn [Sys.restart Sys.fresh n pos chan olog]. cbn [in_chan flat_map]. rewrite app_nil_r.
    rewrite (filter_filter_imp (keyb k)).
    + apply Hpb; exact Hs.
    + intros e He. apply N.eqb_eq in He. rewrite He. apply Nat.eqb_refl.
  - intros r o. destruct pb; constructor.
  - destruct pb; exact Hpb.
Qed.

Lemma init_inv : forall m, Inv (init m).
Proof. intros m. exact (restart_inv m None I). Qed.

Lemma wf_upd2 : forall st r o q, chan_wf st -> Forall (item_wf (n st) r o) q ->
  forall a b, Forall (item_wf (n st) a b) (upd2 (chan st) r o q a b).
Proof.
  intros st r o q Hw Hq a b. case_upd2; [exact Hq|apply Hw].
Qed.

Lemma step_emit : forall st s, delivery_inv st -> chan_wf st ->
  delivery_inv (stepS st (AEmit s)) /\ chan_wf (stepS st (AEmit s)).
Proof.
  intros st s Hd Hw. unfold Sys.step.
  destruct (Nat.ltb s nspl) eqn:Hlt; [|auto].
  destruct (nth_error (splitl s) (pos st s)) as [rc|] eqn:Hn; [|auto].
  split.
  - intros s' k Hs'. rewrite !papp_eq; cbn [n pos chan olog].
    (* both sides grow by the contribution of the record read *)
    transitivity (sub k (firstn (pos st s') (splitl s')) ++ hit s' k s rc).
    + rewrite <- (Hd s' k Hs'), <- app_assoc, !papp_eq. f_equal.
      destruct (hit_cases s' k s rc) as [[<- <-]|Hh].
      * rewrite upd2_same. apply in_chan_snoc.
      * rewrite Hh, app_nil_r. case_upd2; [|reflexivity].
        rewrite in_chan_snoc, Hh. apply app_nil_r.
    + destruct (Nat.eq_dec s' s) as [->|Hne].
      * rewrite upd_same, (firstn_S_nth _ _ _ Hn), sub_app, (sub_hit s). reflexivity.
      * rewrite upd_other, hit_nil, app_nil_r by auto. reflexivity.
  - intros a b. apply (wf_upd2 st); [exact Hw|]. apply Forall_app; split; [apply Hw|]. repeat constructor.
Qed.

Lemma step_barrier : forall st r, delivery_inv st -> chan_wf st ->
  delivery_inv (stepS st (ABarrier r)) /\ chan_wf (stepS st (ABarrier r)).
Proof.
  intros st r Hd Hw. unfold Sys.step.
  destruct (Nat.ltb r (n st) && Nat.ltb (bars st r) (started st)); [|auto].
  split.
  - intros s k Hs. rewrite !papp_eq; cbn [n pos chan olog].
    rewrite <- (Hd s k Hs), !papp_eq. f_equal.
    destruct (Nat.eqb (runner_of (n st) s) r && Nat.ltb (owner (n st) k) (n st)); [|reflexivity].
    rewrite in_chan_app. apply app_nil_r.
  - intros a b; cbn [n chan].
    destruct (Nat.eqb a r && Nat.ltb b (n st)); [|apply Hw].
    apply Forall_app; split; [apply Hw|]. repeat constructor.
Qed.

(* [f] and [m] stand for the channels and the worker count of the state after the head of channel (r,o) is gone, known
   either as the fields of the record [step] builds ([step_deliver]) or by equations ([drop_bar]) *)
Lemma chan_tail_wf : forall st r o it q (f : nat -> nat -> list item) m,
  chan_wf st -> chan st r o = it :: q -> m = n st ->
  (forall a b, f a b = upd2 (chan st) r o q a b) ->
  forall a b, Forall (item_wf m a b) (f a b).
Proof.
  intros st r o it q f m Hw Hc -> Hf a b. rewrite Hf. apply wf_upd2; [exact Hw|].
  specialize (Hw r o). rewrite Hc in Hw. exact (Forall_inv_tail Hw).
Qed.

(* [delivery_inv] and [chan_wf] read n, pos, olog and, of a channel, its records: a barrier leaves the head of channel (r,o), got and
   inflight change as they like *)
Lemma drop_bar : forall st st' r o q, chan st r o = IBar :: q ->
  n st' = n st -> pos st' = pos st -> olog st' = olog st -> chan st' = upd2 (chan st) r o q ->
  delivery_inv st -> chan_wf st -> delivery_inv st' /\ chan_wf st'.
Proof.
  intros st st' r o q Hc En Ep Eo Ec Hd Hw. split.
  - intros s k Hs. rewrite !papp_eq, En, Ep, Eo, Ec, <- (Hd s k Hs), !papp_eq. f_equal.
    case_upd2; [rewrite Hc|]; reflexivity.
  - intros a b. apply (chan_tail_wf st r o IBar q (chan st') _ Hw Hc En). intros; rewrite Ec; reflexivity.
Qed.

(* the head item moves from the channel to the applied log (a record) or disappears (a barrier): what a split and a
   key see of log ++ channel does not change *)
Lemma step_deliver : forall st r o, delivery_inv st -> chan_wf st ->
  delivery_inv (stepS st (ADeliver r o)) /\ chan_wf (stepS st (ADeliver r o)).
Proof.
  intros st r o Hd Hw. unfold Sys.step.
  destruct (Nat.ltb r (n st) && Nat.ltb o (n st)); [|auto].
  destruct (chan st r o) as [|it q] eqn:Hc; [auto|].
  destruct it as [s0 rc|]; (destruct (memn r (got st o)); [auto|]).
  - pose proof (Hw r o) as Hro. rewrite Hc in Hro. destruct (Forall_inv Hro) as [Hr _].
    split; [|exact (chan_tail_wf st r o _ q _ _ Hw Hc eq_refl (fun _ _ => eq_refl))].
    intros s k Hs. rewrite !papp_eq; cbn [n pos chan olog].
    rewrite <- (Hd s k Hs), !papp_eq.
    destruct (Nat.eq_dec (owner (n st) k) o) as [->|Ho].
    + rewrite upd_same, (papp_entry s k), <- app_assoc. f_equal.
      destruct (Nat.eq_dec (runner_of (n st) s) r) as [->|Hne].
      * rewrite upd2_same, Hc. reflexivity.
      * rewrite upd2_other by tauto. rewrite hit_nil by (left; congruence). reflexivity.
    + rewrite upd_other, upd2_other by tauto. reflexivity.
  - (* the cut is taken and acknowledged, or the runner is parked *)
    destruct (all_in (n st) (r :: got st o)); apply (drop_bar st _ r o q); auto.
Qed.

Lemma step_start : forall st, delivery_inv st -> chan_wf st ->
  delivery_inv (stepS st AStart) /\ chan_wf (stepS st AStart).
Proof. intros st Hd Hw. unfold Sys.step. destruct (pend st); auto. Qed.

Lemma ack_frame : forall st i, let st' := stepS st (AAck i) in
  n st' = n st /\ pos st' = pos st /\ chan st' = chan st /\ olog st' = olog st.
Proof.
  intros st i. unfold Sys.step.
  destruct (nth_error (inflight st) i); [|auto]. destruct (pend st); [|auto].
  destruct (negb _); [auto|]. destruct (complete _ _); auto.
Qed.

Lemma step_ack : forall st i, delivery_inv st -> chan_wf st ->
  delivery_inv (stepS st (AAck i)) /\ chan_wf (stepS st (AAck i)).
Proof.
  intros st i Hd Hw. destruct (ack_frame st i) as (En & Ep & Ec & Eo). split.
  - intros s k Hs. rewrite !papp_eq, En, Ep, Ec, Eo. apply Hd, Hs.
  - intros r o. rewrite En, Ec. apply Hw.
Qed.

Lemma pub_unchanged : forall st a, (forall i, a <> AAck i) -> (forall w m, a <> ACrash w m) -> pub (stepS st a) = pub st.
Proof.
  intros st [s|r|r o| |i|w m] Hna Hnc; unfold Sys.step.
  - (* AEmit *) destruct (Nat.ltb s nspl), (nth_error (splitl s) (pos st s)); reflexivity.
  - (* ABarrier *) destruct (_ && _); reflexivity.
  - (* ADeliver *)
    destruct (_ && _), (chan st r o) as [|[s0 rc|] q], (memn r (got st o)), (all_in (n st) (r :: got st o)); reflexivity.
  - (* AStart *) destruct (pend st); reflexivity.
  - (* AAck *) destruct (Hna i eq_refl).
  - (* ACrash *) destruct (Hnc w m eq_refl).
Qed.

Lemma step_crash : forall st w m, Inv st -> Inv (stepS st (ACrash w m)).
Proof.
  intros st w m H. unfold Sys.step. destruct (Nat.ltb 0 m); [|exact H]. apply restart_inv, H.
Qed.

(* only an acknowledgement needs an argument about what is published *)
Lemma step_inv_pub : forall st a, (forall i, a = AAck i -> pub_ok (stepS st a)) -> Inv st -> Inv (stepS st a).
Proof.
  intros st a Hp H. pose proof H as [Hd [Hw Hb]].
  destruct a as [s|r|r o| |i|w m].
  - destruct (step_emit st s Hd Hw) as [H1 H2]. refine (conj H1 (conj H2 _)).
    unfold pub_ok. rewrite pub_unchanged by discriminate. exact Hb.
  - destruct (step_barrier st r Hd Hw) as [H1 H2]. refine (conj H1 (conj H2 _)).
    unfold pub_ok. rewrite pub_unchanged by discriminate. exact Hb.
  - destruct (step_deliver st r o Hd Hw) as [H1 H2]. refine (conj H1 (conj H2 _)).
    unfold pub_ok. rewrite pub_unchanged by discriminate. exact Hb.
  - destruct (step_start st Hd Hw) as [H1 H2]. refine (conj H1 (conj H2 _)).
    unfold pub_ok. rewrite pub_unchanged by discriminate. exact Hb.
  - destruct (step_ack st i Hd Hw) as [H1 H2]. refine (conj H1 (conj H2 _)). exact (Hp i eq_refl).
  - apply step_crash, H.
Qed.

Lemma step_inv_no_ack : forall st a, no_ack a -> Inv st -> Inv (stepS st a).
Proof. intros st a Hna. apply step_inv_pub. intros i E. destruct (Hna i E). Qed.

Lemma drained_exact : forall st s k, delivery_inv st -> drained splits st -> s < nspl -> papp st s k = sub k (splitl s).
Proof.
  intros st s k Hd [Hpos Hch] Hs. specialize (Hd s k Hs).
  rewrite Hch, app_nil_r, (Hpos s Hs), firstn_all in Hd. exact Hd.
Qed.

Section WithComponents.
Hypothesis Hpub : consistent_publication.

Lemma step_inv : forall st a, Inv st -> Inv (stepS st a).
Proof. intros st a H. apply step_inv_pub; [|exact H]. intros i ->. apply Hpub, H. Qed.

Lemma run_inv : forall sched st, Inv st -> Inv (runS st sched).
Proof. intros sched st. apply fold_left_inv. intros st' a. apply step_inv. Qed.

(* the two statements of Props/C01.v (there from C01_Cut, without it), under the section's hypothesis *)
Theorem given_state_is_applied_prefix : forall m sched s k, s < nspl ->
  let st := runS (init m) sched in
  exists rest, papp st s k ++ rest = sub k (firstn (pos st s) (splitl s)).
Proof.
  intros m sched s k Hs st.
  destruct (run_inv sched (init m) (init_inv m)) as [Hd _].
  eexists. apply Hd. exact Hs.
Qed.

Theorem exactly_once_from_components : forall m sched s k, s < nspl ->
  let st := runS (init m) sched in
  drained splits st -> papp st s k = sub k (splitl s).
Proof.
  intros m sched s k Hs st Hdr. apply drained_exact; [|exact Hdr|exact Hs].
  apply (run_inv sched (init m) (init_inv m)).
Qed.
End WithComponents.

(* without any hypothesis: schedules in which no acknowledgement is delivered to the job at all, so that nothing is
   ever published (any number of crashes included) *)
Lemma run_inv_no_ack : forall sched, Forall no_ack sched -> forall st, Inv st -> Inv (runS st sched).
Proof.
  intros sched Hna. apply fold_left_inv_in. intros st a Ha. apply step_inv_no_ack. exact (proj1 (Forall_forall _ _) Hna a Ha).
Qed.

Theorem exactly_once_before_first_publication : forall m sched s k, s < nspl ->
  Forall no_ack sched ->
  let st := runS (init m) sched in
  drained splits st -> papp st s k = sub k (splitl s).
Proof.
  intros m sched s k Hs Hna st Hdr. apply drained_exact; [|exact Hdr|exact Hs].
  apply (run_inv_no_ack sched Hna (init m) (init_inv m)).
Qed.

End Proofs.
