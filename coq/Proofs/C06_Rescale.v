(* What a new operator's database consists of after a rescale (restore_spec, restore_new_filter), and the witnesses
   that delimit rescale_exact, in Coq [sees_old_state]: the documents of D21 (levels not sorted) and of D22 (class
   recompacted_shared_table, for which sees_old_state fails of the present code). *)
From Coq Require Import List NArith Lia Bool Sorting.Permutation Sorting.Sorted.
From Coq Require Import ZifyN ZifyNat ZifyBool.
From RV Require Import Base.Lists Model.Rescale Proofs.C05_KeySpace Proofs.C06_Assign.
Import ListNotations.
Open Scope N_scope.

Definition payload (e : entry) := (e_key e, e_del e, e_val e).

Lemma replay_spec : forall own es st st', replay own st es = Some st' ->
  s_levels st' = s_levels st /\
  map payload (s_mem st') = rev (map payload (filter (fun e => key_in own (e_key e)) es)) ++ map payload (s_mem st) /\
  s_seq st <= s_seq st' /\
  (forall e, In e (s_mem st') -> In e (s_mem st) \/ (key_in own (e_key e) = true /\ s_seq st < e_seq e)) /\
  (* newest first, below the counter: kept *)
  (StronglySorted (fun a b => e_seq b < e_seq a) (s_mem st) -> (forall e, In e (s_mem st) -> e_seq e <= s_seq st) ->
   StronglySorted (fun a b => e_seq b < e_seq a) (s_mem st') /\ (forall e, In e (s_mem st') -> e_seq e <= s_seq st')).
Proof.
  intros own es. induction es as [|e es IH]; intros st st' H; cbn [replay] in H.
  - injection H as <-. cbn [filter map rev app]. repeat split; auto; lia.
  - assert (Hk : key_in own (e_key e) = match owns_key own (e_key e) with Some true => true | _ => false end) by reflexivity.
    cbn [filter]. destruct (owns_key own (e_key e)) as [[|]|]; rewrite Hk; [|exact (IH _ _ H)|discriminate].
    destruct (IH _ _ H) as (Hl & Hm & Hs & Hin & Hd). cbn [db_write s_levels s_mem s_seq] in *.
    split; [exact Hl|]. split; [rewrite Hm; cbn [map rev]; rewrite <- app_assoc; reflexivity|]. split; [lia|]. split.
    + intros x Hx. destruct (Hin x Hx) as [[<-|Hold]|[Hown Hseq]].
      * right. split; [exact Hk|cbn [e_seq]; lia].   (* the entry written for e *)
      * left. exact Hold.
      * right. split; [exact Hown|lia].
    + intros Hd0 Hb. apply Hd.
      * constructor; [exact Hd0|]. apply Forall_forall. intros x Hx. cbn [e_seq]. specialize (Hb x Hx). lia.
      * intros x [<-|Hx]; cbn [e_seq]; [lia|specialize (Hb x Hx); lia].
Qed.

Lemma zip_app_perm : forall a b l, zip_app a b = Some l -> Permutation (concat l) (concat a ++ concat b).
Proof.
  induction a as [|x a IH]; intros b l H; destruct b as [|y b]; cbn [zip_app] in H; try discriminate.
  - inversion H; subst. rewrite app_nil_r. apply Permutation_refl.
  - inversion H; subst. rewrite app_nil_r. apply Permutation_refl.
  - destruct (zip_app a b) as [r|] eqn:Hr; [|discriminate]. inversion H; subst. cbn [concat].
    specialize (IH b r Hr). rewrite <- !app_assoc. apply Permutation_app_head.
    eapply perm_trans; [apply Permutation_app_head; exact IH|].
    rewrite !app_assoc. apply Permutation_app_tail. apply Permutation_app_comm.
Qed.

Definition tables_of (d : ckdoc) : list table := concat (d_levels d).

Lemma merge_into_spec : forall rest c c', merge_into c rest = Some c' ->
  Permutation (tables_of c') (tables_of c ++ flat_map tables_of rest) /\
  d_wals c' = d_wals c ++ flat_map d_wals rest.
Proof.
  induction rest as [|d rest IH]; intros c c' H; cbn [merge_into] in H.
  - inversion H; subst. cbn [flat_map]. rewrite !app_nil_r. split; [apply Permutation_refl|reflexivity].
  - destruct (zip_app (d_levels c) (d_levels d)) as [l|] eqn:Hz; [|discriminate].
    destruct (IH _ _ H) as [Hp Hw]. unfold tables_of in *. cbn [d_levels d_wals flat_map] in *. split.
    + eapply perm_trans; [exact Hp|]. rewrite app_assoc. apply Permutation_app_tail. apply zip_app_perm; exact Hz.
    + rewrite Hw, app_assoc. reflexivity.
Qed.

Lemma sort_level_perm : forall l, Permutation (sort_level l) l.
Proof. exact (sort_by_perm _). Qed.
Lemma level_list_perm : forall b levels, Permutation (concat (level_list b levels)) (concat levels).
Proof.
  intros b [|l0 deeper]; cbn [level_list]; [apply perm_nil|]. cbn [concat]. apply Permutation_app_head.
  destruct b; [|apply Permutation_refl].
  induction deeper as [|l ls IH]; cbn [map concat]; [apply perm_nil|].
  apply Permutation_app; [apply sort_level_perm|exact IH].
Qed.

Lemma latest_seq_ge : forall levels t, In t (concat levels) -> t_endseq t <= latest_seq levels.
Proof. intros levels t. exact (proj1 (proj2 (fold_left_max_spec t_endseq (concat levels) 0)) t). Qed.

Lemma restore_spec : forall sorted own docs st,
  restore sorted own docs = Some st ->
  Permutation (concat (s_levels st)) (flat_map tables_of docs) /\
  map payload (s_mem st) = rev (map payload (filter (fun e => key_in own (e_key e)) (concat (flat_map d_wals docs)))) /\
  (forall e, In e (s_mem st) -> key_in own (e_key e) = true) /\
  (forall e t, In e (s_mem st) -> In t (concat (s_levels st)) -> t_endseq t < e_seq e) /\
  (forall t, In t (concat (s_levels st)) -> t_endseq t <= s_seq st).
Proof.
  intros sorted own [|d rest] st H; cbn [restore] in H.
  { injection H as <-. cbn. repeat split; [apply perm_nil|intros ? []|intros ? ? []|intros ? []]. }
  destruct (merge_into d rest) as [c|] eqn:Hm; [|discriminate].
  destruct (merge_into_spec _ _ _ Hm) as [Hp Hw].
  destruct (replay_spec _ _ _ _ H) as (Hl & Hmem & Hseq & Hin & _). cbn [s_levels s_mem s_seq] in *.
  rewrite Hl. split; [|split; [|split; [|split]]].
  - eapply perm_trans; [apply level_list_perm|]. exact Hp.
  - rewrite Hmem, app_nil_r, Hw. reflexivity.
  - intros e He. destruct (Hin e He) as [[]|[Hk _]]. exact Hk.
  - intros e t He Ht. destruct (Hin e He) as [[]|[_ Hq]]. pose proof (latest_seq_ge _ _ Ht). lia.
  - intros t Ht. pose proof (latest_seq_ge _ _ Ht). lia.
Qed.

(* what a rescale restores new operator i from: the recorded checkpoints whose range overlaps its own, in recorded order *)
Lemma restore_new_filter sorted count n recorded i : (i < N.to_nat n)%nat ->
  restore_new sorted count n recorded i =
  restore sorted (nth i (kg_ranges count n) (0, 0))
          (map snd (filter (fun rd => overlaps (nth i (kg_ranges count n) (0, 0)) (fst rd)) recorded)).
Proof.
  intros Hi. unfold restore_new. rewrite assign_ranges_nth by (rewrite kg_ranges_length; exact Hi).
  rewrite (pick_assign_scan _ recorded []). reflexivity.
Qed.

Lemma key_in_prefix r b0 b1 q k : is_prefix (b0 :: b1 :: q) k = true -> key_in r k = key_in r [b0; b1].
Proof. intros H. apply is_prefix_spec in H as [s ->]. reflexivity. Qed.

(* "each new operator sees, for the keys it owns, exactly the state the old owner had": as a proposition on the model *)
Definition sees_old_state (count n : N) (recorded : list (kgrange * ckdoc)) (i : nat) (p : bytes) : Prop :=
  forall j r d, nth_error recorded j = Some (r, d) ->
    (forall k, is_prefix p k = true -> key_in r k = true) ->       (* the prefix belongs to old operator j ... *)
    (forall k, is_prefix p k = true -> key_in (nth i (kg_ranges count n) (0, 0)) k = true) ->  (* ... and to new operator i *)
    match restore_new true count n recorded i, restore true r [d] with
    | Some st, Some st_old => scan_prefix st p = scan_prefix st_old p
    | _, _ => False
    end.

(* the test of the class recompacted_shared_table (D22) on the composite that new operator i is given *)
Definition class_witness (count n : N) (recorded : list (kgrange * ckdoc)) (i : nat) : bool :=
  match pick recorded (nth i (assign_ranges (kg_ranges count n) (map fst recorded)) []) with
  | Some (d :: rest) => match merge_into (snd d) (map snd rest) with
                        | Some c => overlapping_level (d_levels c)
                        | None => false end
  | _ => false
  end.

(* D21: before the repair (levels not sorted) a clean scale-in lost flushed state *)
Definition kA1 : bytes := [0;0;1].  Definition kA2 : bytes := [0;0;2].
Definition kB1 : bytes := [0;1;1;0].  Definition kB2 : bytes := [0;1;2;0].
Definition docA : ckdoc := mkD [[]; [mkT 1 kA1 kA2 2 [mkE kA1 1 false 11; mkE kA2 2 false 12]]] [[]].
Definition docB : ckdoc := mkD [[]; [mkT 2 kB1 kB2 2 [mkE kB1 1 false 21; mkE kB2 2 false 22]]] [[]].
(* two operators, two key groups, acknowledgements recorded [op1, op0], restart with one operator *)
Definition d21_recorded : list (kgrange * ckdoc) := [((1, 2), docB); ((0, 1), docA)].

(* D22: the full statement is false of the repaired code (class recompacted_shared_table) *)
(* after a scale-out 1 -> 2 both operators held table 1 = {kA1, kA2, kB1}; operator 1 (key group 1) re-compacted it
   together with its new write kB2 into table 2, operator 0 kept table 1.  Scale-in 2 -> 1, acknowledgements [op1, op0]:
   the level is [table 2; table 1] (equal start keys), the binary search for prefix [0;1;2] probes table 1 (ends
   before the prefix), moves right and finds nothing: kB2 is lost although its old owner had it. *)
Definition docB' : ckdoc := mkD [[]; [mkT 2 kA1 kB2 4 [mkE kA1 1 false 11; mkE kA2 2 false 12; mkE kB1 3 false 21; mkE kB2 4 false 22]]] [[]].
Definition docA' : ckdoc := mkD [[]; [mkT 1 kA1 kB1 3 [mkE kA1 1 false 11; mkE kA2 2 false 12; mkE kB1 3 false 21]]] [[]].
Definition d22_recorded : list (kgrange * ckdoc) := [((1, 2), docB'); ((0, 1), docA')].
