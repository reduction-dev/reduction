(* C03: the keyed state store over ANY DKV that refines the sorted-map specification hands the handler
   exactly the fold of the mutations it returned before - refinement proof by a simulation invariant.

   Composition with the DKV properties (C07 reads, C18 compaction, C08 checkpoint/restore) is explicit: Section
   [Refine] takes the DKV operations [K] and the statement "K refines the sorted association list" as hypotheses
   ([H_put], [H_del], [H_scan] - a scan may fail -, [H_restore]).  [refines_sm K contents] is that statement for a DKV
   whose scans cannot fail, the form in which the LSM-backed instances deliver it (Proofs/C03_OverLsm.v, C03_Restore.v,
   C03_RestoreBg.v); [refines_trace] is the theorem for those. *)
From RV Require Import Base.KeySorted Model.StateStore Proofs.C03_Codec.
Open Scope N_scope.

Fixpoint lt_all (k : bytes) (m : kvlist) : Prop :=
  match m with [] => True | (k', _) :: m' => bcmp k k' = Lt /\ lt_all k m' end.
Fixpoint sorted (m : kvlist) : Prop :=
  match m with [] => True | (k, _) :: m' => lt_all k m' /\ sorted m' end.

Lemma lt_all_trans a b m : bcmp a b = Lt -> lt_all b m -> lt_all a m.
Proof.
  intros Hab. induction m as [|[k v] m IH]; cbn; [trivial|]. intros [H1 H2]. split; [|auto].
  eapply bcmp_lt_trans; eauto.
Qed.

(* the specification's [sorted], [sm_put], [sm_del] are those of Base/KeySorted.v on pairs keyed by [fst] *)
Lemma lt_all_above k m : lt_all k m <-> above fst k m.
Proof.
  induction m as [|[k' v] m IH]; cbn [lt_all]; [split; [intros _ ? []|trivial]|]. rewrite IH. split.
  - intros [H1 H2] y [<-|Hy]; auto.
  - intros H. split; [apply (H (k', v)); now left|intros y Hy; apply H; now right].
Qed.

Lemma sorted_asc m : sorted m <-> asc fst m.
Proof. induction m as [|[k v] m IH]; cbn [sorted asc fst]; [tauto|]. now rewrite lt_all_above, IH. Qed.

Lemma sm_put_kput k v m : sm_put k v m = kput fst (k, v) m.
Proof. induction m as [|[k' v'] m IH]; cbn; [|rewrite IH]; reflexivity. Qed.

Lemma sm_del_kdel k m : sm_del k m = kdel fst k m.
Proof. induction m as [|[k' v'] m IH]; cbn; [|rewrite IH]; reflexivity. Qed.

Definition sm_write (k : bytes) (o : option bytes) (m : kvlist) : kvlist :=
  match o with Some v => sm_put k v m | None => sm_del k m end.

Lemma sorted_sm_write k o m : sorted m -> sorted (sm_write k o m).
Proof.
  rewrite !sorted_asc. destruct o as [v|]; cbn [sm_write];
    [rewrite sm_put_kput; apply kput_asc|rewrite sm_del_kdel; apply kdel_asc].
Qed.

(* a write of a key outside the prefix leaves the scan alone: no scanned entry has that key *)
Lemma scan_sm_write p k o m :
  sorted m -> sm_scan p (sm_write k o m) = if is_prefix p k then sm_write k o (sm_scan p m) else sm_scan p m.
Proof.
  intros H%sorted_asc. unfold sm_scan.
  assert (Hout : is_prefix p k = false -> kdel fst k (filter (fun kv => is_prefix p (fst kv)) m) = filter (fun kv => is_prefix p (fst kv)) m).
  { intros P. apply kdel_absent. intros z [_ Hz]%filter_In <-. congruence. }
  destruct o as [v|]; cbn [sm_write].
  - rewrite !sm_put_kput, filter_kput by exact H. cbn [fst]. destruct (is_prefix p k); auto.
  - rewrite !sm_del_kdel, filter_kdel by exact H. destruct (is_prefix p k); auto.
Qed.

Definition ns_ok (ns : bytes) : Prop := blen ns < 256.
Definition key_ok (k : bytes) : Prop := blen k < 2 ^ 32.
Definition fm_ok (m : flatmap) : Prop := Forall (fun xv => ns_ok (fst (fst xv))) m.

Definition encp (kgf : bytes -> N) (k : bytes) (xv : ekey * bytes) : bytes * bytes :=
  (enc_db kgf k (fst (fst xv)) (snd (fst xv)), snd xv).

Definition fm_write (x : ekey) (o : option bytes) (m : flatmap) : flatmap :=
  match o with Some v => fm_put x v m | None => fm_del x m end.

(* A write to the flat map is a write to its image under any embedding [f] of the order into byte strings, wherever
   [f] is one ([D]): the stored keys of one subject where the namespaces fit the length byte (below), [ekey_enc]
   everywhere (Proofs/C03_View.v). *)
Definition emb (f : ekey -> bytes) (xv : ekey * bytes) : bytes * bytes := (f (fst xv), snd xv).

Lemma map_emb_fm_write (f : ekey -> bytes) (D : ekey -> Prop) x o m :
  (forall a b, D a -> D b -> bcmp (f a) (f b) = ekey_cmp a b) -> D x -> Forall (fun xv => D (fst xv)) m ->
  map (emb f) (fm_write x o m) = sm_write (f x) o (map (emb f) m).
Proof.
  intros Hf Hx. induction 1 as [|[y w] m Hy _ IH]; [now destruct o|].
  destruct o as [v|]; cbn [fm_write fm_put fm_del sm_write sm_put sm_del map emb fst snd] in *;
    rewrite Hf by assumption; destruct (ekey_cmp x y); cbn [map]; now rewrite ?IH.
Qed.

Lemma map_encp_fm_write kgf k x o m :
  ns_ok (fst x) -> fm_ok m -> map (encp kgf k) (fm_write x o m) = sm_write (enc_db kgf k (fst x) (snd x)) o (map (encp kgf k) m).
Proof.
  apply (map_emb_fm_write (fun a => enc_db kgf k (fst a) (snd a)) (fun a => ns_ok (fst a))).
  intros [ns e] [ns' e']. apply enc_db_order.
Qed.

Lemma fm_ok_write x o m : ns_ok (fst x) -> fm_ok m -> fm_ok (fm_write x o m).
Proof.
  intros Hx. induction 1 as [|[y w] m Hy Hm IH]; [destruct o; now repeat constructor|].
  destruct o as [v|]; cbn [fm_write fm_put fm_del] in *; destruct (ekey_cmp x y); repeat constructor; assumption.
Qed.

Definition unflat (xv : ekey * bytes) : bytes * entry := (fst (fst xv), (snd (fst xv), snd xv)).

Lemma decode_entries_encp kgf k m :
  key_ok k -> fm_ok m -> decode_entries (map (encp kgf k) m) = Some (map unflat m).
Proof.
  intros Hk. induction 1 as [|[[ns e] v] m Hy _ IH]; cbn [map decode_entries encp fst snd]; [reflexivity|].
  now rewrite decode_encode_g, IH.
Qed.

Lemma view_unflat m : view m = group_ns (map unflat m).
Proof. reflexivity. Qed.

(* The specification machine keeps nothing but the log of the responses the handler has returned. *)

Record osys := { o_log : list response; o_saved : list (N * list response); o_trace : list (request * response) }.

Definition o_state (log : list response) (k : bytes) : list ns_state := view (fm_of_responses k log).

Definition o_step (h : handler) (a : osys) (st : step) : osys :=
  match st with
  | SBatch [] => a
  | SBatch evs =>
      let rq := {| rq_states := map (fun k => (k, o_state (o_log a) k)) (distinct_keys [] (map fst evs)); rq_events := evs |} in
      let rs := h rq in
      {| o_log := o_log a ++ [rs]; o_saved := o_saved a; o_trace := o_trace a ++ [(rq, rs)] |}
  | STimerDel _ _ => a
  | SCkpt id => {| o_log := o_log a; o_saved := (id, o_log a) :: o_saved a; o_trace := o_trace a |}
  | SRestore id =>
      match lookup_ckpt id (o_saved a) with
      | Some l => {| o_log := l; o_saved := o_saved a; o_trace := o_trace a |}
      | None => a
      end
  end.

Definition o_run (h : handler) (a : osys) (steps : list step) : osys := fold_left (o_step h) steps a.

Definition o_init : osys := {| o_log := []; o_saved := []; o_trace := [] |}.

(* guards: what a response / an event may contain *)
Definition nsm_ok (nm : nsmuts) : Prop := ns_ok (fst nm).
Definition kr_ok (kr : key_result) : Prop := key_ok (kr_key kr) /\ Forall nsm_ok (kr_muts kr).
Definition resp_ok (rs : response) : Prop := Forall kr_ok rs.
Definition handler_ok (h : handler) : Prop := forall rq, resp_ok (h rq).
Definition step_ok (st : step) : Prop :=
  match st with
  | SBatch evs => Forall (fun ev => key_ok (fst ev)) evs
  | STimerDel k _ => key_ok k
  | _ => True
  end.

Lemma fm_of_responses_snoc k log rs :
  fm_of_responses k (log ++ [rs]) = fm_apply_response k (fm_of_responses k log) rs.
Proof. unfold fm_of_responses. rewrite fold_left_app. reflexivity. Qed.

Definition init_sys (K : KV) (s0 : kv_st K) : sys K := {| sy_db := s0; sy_saved := []; sy_trace := [] |}.

(* "K refines the sorted map through [contents]", for a DKV without read faults.  C03_OverLsm.lsm_refines_sorted_map
   states the same four laws of the LSM instance as a conjunction, the form in which Section Sim of
   Proofs/C10_OverLsm.v (four hypotheses) takes them; [list_kv_refines] below is the conjunction for the list
   specification. *)
Record refines_sm (K : KV) (contents : kv_st K -> kvlist) : Prop := {
  rs_put : forall k v s, contents (kv_put K k v s) = sm_put k v (contents s);
  rs_del : forall k s, contents (kv_del K k s) = sm_del k (contents s);
  rs_scan : forall p s, fst (kv_scan K p s) = Some (sm_scan p (contents s)) /\ contents (snd (kv_scan K p s)) = contents s;
  rs_restore : forall cur s, contents (kv_restore K cur s) = contents s }.

Section Refine.
  Variable K : KV.
  Variable contents : kv_st K -> kvlist.
  Hypothesis H_put : forall k v s, contents (kv_put K k v s) = sm_put k v (contents s).
  Hypothesis H_del : forall k s, contents (kv_del K k s) = sm_del k (contents s).
  Hypothesis H_scan : forall p s,
    (forall l, fst (kv_scan K p s) = Some l -> l = sm_scan p (contents s)) /\ contents (snd (kv_scan K p s)) = contents s.
  (* "no read fault occurs" *)
  Definition scan_total : Prop := forall p s, fst (kv_scan K p s) <> None.
  Hypothesis H_restore : forall cur s, contents (kv_restore K cur s) = contents s.

  Variable kgf : bytes -> N.
  Variable accept : bytes -> Z -> bool.

  (* The three parts, for every subject: the contents ascend ([scan_sm_write] needs it); the scan under the subject's
     prefix, which is what GetState reads, is its flat map in stored form; the namespaces fit the length byte (the guard
     of [enc_db_order]). *)
  Definition Inv (s : kv_st K) (A : bytes -> flatmap) : Prop :=
    sorted (contents s) /\
    (forall k, key_ok k -> sm_scan (enc_subject kgf k) (contents s) = map (encp kgf k) (A k)) /\
    (forall k, fm_ok (A k)).

  (* [Inv] read at one observing subject [k] ([inv_holds]).  A write is judged per observing subject - its own flat map
     takes the write, every other is untouched - so the preservation lemmas are stated for [holds]. *)
  Definition holds (s : kv_st K) (k : bytes) (m : flatmap) : Prop :=
    sorted (contents s) /\
    (key_ok k -> sm_scan (enc_subject kgf k) (contents s) = map (encp kgf k) m) /\
    fm_ok m.

  Lemma inv_holds s A : Inv s A <-> forall k, holds s k (A k).
  Proof.
    split.
    - intros (I1 & I2 & I3) k. exact (conj I1 (conj (I2 k) (I3 k))).
    - intros H. split; [apply (H [])|]. split; intros k; apply (H k).
  Qed.

  Lemma subject_prefix_beqb k k' ns e :
    key_ok k -> key_ok k' -> is_prefix (enc_subject kgf k') (enc_db kgf k ns e) = beqb k k'.
  Proof.
    intros Hk Hk'. apply eq_true_iff_eq. rewrite subject_prefix_free_g, beqb_eq by assumption. split; congruence.
  Qed.

  Definition kv_write (kk : bytes) (o : option bytes) (s : kv_st K) : kv_st K :=
    match o with Some v => kv_put K kk v s | None => kv_del K kk s end.

  Lemma contents_write kk o s : contents (kv_write kk o s) = sm_write kk o (contents s).
  Proof. destruct o; [apply H_put|apply H_del]. Qed.

  Lemma holds_state_write s k ns e o k' m : key_ok k -> ns_ok ns -> holds s k' m ->
    holds (kv_write (enc_db kgf k ns e) o s) k' (if beqb k k' then fm_write (ns, e) o m else m).
  Proof.
    intros Hk Hns (I1 & I2 & I3). split; [rewrite contents_write; now apply sorted_sm_write|]. split.
    - intros Hk'. rewrite contents_write, scan_sm_write, subject_prefix_beqb, (I2 Hk') by assumption.
      destruct (beqb k k') eqn:B; [|reflexivity]. apply beqb_eq in B as <-.
      symmetry. now apply (map_encp_fm_write kgf k (ns, e)).
    - destruct (beqb k k'); [now apply fm_ok_write|exact I3].
  Qed.

  Lemma holds_mutation s k ns mu k' m : key_ok k -> ns_ok ns -> holds s k' m ->
    holds (apply_mutation K kgf k ns s mu) k' (if beqb k k' then fm_apply ns m mu else m).
  Proof. destruct mu as [e v|e]; [apply (holds_state_write s k ns e (Some v))|apply (holds_state_write s k ns e None)]. Qed.

  (* writes and deletes of timer keys are invisible to every subject's state *)
  Lemma holds_timer_write s k t o k' m : holds s k' m -> holds (kv_write (enc_timer kgf k t) o s) k' m.
  Proof.
    intros (I1 & I2 & I3). split; [rewrite contents_write; now apply sorted_sm_write|]. split; [|exact I3].
    intros Hk'. rewrite contents_write, scan_sm_write, timer_not_under_subject by exact I1. now apply I2.
  Qed.

  (* The store applies a list (of mutations, namespaces, timers, key results) to the database while the specification
     folds the same list over the flat map of the subject it belongs to; [b]: is that the observing subject. *)
  Lemma holds_fold {X} (P : X -> Prop) (g : kv_st K -> X -> kv_st K) (f : flatmap -> X -> flatmap) (b : bool) k' :
    (forall s m x, P x -> holds s k' m -> holds (g s x) k' (if b then f m x else m)) ->
    forall l s m, Forall P l -> holds s k' m -> holds (fold_left g l s) k' (if b then fold_left f l m else m).
  Proof.
    intros Hstep l. induction l as [|x l IH]; intros s m Hl H; cbn [fold_left]; [now destruct b|].
    inversion Hl as [|? ? Hx Hl']; subst. specialize (IH _ _ Hl' (Hstep s m x Hx H)). now destruct b.
  Qed.

  Lemma holds_apply_result s kr k' m : kr_ok kr -> holds s k' m ->
    holds (apply_result K kgf accept s kr) k' (if beqb (kr_key kr) k' then fold_left fm_apply_ns (kr_muts kr) m else m).
  Proof.
    intros [Hk Hm] H. unfold apply_result, apply_mutations.
    apply (holds_fold nsm_ok _ fm_apply_ns); [|exact Hm|].
    - intros s1 m1 nm Hnm. apply (holds_fold (fun _ => True) _ (fm_apply (fst nm))); [|apply Forall_forall; trivial].
      intros s2 m2 mu _. now apply holds_mutation.
    - apply (holds_fold (fun _ => True) _ (fun m _ => m) false); [|apply Forall_forall; trivial|exact H].
      intros s1 m1 t _ H1. destruct (accept (kr_key kr) t); [exact (holds_timer_write _ _ _ (Some []) _ _ H1)|exact H1].
  Qed.

  Definition A_of (log : list response) : bytes -> flatmap := fun k => fm_of_responses k log.

  Lemma inv_apply_results s log rs :
    resp_ok rs -> Inv s (A_of log) -> Inv (fold_left (apply_result K kgf accept) rs s) (A_of (log ++ [rs])).
  Proof.
    intros Hrs HI. apply inv_holds. intros k. unfold A_of. rewrite fm_of_responses_snoc.
    apply (holds_fold kr_ok _ _ true); [|exact Hrs|exact (proj1 (inv_holds _ _) HI k)].
    intros s1 m1 kr. apply holds_apply_result.
  Qed.

  Lemma inv_contents s s' A : contents s' = contents s -> Inv s A -> Inv s' A.
  Proof. intros E. unfold Inv. rewrite E. tauto. Qed.

  (* reading: GetState returns the complete grouped flat map of that subject or an error - nothing in between -,
     never panics, leaves the contents alone *)
  Lemma get_state_inv s A k : key_ok k -> Inv s A ->
    exists s', contents s' = contents s /\
      (get_state K kgf k s = FOk (view (A k)) s' \/ (get_state K kgf k s = FErr s' /\ ~ scan_total)).
  Proof.
    intros Hk (I1 & I2 & I3). unfold get_state.
    destruct (H_scan (enc_subject kgf k) s) as [E1 E2].
    destruct (kv_scan K (enc_subject kgf k) s) as [[l|] s'] eqn:Es; cbn [fst snd] in *; exists s'; (split; [exact E2|]).
    - left. rewrite (E1 l eq_refl), (I2 k Hk), decode_entries_encp by (auto; apply I3). reflexivity.
    - right. split; [reflexivity|]. intros T. apply (T (enc_subject kgf k) s). now rewrite Es.
  Qed.

  Lemma fetch_states_inv ks : forall s A,
    Forall key_ok ks -> Inv s A ->
    exists s', contents s' = contents s /\
      (fetch_states K kgf ks s = FOk (map (fun k => (k, view (A k))) ks) s' \/
       (fetch_states K kgf ks s = FErr s' /\ ~ scan_total)).
  Proof.
    induction ks as [|k ks IH]; intros s A Hks HI; cbn [fetch_states map]; [exists s; auto|].
    inversion Hks as [|? ? Hk Hks']; subst.
    destruct (get_state_inv s A k Hk HI) as (s1 & C1 & [->|[-> N1]]); [|exists s1; auto].
    destruct (IH s1 A Hks' (inv_contents _ _ _ C1 HI)) as (s2 & C2 & [->|[-> N2]]); exists s2; rewrite C2; auto.
  Qed.

  Lemma batch_keys_ok (evs : list event) seen :
    Forall (fun ev => key_ok (fst ev)) evs -> Forall key_ok (distinct_keys seen (map fst evs)).
  Proof.
    intros H. revert seen. induction H as [|ev evs Hk _ IH]; intros seen; cbn [map distinct_keys]; [constructor|].
    destruct (mem_bytes (fst ev) seen); [apply IH|constructor; [exact Hk|apply IH]].
  Qed.

  (* a failed read applies nothing: the batch ends with BFailed, the handler is not called, the contents stay *)
  Lemma failed_scan_applies_nothing h evs s s1 A :
    Forall (fun ev => key_ok (fst ev)) evs -> Inv s A ->
    fetch_states K kgf (distinct_keys [] (map fst evs)) s = FErr s1 ->
    process_batch K kgf accept h evs s = Some (BFailed, s1) /\ contents s1 = contents s.
  Proof.
    intros Hev HI E. unfold process_batch. destruct evs as [|ev evs]; [discriminate|]. rewrite E.
    destruct (fetch_states_inv _ s A (batch_keys_ok _ [] Hev) HI) as (s' & C & [E'|[E' _]]); rewrite E in E'; [discriminate|].
    injection E' as <-. auto.
  Qed.

  Definition saved_sim (ys : list (N * kv_st K)) (os : list (N * list response)) : Prop :=
    forall id, match lookup_ckpt id ys, lookup_ckpt id os with
               | Some s, Some l => Inv s (A_of l)
               | None, None => True
               | _, _ => False
               end.

  Definition Sim (y : sys K) (a : osys) : Prop :=
    Inv (sy_db y) (A_of (o_log a)) /\ saved_sim (sy_saved y) (o_saved a) /\ sy_trace y = o_trace a.

  (* one step: either it is simulated by the specification machine, or it is a batch whose read failed (possible
     only if scans can fail) and then nothing changes that the specification machine could see *)
  Lemma sim_step h y a st :
    handler_ok h -> step_ok st -> Sim y a ->
    exists y', do_step K kgf accept h y st = Some y' /\
      (Sim y' (o_step h a st) \/ (Sim y' a /\ (exists evs, st = SBatch evs) /\ ~ scan_total)).
  Proof.
    intros Hh Hst (HI & HS & HT). destruct st as [[|ev evs]|k t|id|id]; cbn [do_step o_step].
    - (* empty flush *) eexists; split; [reflexivity|]. left. exact (conj HI (conj HS HT)).
    - (* batch *) unfold process_batch.
      destruct (fetch_states_inv _ _ _ (batch_keys_ok _ [] Hst) HI) as (s1 & Cf & [->|[-> Nf]]);
        apply (inv_contents _ _ _ Cf) in HI; (eexists; split; [reflexivity|]).
      + (* the read succeeded *) left. split; [|split; [exact HS|cbn; now rewrite HT]]. apply inv_apply_results; [apply Hh|exact HI].
      + (* the read failed *) right. split; [exact (conj HI (conj HS HT))|]. split; [eexists; reflexivity|exact Nf].
    - (* timer delete *) eexists; split; [reflexivity|]. left. split; [|exact (conj HS HT)].
      apply inv_holds. intros k'. exact (holds_timer_write _ _ _ None _ _ (proj1 (inv_holds _ _) HI k')).
    - (* checkpoint *) eexists; split; [reflexivity|]. left. split; [exact HI|]. split; [|exact HT].
      intros id'. cbn [lookup_ckpt sy_saved o_saved]. destruct (id =? id'); [exact HI|apply HS].
    - (* redeploy: both sides know the id, or neither does *) pose proof (HS id) as HL.
      destruct (lookup_ckpt id (sy_saved y)) as [s|], (lookup_ckpt id (o_saved a)) as [l|]; try contradiction;
        (eexists; split; [reflexivity|]); left.
      + (* known id *) split; [|exact (conj HS HT)]. exact (inv_contents _ _ _ (H_restore _ _) HL).
      + (* unknown id: nothing changes *) exact (conj HI (conj HS HT)).
  Qed.

  (* [pruned steps steps']: steps' is steps without some of its batches (the ones whose read failed) *)
  Inductive pruned : list step -> list step -> Prop :=
  | pr_nil : pruned [] []
  | pr_keep st l l' : pruned l l' -> pruned (st :: l) (st :: l')
  | pr_drop evs l l' : pruned l l' -> pruned (SBatch evs :: l) l'.

  Lemma sim_run h steps : forall y a,
    handler_ok h -> Forall step_ok steps -> Sim y a ->
    exists y' steps', run K kgf accept h y steps = Some y' /\ pruned steps steps' /\ Sim y' (o_run h a steps') /\
                      (scan_total -> steps' = steps).
  Proof.
    induction steps as [|st steps IH]; intros y a Hh Hs HS; cbn [run].
    - exists y, []. split; [reflexivity|]. split; [constructor|]. split; [exact HS|reflexivity].
    - inversion Hs as [|? ? Hst Hs']; subst.
      destruct (sim_step h y a st Hh Hst HS) as (y1 & -> & [HS1|(HS1 & (evs & ->) & Nt)]);
        destruct (IH y1 _ Hh Hs' HS1) as (y' & steps' & R & P & S' & T).
      + exists y', (st :: steps'). split; [exact R|]. split; [now constructor|]. split; [exact S'|].
        intros Ht. now rewrite (T Ht).
      + exists y', steps'. split; [exact R|]. split; [now constructor|]. split; [exact S'|]. contradiction.
  Qed.

  Lemma init_sim s0 : contents s0 = [] -> Sim (init_sys K s0) o_init.
  Proof.
    intros H0. unfold Sim, A_of, init_sys; cbn [sy_db sy_saved sy_trace o_init o_log o_saved o_trace].
    split; [|split; [intros id; exact I|reflexivity]].
    unfold Inv. rewrite H0. split; [exact I|split].
    - intros k _. reflexivity.
    - intros k. constructor.
  Qed.

  (* With read faults: the model never panics, and the handler-visible trace is that of the specification machine on
     the history without the batches whose read failed - every handler call still gets the COMPLETE fold of everything
     applied before it; a failed batch is invisible (no call, nothing applied). *)
  Theorem refines_per_key_map_faulty h steps s0 :
    contents s0 = [] -> handler_ok h -> Forall step_ok steps ->
    exists y steps', run K kgf accept h (init_sys K s0) steps = Some y /\ pruned steps steps' /\
                     sy_trace y = o_trace (o_run h o_init steps').
  Proof.
    intros H0 Hh Hs.
    destruct (sim_run h steps (init_sys K s0) o_init Hh Hs (init_sim s0 H0)) as (y & steps' & E & P & (_ & _ & HT) & _).
    exists y, steps'. auto.
  Qed.

  (* The model, started on an empty database, never panics and - when no read fault occurs - produces exactly the
     trace of the specification machine: every request carries, for each distinct key of the batch, the grouped fold
     of all mutations returned for that key so far (since the start or the restored checkpoint). *)
  Theorem refines_per_key_map h steps s0 :
    scan_total -> contents s0 = [] -> handler_ok h -> Forall step_ok steps ->
    exists y, run K kgf accept h (init_sys K s0) steps = Some y /\
              sy_trace y = o_trace (o_run h o_init steps).
  Proof.
    intros Ht H0 Hh Hs.
    destruct (sim_run h steps (init_sys K s0) o_init Hh Hs (init_sim s0 H0)) as (y & steps' & E & P & (_ & _ & HT) & T).
    exists y. rewrite (T Ht) in HT. auto.
  Qed.
End Refine.

(* the list-based specification of the DKV has the four laws, [contents] being the identity: the conjunction form,
   which its one user [refines_per_key_map_list] packs into [refines_sm] *)
Lemma list_kv_refines :
  (forall k v s, (fun m : kv_st list_kv => m) (kv_put list_kv k v s) = sm_put k v s) /\
  (forall k s, (fun m : kv_st list_kv => m) (kv_del list_kv k s) = sm_del k s) /\
  (forall p s, fst (kv_scan list_kv p s) = Some (sm_scan p s) /\ snd (kv_scan list_kv p s) = s) /\
  (forall cur s, kv_restore list_kv cur s = s).
Proof. repeat split. Qed.

Theorem refines_trace (K : KV) (contents : kv_st K -> kvlist) : refines_sm K contents ->
  forall kgf accept h steps s0, contents s0 = [] -> handler_ok h -> Forall step_ok steps ->
    exists y, run K kgf accept h (init_sys K s0) steps = Some y /\ sy_trace y = o_trace (o_run h o_init steps).
Proof.
  intros [Hp Hd Hs Hr] kgf accept h steps s0. apply (refines_per_key_map K contents Hp Hd); [|exact Hr|].
  - intros p s. destruct (Hs p s) as [E1 E2]. split; [|exact E2]. rewrite E1. now intros l [= <-].
  - intros p s. now rewrite (proj1 (Hs p s)).
Qed.

Theorem refines_per_key_map_list kgf accept h steps :
  handler_ok h -> Forall step_ok steps ->
  exists y, run list_kv kgf accept h (init_sys list_kv []) steps = Some y /\
            sy_trace y = o_trace (o_run h o_init steps).
Proof.
  destruct list_kv_refines as (Hp & Hd & Hs & Hr).
  now apply (refines_trace list_kv (fun m => m) (Build_refines_sm _ _ Hp Hd Hs Hr)).
Qed.
