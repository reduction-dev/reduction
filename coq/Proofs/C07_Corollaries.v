(* What Props/C07.v and Props/C18.v state about the running database beside the refinement itself: every reachable state
   has a valid reader layout, the specification map as live content and a valid level list ([reachable_proof]); the table
   file numbers handed out along a history are pairwise different ([table_names_unique_proof]). *)
From Coq Require Import List NArith Bool Lia.
From RV Require Import Base.Lists Base.Bytes Model.LsmBase Model.LsmCompaction Model.Lsm
  Proofs.C18_Layout Proofs.C18_Reader Proofs.C18_Main Proofs.C07_Refine.
Import ListNotations.
Open Scope N_scope.

Theorem reachable_proof cfg acts st os :
  cfg_ok cfg -> run cfg (init cfg) acts = Some (st, os) ->
  LLInv (vll st) /\ absm st = fold_left spec_step acts [] /\ valid (lv st).
Proof.
  intros Hcfg Hr. destruct (run_refines cfg Hcfg acts _ _ _ (init_inv cfg Hcfg) Hr) as (_ & HI & Ha).
  rewrite absm_init in Ha. destruct HI as [Hll Hlen _ Hreal _ _ _ _ _]. split; [exact Hll|]. split; [exact Ha|]. split; [|split; assumption].
  apply (LLInv_real _ (mts st)); [assumption|apply len_ne; assumption].
Qed.

Theorem reachable_valid_proof cfg acts st os :
  cfg_ok cfg -> run cfg (init cfg) acts = Some (st, os) -> valid (lv st).
Proof. intros H1 H2. exact (proj2 (proj2 (reachable_proof cfg acts st os H1 H2))). Qed.

Theorem table_names_unique_proof cfg acts : forall st ctr,
  NoDup (run_names cfg st ctr acts) /\ forall x, In x (run_names cfg st ctr acts) -> ctr <= x.
Proof.
  induction acts as [|a acts IH]; intros st ctr; cbn [run_names]; [split; [constructor|intros x []]|].
  destruct (step cfg st a) as [[st' o]|]; [|split; [constructor|intros x []]].
  destruct (IH st' (ctr + N.of_nat (writes_of cfg st a))) as [H1 H2]. split.
  - apply NoDup_app_iff. split; [apply NoDup_iota|split; [exact H1|]].
    intros x Hx Hx'. apply In_iota in Hx. apply H2 in Hx'. lia.
  - intros x Hx. apply in_app_or in Hx as [Hx|Hx]; [apply In_iota in Hx; lia|apply H2 in Hx; lia].
Qed.
