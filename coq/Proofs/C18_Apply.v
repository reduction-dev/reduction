(* Applying a change set: a semantic condition [good_cs] on change sets under which NewWithChangeSet keeps the layout
   valid and does not change [view] (hence no Get / ScanPrefix result). *)
From Coq Require Import List NArith Bool Lia.
From RV Require Import Base.Lists Base.Bytes Model.LsmBase Proofs.C07_Sorted Proofs.C18_Layout.
Import ListNotations.
Open Scope N_scope.

Lemma entry_eqb_eq a b : entry_eqb a b = true <-> a = b.
Proof.
  destruct a as [k1 s1 d1 v1], b as [k2 s2 d2 v2]. unfold entry_eqb. cbn.
  rewrite !andb_true_iff, !beqb_eq, N.eqb_eq, Bool.eqb_true_iff. split.
  - intros (((-> & ->) & ->) & ->). reflexivity.
  - intros [= -> -> -> ->]. auto.
Qed.
Lemma table_eqb_eq a b : table_eqb a b = true <-> a = b.
Proof.
  revert b. induction a as [|x a IH]; intros [|y b]; cbn; split; try discriminate; auto.
  - intros H. apply andb_true_iff in H as [H1 H2]. apply entry_eqb_eq in H1. apply IH in H2. congruence.
  - intros [= -> ->]. apply andb_true_iff. split; [apply entry_eqb_eq|apply IH]; reflexivity.
Qed.
Lemma tmem_in t ts : tmem t ts = true <-> In t ts.
Proof. apply (existsb_eqb_In table_eqb table_eqb_eq). Qed.
Lemma tmem_false t ts : tmem t ts = false <-> ~ In t ts.
Proof. rewrite <- tmem_in. destruct (tmem t ts); split; congruence. Qed.

Definition keep (cs : changeset) (t : table) : bool := negb (tmem t (cs_rem cs)).
Definition newlvl (cs : changeset) (i : nat) (l : list table) : list table :=
  if Nat.eqb i (cs_level cs) then filter (keep cs) l ++ cs_add cs else filter (keep cs) l.

Lemma nth_error_apply_from cs ll b i :
  nth_error (apply_from b cs ll) i = option_map (newlvl cs (b + i)) (nth_error ll i).
Proof.
  revert b i. induction ll as [|l ll IH]; intros b i; [destruct i; reflexivity|].
  destruct i as [|i]; cbn [apply_from nth_error option_map].
  - rewrite Nat.add_0_r. reflexivity.
  - rewrite IH. replace (S b + i)%nat with (b + S i)%nat by lia. reflexivity.
Qed.
Lemma nth_error_apply cs ll i : nth_error (apply_cs cs ll) i = option_map (newlvl cs i) (nth_error ll i).
Proof. unfold apply_cs. rewrite nth_error_apply_from. reflexivity. Qed.

Lemma length_apply cs ll : length (apply_cs cs ll) = length ll.
Proof. unfold apply_cs. generalize 0%nat. induction ll as [|l ll IH]; intros b; cbn; [reflexivity|]. rewrite IH. reflexivity. Qed.

Lemma in_kept cs l t : In t (filter (keep cs) l) <-> In t l /\ ~ In t (cs_rem cs).
Proof. unfold keep. rewrite filter_In, negb_true_iff, tmem_false. reflexivity. Qed.

Lemma in_newlvl cs i l t : In t (newlvl cs i l) -> (In t l /\ ~ In t (cs_rem cs)) \/ (i = cs_level cs /\ In t (cs_add cs)).
Proof.
  unfold newlvl. destruct (Nat.eqb i (cs_level cs)) eqn:E; [rewrite in_app_iff|]; rewrite in_kept; [|auto].
  intros [H|H]; [auto|]. right. split; [apply Nat.eqb_eq; exact E|exact H].
Qed.
Lemma kept_in_newlvl cs i l t : In t l -> ~ In t (cs_rem cs) -> In t (newlvl cs i l).
Proof. intros H1 H2. unfold newlvl. destruct (Nat.eqb i (cs_level cs)); [apply in_or_app; left|]; apply in_kept; auto. Qed.
Lemma added_in_newlvl cs l t : In t (cs_add cs) -> In t (newlvl cs (cs_level cs) l).
Proof. intros H. unfold newlvl. rewrite Nat.eqb_refl. apply in_or_app. right. exact H. Qed.

(* g_lvl, g_all: the target level is a level >= 1 and is removed entirely; g_sub: what is removed sits at levels up to the
   target; g_add: the additions are non-empty chunks of the merge of the removals; g_closed: closed towards the target - if
   a table of level i is removed, so is every table of the levels i < j <= target; g_l0: removed level-0 tables are older
   than those that stay; g_deep: nothing below the target is removed. *)
Record good_cs (ll : levels) (cs : changeset) : Prop := mkGood {
  g_lvl : (1 <= cs_level cs < length ll)%nat;
  g_all : forall l t, nth_error ll (cs_level cs) = Some l -> In t l -> In t (cs_rem cs);
  g_sub : forall r, In r (cs_rem cs) -> exists j l, (j <= cs_level cs)%nat /\ nth_error ll j = Some l /\ In r l;
  g_add : concat (cs_add cs) = merge_all (cs_rem cs) /\ forall a, In a (cs_add cs) -> a <> [];
  g_closed : forall i j li lj r t, (i < j <= cs_level cs)%nat -> nth_error ll i = Some li -> nth_error ll j = Some lj ->
               In r li -> In r (cs_rem cs) -> In t lj -> In t (cs_rem cs);
  g_l0 : forall l r t e e', nth_error ll 0 = Some l -> In r l -> In r (cs_rem cs) -> In t l -> ~ In t (cs_rem cs) ->
               In e r -> In e' t -> eseq e < eseq e';
  g_deep : forall j l t, (cs_level cs < j)%nat -> nth_error ll j = Some l -> In t l -> ~ In t (cs_rem cs)
}.

Section Apply.
  Variables (ll : levels) (cs : changeset).
  Hypothesis Hv : LLInv ll.
  Hypothesis Hg : good_cs ll cs.

  Local Notation T := (cs_level cs).
  Local Notation R := (cs_rem cs).
  Local Notation A := (cs_add cs).

  Lemma rem_entry_dominated r e : In r R -> In e r -> exists a m, In a A /\ In m a /\ ekey m = ekey e /\ eseq e <= eseq m.
  Proof using Hg.
    intros Hr He. destruct (Mx_merge_all R) as (_ & _ & H3).
    destruct (H3 e (ex_intro _ r (conj Hr He))) as (m & Hm1 & Hm2).
    apply tbl_get_some in Hm1 as [Hm3 Hm4]. destruct (g_add _ _ Hg) as [Hc _]. rewrite <- Hc in Hm3.
    apply in_concat in Hm3 as (a & Ha & Hma). exists a, m. auto.
  Qed.

  Lemma apply_table i l' t :
    nth_error (apply_cs cs ll) i = Some l' -> In t l' ->
    (exists l, nth_error ll i = Some l /\ In t l /\ ~ In t R) \/ (i = T /\ In t A).
  Proof using.
    intros Hi Ht. rewrite nth_error_apply in Hi. destruct (nth_error ll i) as [l|]; [|discriminate]. injection Hi as <-.
    apply in_newlvl in Ht as [[H1 H2]|H]; eauto.
  Qed.

  Lemma added_entry a e : In a A -> In e a -> exists j lj r, (j <= T)%nat /\ nth_error ll j = Some lj /\ In r lj /\ In r R /\ In e r.
  Proof using Hg.
    intros Ha He. destruct (Mx_merge_all R) as (_ & H2 & _). destruct (H2 e) as (r & Hr & Her).
    { destruct (g_add _ _ Hg) as [<- _]. apply in_concat. exists a. auto. }
    destruct (g_sub _ _ Hg r Hr) as (j & lj & Hj & Hlj & Hrl). exists j, lj, r. auto.
  Qed.

  Theorem apply_LLInv : LLInv (apply_cs cs ll).
  Proof.
    pose proof (g_lvl _ _ Hg) as HT. destruct (g_add _ _ Hg) as [Hadd Hane]. constructor.
    - (* v_sorted *) intros l' t Hl' Ht. apply In_nth_error in Hl' as (i & Hi).
      destruct (apply_table _ _ _ Hi Ht) as [(l & Hl & Htl & _)|[_ Ha]].
      + exact (v_sorted _ Hv l t (nth_error_In _ _ Hl) Htl).
      + eapply sorted_concat_in; [|exact Ha]. rewrite Hadd. apply merge_all_sorted.
    - (* v_deep, deeper levels: level T is now the added tables, the others have lost tables *)
      intros i l' Hi. rewrite nth_error_apply in Hi. destruct (nth_error ll (S i)) as [l|] eqn:E; [|discriminate].
      injection Hi as <-. destruct (v_deep _ Hv _ _ E) as [Hd1 Hd2]. unfold newlvl.
      destruct (Nat.eqb (S i) T) eqn:ET.
      + apply Nat.eqb_eq in ET. rewrite ET in E.
        rewrite (filter_nil (keep cs) l) by (intros t Ht; apply negb_false_iff, tmem_in, (g_all _ _ Hg l t E Ht)).
        split; [cbn; rewrite Hadd; apply merge_all_sorted|exact Hane].
      + split; [apply sorted_concat_filter; exact Hd1|]. intros t Ht. apply in_kept in Ht as [Ht _]. auto.
    - (* v_sep *) intros l' Hi. rewrite nth_error_apply in Hi. destruct (nth_error ll 0) as [l|] eqn:E; [|discriminate].
      injection Hi as <-. unfold newlvl. destruct (Nat.eqb 0 T) eqn:ET; [apply Nat.eqb_eq in ET; lia|].
      apply sep_filter. exact (v_sep _ Hv _ E).
    - (* v_ord *) intros i j li' lj' t t' e e' Hij Hi Hj Ht Ht' He He' Hk.
      destruct (apply_table _ _ _ Hi Ht) as [(li & Ei & Ht1 & Ht2)|[-> Ha]];
      destruct (apply_table _ _ _ Hj Ht') as [(lj & Ej & Ht1' & Ht2')|[-> Ha']]; [| | |lia].
      + exact (v_ord _ Hv i j _ _ _ _ _ _ Hij Ei Ej Ht1 Ht1' He He' Hk).
      + (* t kept at level i < T, e' comes from a removed table r' at level j1 <= T *)
        destruct (added_entry _ _ Ha' He') as (j1 & l1 & r' & Hj1 & Hl1 & Hrl' & HrR' & Her').
        destruct (Nat.lt_trichotomy i j1) as [H|[H|H]].
        * exact (v_ord _ Hv i j1 _ _ _ _ _ _ H Ei Hl1 Ht1 Hrl' He Her' Hk).
        * subst j1. assert (l1 = li) by congruence. subst l1. destruct i as [|i].
          -- exact (g_l0 _ _ Hg li r' t _ _ Ei Hrl' HrR' Ht1 Ht2 Her' He).
          -- destruct (v_deep _ Hv _ _ Ei) as [Hd _].
             rewrite (sorted_concat_same_table _ _ _ _ _ Hd Ht1 Hrl' He Her' Hk) in Ht2. contradiction.
        * destruct Ht2. apply (g_closed _ _ Hg j1 i l1 li r' t); auto. lia.
      + (* e comes from a removed table at level j0 <= T < j, t' kept *)
        destruct (added_entry _ _ Ha He) as (j0 & l0 & r & Hj0 & Hl0 & Hrl & HrR & Her).
        apply (v_ord _ Hv j0 j _ _ _ _ _ _ ltac:(lia) Hl0 Ej Hrl Ht1' Her He' Hk).
  Qed.

  Lemma apply_nonempty : (forall a, In a A -> a <> []) -> nonempty ll -> nonempty (apply_cs cs ll).
  Proof using.
    intros Ha Hne l' t Hl' Ht. apply In_nth_error in Hl' as (i & Hi).
    destruct (apply_table _ _ _ Hi Ht) as [(l & Hl & Htl & _)|[_ H]]; [exact (Hne l t (nth_error_In _ _ Hl) Htl)|exact (Ha t H)].
  Qed.

  Lemma ents_apply_sub e : ents (apply_cs cs ll) e -> ents ll e.
  Proof using Hg.
    intros He. apply ents_nth in He as (i & l' & t & Hi & Ht & He). apply ents_nth.
    destruct (apply_table _ _ _ Hi Ht) as [(l & Hl & Htl & _)|[_ Ha]]; [exists i, l, t; auto|].
    destruct (added_entry _ _ Ha He) as (j & lj & r & _ & Hlj & Hrl & _ & Her). exists j, lj, r. auto.
  Qed.

  Theorem apply_view : view (apply_cs cs ll) = view ll.
  Proof.
    apply view_sub_eq; [exact Hv|exact ents_apply_sub|].
    (* an old entry is still there, or its table was removed and the merge holds a newer version *)
    intros e He. apply ents_nth in He as (i & l & t & Hi & Ht & He).
    destruct (tmem t R) eqn:HR; [apply tmem_in in HR|apply tmem_false in HR].
    - destruct (rem_entry_dominated _ _ HR He) as (a & m & Ha & Hm & Hk & Hs). exists m. repeat split; auto.
      pose proof (g_lvl _ _ Hg) as HT. destruct (nth_error ll T) as [lT|] eqn:ET; [|apply nth_error_None in ET; lia].
      apply ents_nth. exists T, (newlvl cs T lT), a. rewrite nth_error_apply, ET. auto using added_in_newlvl.
    - exists e. repeat split; [|lia]. apply ents_nth. exists i, (newlvl cs i l), t.
      rewrite nth_error_apply, Hi. auto using kept_in_newlvl.
  Qed.
End Apply.
