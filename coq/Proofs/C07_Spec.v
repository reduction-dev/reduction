(* The specification side of C07: sorted association lists of (key, value), and their relation to tables. *)
From Coq Require Import List NArith Bool Lia.
From RV Require Import Base.KeySorted Model.LsmBase Model.Lsm Proofs.C07_Sorted.
Import ListNotations.
Open Scope N_scope.

Definition smap := list (bytes * bytes).

Fixpoint ksorted (m : smap) : Prop :=
  match m with [] => True | x :: r => (forall y, In y r -> klt (fst x) (fst y)) /\ ksorted r end.

(* the specification's functions are those of Base/KeySorted.v on pairs keyed by [fst]; [sm_del] does not stop at
   the first greater key: the same on ascending lists *)
Lemma sm_get_kget k m : sm_get k m = option_map snd (kget fst k m).
Proof. reflexivity. Qed.

Lemma sm_put_kput k v m : sm_put k v m = kput fst (k, v) m.
Proof. induction m as [|[k' v'] m IH]; cbn; [|rewrite IH]; reflexivity. Qed.

Lemma sm_del_above k m : above fst k m -> sm_del k m = m.
Proof.
  induction m as [|[k' v'] m IH]; intros H; cbn [sm_del]; [reflexivity|].
  rewrite beqb_sym, (beqb_lt k k' (H (k', v') (or_introl eq_refl))), IH; [reflexivity|]. intros y Hy. apply H. now right.
Qed.

Lemma sm_del_kdel k m : ksorted m -> sm_del k m = kdel fst k m.
Proof.
  induction m as [|[k' v'] m IH]; cbn [sm_del kdel ksorted fst]; [reflexivity|]. intros [H1 H2].
  rewrite beqb_sym. unfold beqb. destruct (bcmp_spec k k') as [->|E|E]; [reflexivity| |now rewrite IH].
  f_equal. apply sm_del_above. exact (above_trans fst _ _ _ E H1).
Qed.

Lemma kv_ext a b : ksorted a -> ksorted b -> (forall k, sm_get k a = sm_get k b) -> a = b.
Proof.
  intros Ha Hb H. apply (asc_ext fst _ _ Ha Hb). intros k. specialize (H k). rewrite !sm_get_kget in H.
  destruct (kget fst k a) as [[k1 v1]|] eqn:Ea, (kget fst k b) as [[k2 v2]|] eqn:Eb; try discriminate; [|reflexivity].
  apply kget_some in Ea as [_ Ea], Eb as [_ Eb]. cbn in *. congruence.
Qed.

Lemma sm_put_sorted k v m : ksorted m -> ksorted (sm_put k v m).
Proof. rewrite sm_put_kput. exact (kput_asc fst (k, v) m). Qed.
Lemma sm_put_get k v m k' : sm_get k' (sm_put k v m) = if beqb k k' then Some v else sm_get k' m.
Proof. rewrite sm_put_kput, !sm_get_kget, kget_kput. cbn [fst]. now destruct (beqb k k'). Qed.

Lemma sm_del_sorted k m : ksorted m -> ksorted (sm_del k m).
Proof. intros H. rewrite (sm_del_kdel k m H). exact (kdel_asc fst k m H). Qed.
Lemma sm_del_get k m k' : ksorted m -> sm_get k' (sm_del k m) = if beqb k k' then None else sm_get k' m.
Proof. intros H. rewrite (sm_del_kdel k m H), !sm_get_kget, (kget_kdel fst k m k' H). now destruct (beqb k k'). Qed.

(* what a reader sees of the newest entry of a key: a tombstone hides it *)
Definition vis (o : option entry) : option bytes :=
  match o with Some e => if edel e then None else Some (eval e) | None => None end.

Lemma kvs_sorted t : sorted t -> ksorted (kvs t).
Proof. exact (asc_map ekey fst (fun e => (ekey e, eval e)) (fun _ => eq_refl) t). Qed.
Lemma sm_get_kvs k t : sm_get k (kvs t) = option_map eval (tbl_get k t).
Proof. unfold kvs. rewrite sm_get_kget, (kget_map ekey fst) by reflexivity. change (kget ekey k t) with (tbl_get k t). now destruct (tbl_get k t). Qed.
Lemma sm_get_live k t : sorted t -> sm_get k (kvs (without_deletes t)) = vis (tbl_get k t).
Proof.
  intros Hs. rewrite sm_get_kvs. unfold without_deletes. rewrite tbl_get_filter by exact Hs.
  destruct (tbl_get k t) as [e|]; [|reflexivity]. unfold live, vis. destruct (edel e); reflexivity.
Qed.

Lemma filter_comm {A} (f g : A -> bool) l : filter f (filter g l) = filter g (filter f l).
Proof.
  induction l as [|x l IH]; [reflexivity|]. cbn. destruct (g x) eqn:G, (f x) eqn:F; cbn; rewrite ?G, ?F, IH; reflexivity.
Qed.
Lemma sm_scan_live p t : sm_scan p (kvs (without_deletes t)) = kvs (without_deletes (tbl_scan p t)).
Proof.
  unfold without_deletes, tbl_scan. rewrite filter_comm. generalize (filter live t). intros l.
  induction l as [|x l IH]; [reflexivity|]. unfold sm_scan, kvs in *. cbn [map filter fst]. unfold has_prefix at 1.
  destruct (is_prefix p (ekey x)); cbn [map]; rewrite IH; reflexivity.
Qed.

(* a Get result against the specification map's answer: deleted and absent are not told apart *)
Definition get_matches (r : getres) (o : option bytes) : Prop :=
  match o with Some v => r = GFound v | None => r = GDeleted \/ r = GAbsent end.
Lemma to_getres_matches o : get_matches (to_getres o) (vis o).
Proof. destruct o as [e|]; cbn; [destruct (edel e); cbn; auto|auto]. Qed.
