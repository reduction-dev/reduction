(* C09: retained_files_exist as an invariant of the world model (Model/Gc.v), preserved by EVERY step - writes, flush, compaction,
   checkpoint and its asynchronous part, retention update + Save (including failing saves), restore / reopen, collection of
   every unreachable table object with every neighbour answer, crash, drop - for all histories whose deleting steps satisfy the
   monitor [step_ok]: a collection or a Destroy never removes a file that ANOTHER party needs (the class of finding D11 and of
   unsound ownership answers), see the definitions of [protects], [gc_ok], [destroy_ok]. What a database object does to ITSELF
   and to the durable list of its own directory is proved safe without assumption.
   Every step is taken apart into elementary changes of the world - the files, one object, all objects, the dropped ids, the
   handles, a further object - and each of these has its own preservation lemma. Of the three about files, tables and WALs
   written and files deleted are instances of [safe_set_fs]; the write of a checkpoints file, [safe_write_list], is proved
   directly. [safe_step] names, per action, the lemmas that compose. *)
From Coq Require Import List NArith Bool Lia Permutation.
Import ListNotations.
From RV Require Import Base.Lists Base.Bytes Model.Ckpt Model.Gc Proofs.C08_Ckpt Proofs.C09_Gc.
Open Scope N_scope.

(* the kind of a file name (directory, kind, number): 0 a table, 1 a WAL, 2 the checkpoints file of the directory *)
Definition kind (n : fname) : N := snd (fst n).
(* the checkpoint records an object holds: its list and the removals that wait for the next successful Save *)
Definition recs (x : wdb) : list ckrec := x_ckpts x ++ x_pending x.
(* the files a persisted document refers to *)
Definition doc_files (d : doc) : list fname := dc_wal d :: map td_name (dc_tables d).
(* document [d] on disk belongs to record [c] in memory. Its tables are only INCLUDED in the record's: an object redeployed in
   place from several handles holds one composite record whose tables are those of all the documents *)
Definition agrees (d : doc) (c : ckrec) : Prop :=
  dc_id d = c_id c /\ dc_wal d = c_wal c /\ forall n, In n (map td_name (dc_tables d)) -> In n (map t_name (c_tabs c)).

(* the names a live object can reach *)
Definition rn (x : wdb) : list fname :=
  map t_name (d_tables (x_core x)) ++ flat_map (fun c => map t_name (c_tabs c)) (x_ckpts x ++ x_pending x)
  ++ (match x_flush x with FSwap _ ts => map t_name ts | _ => [] end)
  ++ (match x_comp x with CSwap a => a | _ => [] end).
Lemma reachable_live x : x_state x = Live -> reachable_names x = rn x.
Proof. intro L. unfold reachable_names, rn. rewrite L. reflexivity. Qed.

(* What holds of a live object [x] given the files [f], the completed handles [hs] and the dropped ids [dr].
   [sd_reach]: every table it can reach exists. [sd_docs]: a document that the checkpoints file of its directory holds for a
   completed, undropped handle agrees with one of its records. [sd_inflight]: a checkpoint between WAL save and list save has a
   record whose WAL file exists. [sd_ids], [sd_wals]: its records have distinct ids and pairwise distinct WAL handles.
   Kinds: [sd_kw] a record's WAL, [sd_kx] its further WAL handles (they lie in other directories), [sd_ko] the table objects,
   [sd_kt] the reachable tables. [sd_walid]: the WAL of a record of its own directory has a number below the writer's, so the
   WAL that the next checkpoint records is none of them. *)
Record safe_db (f : fsys) (hs : list (N * N)) (dr : list N) (x : wdb) : Prop := mkSafeDb {
  sd_reach : forall n, In n (rn x) -> fs_has f n = true;
  sd_docs : forall docs id d, fs_get f (x_dir x, 2, 0) = Some (FCk docs) -> find_doc docs id = Some d ->
            In (id, x_dir x) hs -> ~ In id dr -> exists c, In c (recs x) /\ agrees d c;
  sd_ids : NoDup (map c_id (recs x));
  sd_wals : NoDup (flat_map c_allw (recs x));
  sd_kw : forall c, In c (recs x) -> kind (c_wal c) = 1;
  sd_kx : forall c n, In c (recs x) -> In n (c_xw c) -> kind n = 1 /\ fst (fst n) <> x_dir x;
  sd_ko : forall o, In o (x_objs x) -> kind (o_name o) = 0;
  sd_kt : forall n, In n (rn x) -> kind n = 0;
  sd_walid : forall c, In c (recs x) -> fst (fst (c_wal c)) = x_dir x -> snd (c_wal c) < w_id (d_wal (x_core x));
  sd_inflight : forall id, In (id, true) (x_cktasks x) -> ~ In id dr ->
                exists c, In c (recs x) /\ c_id c = id /\ fs_has f (c_wal c) = true
}.

Arguments sd_reach {f hs dr x} _.
Arguments sd_docs {f hs dr x} _.
Arguments sd_ids {f hs dr x} _.
Arguments sd_wals {f hs dr x} _.
Arguments sd_kw {f hs dr x} _.
Arguments sd_kx {f hs dr x} _.
Arguments sd_ko {f hs dr x} _.
Arguments sd_kt {f hs dr x} _.
Arguments sd_walid {f hs dr x} _.
Arguments sd_inflight {f hs dr x} _.

(* [sf_db]: every live object is safe. [sf_handles]: a completed handle that no saved retention update dropped has its document
   in the checkpoints file of its directory, and the document's files exist - with [sd_reach] this is retained_files_exist.
   [sf_writer]: one live object per directory. [sf_dirs], [sf_hdirs]: directories of live objects and of handles lie below the
   next fresh one. [sf_kinds]: the names inside every persisted document have the kinds of what they name. *)
Record Safe (w : world) : Prop := mkSafe {
  sf_db : forall i x, nth_error (g_dbs w) i = Some x -> x_state x = Live -> safe_db (g_fs w) (g_handles w) (g_dropped w) x;
  sf_handles : forall id D, In (id, D) (g_handles w) -> ~ In id (g_dropped w) ->
               exists docs d, fs_get (g_fs w) (D, 2, 0) = Some (FCk docs) /\ find_doc docs id = Some d /\
                              forall n, In n (doc_files d) -> fs_has (g_fs w) n = true;
  sf_writer : forall i j x y, nth_error (g_dbs w) i = Some x -> nth_error (g_dbs w) j = Some y ->
              x_state x = Live -> x_state y = Live -> x_dir x = x_dir y -> i = j;
  sf_dirs : forall i x, nth_error (g_dbs w) i = Some x -> x_state x = Live -> x_dir x < g_nextdir w;
  sf_hdirs : forall id D, In (id, D) (g_handles w) -> D < g_nextdir w;
  sf_kinds : forall n docs d, fs_get (g_fs w) n = Some (FCk docs) -> In d docs ->
             kind (dc_wal d) = 1 /\ (forall t, In t (dc_tables d) -> kind (td_name t) = 0) /\ (forall n, In n (dc_xw d) -> kind n = 1)
}.

Arguments sf_db {w} _.
Arguments sf_handles {w} _.
Arguments sf_writer {w} _.
Arguments sf_dirs {w} _.
Arguments sf_hdirs {w} _.
Arguments sf_kinds {w} _.

(* [protects w i n]: file n is needed by a party other than the acting object number i: another live object (a table it can
   reach, the WAL of one of its checkpoints whose asynchronous part is between WAL save and list save, its checkpoints file), or
   the persisted document of a completed handle that no saved retention update dropped - unless the acting object is the live
   writer of that handle's directory (that case is proved, not assumed). *)
Definition protects (w : world) (i : nat) (n : fname) : Prop :=
  (exists j y, j <> i /\ nth_error (g_dbs w) j = Some y /\ x_state y = Live /\
     (In n (rn y) \/ (exists c id, In c (recs y) /\ c_id c = id /\ In (id, true) (x_cktasks y) /\ n = c_wal c) \/ n = (x_dir y, 2, 0)))
  \/ (exists id D docs d, In (id, D) (g_handles w) /\ ~ In id (g_dropped w) /\
        fs_get (g_fs w) (D, 2, 0) = Some (FCk docs) /\ find_doc docs id = Some d /\ (In n (doc_files d) \/ n = (D, 2, 0)) /\
        ~ (exists x, nth_error (g_dbs w) i = Some x /\ x_state x = Live /\ x_dir x = D)).

(* a collection is acceptable when no cleanup deletes a file another party needs. Finding D11 is the failure of this predicate
   by a table object CREATED by a DROPPED database object (o_fromdoc = false, x_state = Dropped); an unsound ownership /
   neighbour answer is its failure by an object opened from a document. *)
Definition gc_ok (w : world) : Prop :=
  forall i x n, nth_error (g_dbs w) i = Some x -> x_state x <> Crashed -> In n (C09_Gc.gc_one w x) -> ~ protects w i n.
Definition d11_pattern (w : world) : Prop :=
  exists i x o, nth_error (g_dbs w) i = Some x /\ x_state x = Dropped /\ In o (x_objs x) /\ o_fromdoc o = false /\ protects w i (o_name o).

Definition destroy_ok (w : world) (d : N) (x1 : wdb) : Prop :=
  forall c n, In c (x_pending x1) -> In n (c_allw c) -> ~ protects (save_write w x1) (N.to_nat d) n.
Definition retain_x1 (x : wdb) (ids : list N) : wdb :=
  with_ck x (filter (retain_keeps ids) (x_ckpts x)) (x_pending x ++ filter (fun c => negb (retain_keeps ids c)) (x_ckpts x)) (x_cktasks x).

(* The monitor, per action. Deleting steps: [gc_ok], [destroy_ok] (of a Save that succeeds). Operations on an object address a live
   one; a Checkpoint id is new in the list. A restore uses a handle that no saved update dropped and goes into the source's
   directory only when no live object writes there. ORestoreM, of the documents [d1 :: ds] it loads: their WALs are distinct
   ([sd_wals] of the one record the new object starts with) and those of [ds] lie outside the target directory ([sd_kx]); the
   clause on [d1] for a fresh directory is not needed by [safe_step_restoreM]. Compaction outputs are named as tables. *)
Fixpoint step_ok (w : world) (o : op) : Prop :=
  match o with
  | OGc => gc_ok w
  | ORetain d ids => forall x, get_db w d = Some x -> x_state x = Live /\ destroy_ok w d (retain_x1 x ids)
  | ORetainF d ids f => forall x, get_db w d = Some x ->
      x_state x = Live /\ (snd (save_list_f w (retain_x1 x ids) f) = true -> destroy_ok w d (retain_x1 x ids))
  | OStepCkpt d id => forall x, get_db w d = Some x -> x_state x = Live /\ destroy_ok w d x
  | OStepCkptF d id f => forall x, get_db w d = Some x ->
      x_state x = Live /\ (snd (save_list_f w x f) = true -> destroy_ok w d x)
  | OCkpt d id => forall x, get_db w d = Some x -> x_state x = Live /\ ~ In id (map c_id (recs x))
  | ORestore _ id same _ _ =>
      ~ In id (g_dropped w) /\
      (same = true -> forall hd i x, handle_dir w id = Some hd -> nth_error (g_dbs w) i = Some x -> x_state x = Live -> x_dir x <> hd)
  | ORestoreM _ id dirs same _ _ =>
      ~ In id (g_dropped w) /\
      (forall d1 ds, load_docs w id dirs = inl (Some (d1 :: ds)) ->
         NoDup (map dc_wal (d1 :: ds)) /\
         (forall d, In d ds -> fst (fst (dc_wal d)) <> (if same then hd 0 dirs else g_nextdir w)) /\
         (same = false -> fst (fst (dc_wal d1)) <> g_nextdir w)) /\
      (same = true -> forall i x, nth_error (g_dbs w) i = Some x -> x_state x = Live -> x_dir x <> hd 0 dirs)
  | OStepCompact _ (CRadded names) => forall n, In n names -> kind n = 0
  | OStepCompact _ (CRswapped _ added) => forall a, In a added -> kind (fst a) = 0
  | OSeq a b => step_ok w a /\ step_ok (step w a) b
  | _ => True
  end.

(* every step of the history satisfies the monitor in the world the earlier steps made *)
Fixpoint run_ok (w : world) (ops : list op) : Prop :=
  match ops with [] => True | o :: ops' => step_ok w o /\ run_ok (step w o) ops' end.


Lemma upd_set_at {A} (l : list A) i x : upd l i x = set_at i x l.
Proof. revert i. induction l as [|y l IH]; intros [|i]; cbn; [..|rewrite IH]; reflexivity. Qed.
Lemma nth_upd_none {A} (l : list A) i x : nth_error l i = None -> upd l i x = l.
Proof. revert i. induction l as [|z l IH]; intros [|i] H; cbn in *; try reflexivity; try discriminate. f_equal. apply IH. exact H. Qed.

Lemma get_db_save_write w x d : get_db (save_write w x) d = get_db w d.
Proof. reflexivity. Qed.

Lemma fname_neq_kind n m : kind n <> kind m -> fname_eqb n m = false.
Proof. intro H. destruct (fname_eqb n m) eqn:E; [|reflexivity]. apply fname_eqb_eq in E. subst. congruence. Qed.

Definition ck_only2 (f : fsys) : Prop := forall n docs, fs_get f n = Some (FCk docs) -> kind n = 2.

Lemma fold_put_mono {A} (name : A -> fname) (cont : A -> fcontent) (l : list A) : forall f n,
  fs_has f n = true -> fs_has (fold_left (fun f a => fs_put f (name a) (cont a)) l f) n = true.
Proof. induction l as [|a l IH]; intros f n H; [exact H|]. apply IH. rewrite fs_has_put, H. apply orb_true_r. Qed.
Lemma fold_put_has {A} (name : A -> fname) (cont : A -> fcontent) (l : list A) : forall f a,
  In a l -> fs_has (fold_left (fun f a => fs_put f (name a) (cont a)) l f) (name a) = true.
Proof.
  induction l as [|b l IH]; intros f a H; [destruct H|]. destruct H as [->|H]; cbn [fold_left]; [|apply IH, H].
  apply fold_put_mono. rewrite fs_has_put, fname_eqb_refl. reflexivity.
Qed.
Lemma fold_put_get_other {A} (name : A -> fname) (cont : A -> fcontent) (l : list A) : forall f n,
  (forall a, In a l -> name a <> n) -> fs_get (fold_left (fun f a => fs_put f (name a) (cont a)) l f) n = fs_get f n.
Proof.
  induction l as [|a l IH]; intros f n H; [reflexivity|]. cbn [fold_left]. rewrite IH by (intros b Hb; apply H; right; exact Hb).
  rewrite fs_get_put. destruct (fname_eqb n (name a)) eqn:E; [|reflexivity]. apply fname_eqb_eq in E. destruct (H a (or_introl eq_refl)). auto.
Qed.

Lemma in_rn_parts x n :
  In n (rn x) <-> In n (map t_name (d_tables (x_core x))) \/ In n (flat_map (fun c => map t_name (c_tabs c)) (recs x))
                  \/ In n (match x_flush x with FSwap _ ts => map t_name ts | _ => [] end)
                  \/ In n (match x_comp x with CSwap a => a | _ => [] end).
Proof. unfold rn, recs. rewrite !in_app_iff. tauto. Qed.
Lemma rn_rec x c n : In c (recs x) -> In n (map t_name (c_tabs c)) -> In n (rn x).
Proof. intros Hc Hn. apply in_rn_parts. right. left. apply in_flat_map. eauto. Qed.

Lemma allw_kind f hs dr x c n : safe_db f hs dr x -> In c (recs x) -> In n (c_allw c) -> kind n = 1.
Proof. intros S Hc [<-|Hn]; [apply (sd_kw S), Hc|apply (sd_kx S c n Hc Hn)]. Qed.

Lemma agrees_doc_of c : agrees (doc_of c) c.
Proof. unfold agrees, doc_of. cbn. repeat split. intros n Hn. rewrite map_map in Hn. exact Hn. Qed.
Lemma find_doc_in docs id d : find_doc docs id = Some d -> In d docs /\ dc_id d = id.
Proof. intro H. apply find_some in H as [H1 H2]. split; [exact H1|]. apply N.eqb_eq. exact H2. Qed.
Lemma find_doc_map (l : list ckrec) c : NoDup (map c_id l) -> In c l -> find_doc (map doc_of l) (c_id c) = Some (doc_of c).
Proof.
  unfold find_doc. induction l as [|a l IH]; intros N H; [destruct H|]. cbn [map find doc_of dc_id].
  inversion N as [|? ? NI N']; subst. destruct H as [->|H]; [rewrite N.eqb_refl; reflexivity|].
  destruct (c_id a =? c_id c) eqn:E; [|apply IH; assumption].
  apply N.eqb_eq in E. destruct NI. rewrite E. apply in_map. exact H.
Qed.

(* [map doc_of (x_ckpts x)] is what a Save writes into the checkpoints file of x's directory: for such a file these two give
   [sd_docs] and [sf_handles] *)
Lemma list_file_docs x id d : find_doc (map doc_of (x_ckpts x)) id = Some d -> exists c, In c (recs x) /\ agrees d c.
Proof.
  intro H. apply find_doc_in in H as [H _]. apply in_map_iff in H as (c & <- & Hc).
  exists c. split; [apply in_or_app; auto|apply agrees_doc_of].
Qed.
Lemma list_file_handle f hs dr x c : safe_db f hs dr x -> In c (x_ckpts x) -> fs_has f (c_wal c) = true ->
  find_doc (map doc_of (x_ckpts x)) (c_id c) = Some (doc_of c) /\ forall n, In n (doc_files (doc_of c)) -> fs_has f n = true.
Proof.
  intros S Hc Hw. split.
  - apply find_doc_map; [|exact Hc]. apply (NoDup_app_iff _ (map c_id (x_pending x))). rewrite <- map_app. apply (sd_ids S).
  - intros n [<-|Hn]; [exact Hw|]. cbn in Hn. rewrite map_map in Hn. apply (sd_reach S).
    eapply rn_rec; [apply in_or_app; left; exact Hc|exact Hn].
Qed.

(* a record may go only when a saved update dropped its id; a new record is what Checkpoint makes: the WAL just rotated away,
   no further handles *)
Lemma safe_db_step f hs dr x x' :
  safe_db f hs dr x -> x_dir x' = x_dir x -> w_id (d_wal (x_core x)) <= w_id (d_wal (x_core x')) ->
  (forall c, In c (recs x) -> In c (recs x') \/ In (c_id c) dr) ->
  (forall c, In c (recs x') -> In c (recs x) \/ (kind (c_wal c) = 1 /\ c_xw c = [] /\ snd (c_wal c) < w_id (d_wal (x_core x')))) ->
  NoDup (map c_id (recs x')) -> NoDup (flat_map c_allw (recs x')) ->
  (forall id, In (id, true) (x_cktasks x') ->
     In (id, true) (x_cktasks x) \/ exists c, In c (recs x') /\ c_id c = id /\ fs_has f (c_wal c) = true) ->
  (forall o, In o (x_objs x') -> In o (x_objs x) \/ kind (o_name o) = 0) ->
  (forall n, In n (rn x') -> In n (rn x) \/ (fs_has f n = true /\ kind n = 0)) ->
  safe_db f hs dr x'.
Proof.
  intros [Reach Docs Ids Wals Kw Kx Ko Kt Walid Inflight] Dr Wi K Old Ni Nw Tk Ob Rn. constructor; rewrite ?Dr; try assumption.
  - (* sd_reach *) intros n H. destruct (Rn n H) as [H1|[H1 _]]; auto.
  - (* sd_docs *) intros docs id d G Fd Hh ND. destruct (Docs docs id d G Fd Hh ND) as (c & Hc & A). exists c. split; [|exact A].
    destruct (K c Hc) as [H|H]; [exact H|]. destruct A as [A _]. rewrite <- A, (proj2 (find_doc_in _ _ _ Fd)) in H. contradiction.
  - (* sd_kw *) intros c Hc. destruct (Old c Hc) as [H|(H & _)]; auto.
  - (* sd_kx *) intros c n Hc Hn. destruct (Old c Hc) as [H|(_ & H & _)]; [eauto|rewrite H in Hn; destruct Hn].
  - (* sd_ko *) intros o H. destruct (Ob o H); auto.
  - (* sd_kt *) intros n H. destruct (Rn n H) as [H1|[_ H1]]; auto.
  - (* sd_walid *) intros c Hc E. destruct (Old c Hc) as [H|(_ & _ & H)]; [specialize (Walid c H E); lia|exact H].
  - (* sd_inflight *) intros id H ND. destruct (Tk id H) as [H1|H1]; [|exact H1].
    destruct (Inflight id H1 ND) as (c & Hc & E & Hf). exists c. split; [|auto].
    destruct (K c Hc) as [H2|H2]; [exact H2|]. rewrite E in H2. contradiction.
Qed.

Lemma safe_db_bg f hs dr x x' :
  safe_db f hs dr x -> x_dir x' = x_dir x -> w_id (d_wal (x_core x)) <= w_id (d_wal (x_core x')) -> recs x' = recs x ->
  (forall id, In (id, true) (x_cktasks x') ->
     In (id, true) (x_cktasks x) \/ exists c, In c (recs x) /\ c_id c = id /\ fs_has f (c_wal c) = true) ->
  (forall o, In o (x_objs x') -> In o (x_objs x) \/ kind (o_name o) = 0) ->
  (forall n, In n (rn x') -> In n (rn x) \/ (fs_has f n = true /\ kind n = 0)) ->
  safe_db f hs dr x'.
Proof.
  intros S Dr Wi ER Tk Ob Rn. apply (safe_db_step f hs dr x x' S Dr Wi); rewrite ?ER; auto;
    [apply (sd_ids S)|apply (sd_wals S)].
Qed.

Lemma safe_db_with_ck f hs dr x l1 l2 gone ts :
  safe_db f hs dr x -> Permutation (recs x) ((l1 ++ l2) ++ gone) -> (forall c, In c gone -> In (c_id c) dr) ->
  (forall id, In (id, true) ts -> In (id, true) (x_cktasks x)) ->
  safe_db f hs dr (with_ck x l1 l2 ts).
Proof.
  intros S P DR Tk.
  assert (forall c, In c (l1 ++ l2) -> In c (recs x)) as Old
    by (intros c Hc; apply (Permutation_in _ (Permutation_sym P)), in_or_app; auto).
  apply (safe_db_step f hs dr x (with_ck x l1 l2 ts) S eq_refl (N.le_refl _)); change (recs (with_ck x l1 l2 ts)) with (l1 ++ l2); cbn [with_ck x_cktasks x_objs]; auto.
  - intros c Hc. apply (Permutation_in _ P), in_app_or in Hc. destruct Hc; auto.
  - apply (NoDup_app_iff _ (map c_id gone)). rewrite <- map_app. eapply Permutation_NoDup; [apply Permutation_map, P|apply (sd_ids S)].
  - apply (NoDup_app_iff _ (flat_map c_allw gone)). rewrite <- flat_map_app.
    eapply Permutation_NoDup; [apply Permutation_flat_map, P|apply (sd_wals S)].
  - intros n Hn. left. apply in_rn_parts in Hn. cbn in Hn. destruct Hn as [Hn|[Hn|Hn]]; [|apply in_flat_map in Hn; destruct Hn as (c & Hc & Hn); eapply rn_rec; eauto|];
      apply in_rn_parts; auto.
Qed.

Lemma safe_dbs w dbs : Safe w ->
  (forall i x', nth_error dbs i = Some x' -> x_state x' = Live ->
     exists x, nth_error (g_dbs w) i = Some x /\ x_state x = Live /\ x_dir x' = x_dir x /\ safe_db (g_fs w) (g_handles w) (g_dropped w) x') ->
  Safe (mkWorld (g_fs w) dbs (g_handles w) (g_nextdir w) (g_mem w) (g_walmax w) (g_dropped w)).
Proof.
  intros [SDb SHandles SWriter SDirs SHdirs SKinds] H. constructor; cbn [g_fs g_dbs g_handles g_dropped g_nextdir]; try assumption.
  - (* sf_db *) intros i x' Hx L. destruct (H i x' Hx L) as (x & _ & _ & _ & SD). exact SD.
  - (* sf_writer *) intros i j a b Ha Hb La Lb E. destruct (H _ _ Ha La) as (za & Hza & Lza & Da & _), (H _ _ Hb Lb) as (zb & Hzb & Lzb & Db & _).
    apply (SWriter i j za zb); congruence.
  - (* sf_dirs *) intros i a Ha La. destruct (H _ _ Ha La) as (za & Hza & Lza & Da & _). rewrite Da. eauto.
Qed.

Lemma safe_set_db w d x x' :
  Safe w -> get_db w d = Some x -> x_dir x' = x_dir x ->
  (x_state x' = Live -> x_state x = Live /\ safe_db (g_fs w) (g_handles w) (g_dropped w) x') ->
  Safe (set_db w d x').
Proof.
  intros S G Dr H. apply (safe_dbs w); [exact S|]. intros i y Hy L. cbn in Hy. rewrite upd_set_at in Hy.
  apply nth_error_set_at in Hy as [[-> ->]|Hy].
  - destruct (H L). exists x. auto.
  - exists y. pose proof (sf_db S i y Hy L). auto.
Qed.

(* an object after a step of its core, of its table objects or of a flush / compaction task *)
Definition with_bg (x : wdb) c nx objs fl fq cm cq : wdb :=
  mkW c (x_dir x) (x_own x) (x_nb x) nx (x_ckpts x) (x_pending x) fl fq cm cq (x_cktasks x) objs (x_state x).

Lemma safe_bg w d x c nx objs fl fq cm cq :
  Safe w -> get_db w d = Some x -> w_id (d_wal (x_core x)) <= w_id (d_wal c) ->
  (forall o, In o objs -> In o (x_objs x) \/ kind (o_name o) = 0) ->
  (forall n, In n (rn (with_bg x c nx objs fl fq cm cq)) -> In n (rn x) \/ (fs_has (g_fs w) n = true /\ kind n = 0)) ->
  Safe (set_db w d (with_bg x c nx objs fl fq cm cq)).
Proof.
  intros S G Wi Ob Rn. apply (safe_set_db w d x); [exact S|exact G|reflexivity|]. intro L. split; [exact L|].
  apply (safe_db_bg _ _ _ x); auto. apply (sf_db S _ x G L).
Qed.
Lemma safe_idle w d x nx fl fq cm cq :
  Safe w -> get_db w d = Some x -> rn (with_bg x (x_core x) nx (x_objs x) fl fq cm cq) = rn x ->
  Safe (set_db w d (with_bg x (x_core x) nx (x_objs x) fl fq cm cq)).
Proof. intros S G E. apply safe_bg; [exact S|exact G|apply N.le_refl|auto|]. rewrite E. auto. Qed.

Lemma safe_recs_moved w d x l1 l2 ts :
  Safe w -> get_db w d = Some x -> x_state x = Live -> Permutation (recs x) (l1 ++ l2) ->
  (forall id, In (id, true) ts -> In (id, true) (x_cktasks x)) ->
  Safe (set_db w d (with_ck x l1 l2 ts)).
Proof.
  intros S G L P Tk. apply (safe_set_db w d x); [exact S|exact G|reflexivity|]. intros _. split; [exact L|].
  apply safe_db_with_ck with (gone := []); [apply (sf_db S _ x G L)|rewrite app_nil_r; exact P|intros c []|exact Tk].
Qed.
Lemma safe_recs_cleared w d x l1 l2 ts :
  Safe w -> get_db w d = Some x -> x_state x = Live -> Permutation (recs x) (l1 ++ l2) ->
  (forall c, In c l2 -> In (c_id c) (g_dropped w)) -> (forall id, In (id, true) ts -> In (id, true) (x_cktasks x)) ->
  Safe (set_db w d (with_ck x l1 [] ts)).
Proof.
  intros S G L P DR Tk. apply (safe_set_db w d x); [exact S|exact G|reflexivity|]. intros _. split; [exact L|].
  apply safe_db_with_ck with (gone := l2); [apply (sf_db S _ x G L)|rewrite app_nil_r; exact P|exact DR|exact Tk].
Qed.

(* the files whose existence or content the invariant asserts *)
Inductive needed (w : world) : fname -> Prop :=
| need_reach i y n : nth_error (g_dbs w) i = Some y -> x_state y = Live -> In n (rn y) -> needed w n
| need_wal i y c : nth_error (g_dbs w) i = Some y -> x_state y = Live -> In c (recs y) -> In (c_id c, true) (x_cktasks y) ->
                   ~ In (c_id c) (g_dropped w) -> needed w (c_wal c)
| need_handle id D docs d n : In (id, D) (g_handles w) -> ~ In id (g_dropped w) -> fs_get (g_fs w) (D, 2, 0) = Some (FCk docs) ->
                   find_doc docs id = Some d -> In n ((D, 2, 0) :: doc_files d) -> needed w n.

Lemma safe_set_fs w f' : Safe w ->
  (forall n, needed w n -> fs_has (g_fs w) n = true -> fs_has f' n = true) ->
  (forall n, needed w n -> kind n = 2 -> fs_get f' n = fs_get (g_fs w) n) ->
  (forall n docs, fs_get f' n = Some (FCk docs) -> fs_get (g_fs w) n = Some (FCk docs)) ->
  Safe (set_fs w f').
Proof.
  intros S H C N. pose proof S as [SDb SHandles SWriter SDirs SHdirs SKinds]. constructor; cbn [set_fs g_fs g_dbs g_handles g_dropped g_nextdir]; try assumption.
  - (* sf_db *) intros i x Hx L. destruct (SDb i x Hx L) as [Reach Docs Ids Wals Kw Kx Ko Kt Walid Inflight]. constructor; try assumption.
    + (* sd_reach *) intros n Hn. apply H; [eapply need_reach; eassumption|auto].
    + (* sd_docs *) intros docs id d G. apply Docs, N, G.
    + (* sd_inflight *) intros id Ht ND. destruct (Inflight id Ht ND) as (c & Hc & <- & Hf). exists c. repeat split; auto.
      apply H; [eapply need_wal; eassumption|exact Hf].
  - (* sf_handles *) intros id D Hh ND. destruct (SHandles id D Hh ND) as (docs & d & G1 & G2 & G3). exists docs, d.
    assert (forall n, In n ((D, 2, 0) :: doc_files d) -> needed w n) as Nd by (intros n Hn; eapply need_handle; eassumption).
    split; [rewrite C; [exact G1|apply Nd; left|]; reflexivity|]. split; [exact G2|]. intros n Hn. apply H; [apply Nd; right; exact Hn|auto].
  - (* sf_kinds *) intros n docs d G. apply (SKinds n docs d), N, G.
Qed.

Lemma safe_put w n c : Safe w -> kind n <> 2 -> (forall docs, c <> FCk docs) -> Safe (set_fs w (fs_put (g_fs w) n c)).
Proof.
  intros S K NC. apply safe_set_fs; [exact S| | |].
  - intros m _ H. rewrite fs_has_put, H. apply orb_true_r.
  - intros m _ Km. rewrite fs_get_put, fname_neq_kind by congruence. reflexivity.
  - intros m docs. rewrite fs_get_put. destruct (fname_eqb m n); [intro H; inversion H; subst c; destruct (NC docs eq_refl)|auto].
Qed.
Lemma safe_puts {A} (name : A -> fname) (cont : A -> fcontent) (l : list A) : forall w, Safe w ->
  (forall a, In a l -> kind (name a) <> 2) -> (forall a docs, cont a <> FCk docs) ->
  Safe (set_fs w (fold_left (fun f a => fs_put f (name a) (cont a)) l (g_fs w))).
Proof.
  induction l as [|a l IH]; intros w S K NC; cbn [fold_left]; [destruct w; exact S|].
  apply (IH (set_fs w (fs_put (g_fs w) (name a) (cont a)))); [apply safe_put; [exact S|apply K; left; reflexivity|apply NC]| |exact NC].
  intros b Hb. apply K. right. exact Hb.
Qed.

Lemma safe_delete w names : Safe w -> (forall n, In n names -> ~ needed w n) -> Safe (set_fs w (fold_left fs_del names (g_fs w))).
Proof.
  intros S H.
  assert (forall n, needed w n -> fs_get (fold_left fs_del names (g_fs w)) n = fs_get (g_fs w) n) as Keep.
  { intros n Hn. rewrite fs_get_dels. destruct (mem_name n names) eqn:E; [|reflexivity]. apply mem_name_in in E. destruct (H n E Hn). }
  apply safe_set_fs; [exact S| | |].
  - intros n Hn. unfold fs_has. rewrite (Keep n Hn). auto.
  - intros n Hn _. exact (Keep n Hn).
  - intros n docs. rewrite fs_get_dels. destruct (mem_name n names); [discriminate|auto].
Qed.

(* the case split of [needed_cases] on a handle's directory [D]: what the handle needs is object [i]'s own business when [i]
   is the live writer of [D] (proved), and the monitor's otherwise *)
Lemma live_writer_dec w i D :
  (exists x, nth_error (g_dbs w) i = Some x /\ x_state x = Live /\ x_dir x = D) \/
  ~ (exists x, nth_error (g_dbs w) i = Some x /\ x_state x = Live /\ x_dir x = D).
Proof.
  destruct (nth_error (g_dbs w) i) as [x|]; [|right; intros (x0 & H0 & _); discriminate].
  destruct (x_state x) eqn:St.
  - (* Live *) destruct (N.eq_dec (x_dir x) D) as [E|NE]; [left; eauto|right; intros (x0 & H0 & _ & D0); inversion H0; congruence].
  - (* Crashed *) right. intros (x0 & H0 & L0 & _). inversion H0. congruence.
  - (* Dropped *) right. intros (x0 & H0 & L0 & _). inversion H0. congruence.
Qed.

Lemma needed_cases w i n : Safe w -> needed w n ->
  protects w i n \/
  exists x, nth_error (g_dbs w) i = Some x /\ x_state x = Live /\
            (In n (rn x) \/ (exists c, In c (recs x) /\ ~ In (c_id c) (g_dropped w) /\ n = c_wal c) \/ kind n = 2).
Proof.
  intros S [j y n0 Hy Ly Hn|j y c Hy Ly Hc Ht ND|id D docs d n0 Hh ND G Fd Hn].
  - (* need_reach *) destruct (Nat.eq_dec j i) as [->|NE]; [right; exists y; auto|left; left; exists j, y; auto 6].
  - (* need_wal *) destruct (Nat.eq_dec j i) as [->|NE]; [right; exists y; repeat split; auto; right; left; exists c; auto|].
    left. left. exists j, y. repeat split; auto. right. left. exists c, (c_id c). auto.
  - (* need_handle *) destruct (live_writer_dec w i D) as [(x & Hx & Lx & <-)|NX].
    + (* a handle of i's own directory: its document agrees with one of i's records *)
      right. exists x. split; [exact Hx|]. split; [exact Lx|].
      destruct (sd_docs (sf_db S i x Hx Lx) docs id d G Fd Hh ND) as (c & Hc & A1 & A2 & A3).
      destruct Hn as [<-|[<-|Hn]]; [right; right; reflexivity| |left; eapply rn_rec; eauto].
      right. left. exists c. split; [exact Hc|]. split; [|exact A2]. rewrite <- A1, (proj2 (find_doc_in _ _ _ Fd)). exact ND.
    + (* of another directory: the monitor's second case *) left. right. exists id, D, docs, d. repeat split; auto. destruct Hn as [<-|Hn]; auto.
Qed.

Lemma after_rotations_dir_state x k : x_dir (after_rotations x k) = x_dir x /\ x_state (after_rotations x k) = x_state x.
Proof. unfold after_rotations. destruct k; [auto|]. destruct (x_flush x); [destruct (x_flushq x =? 0)%nat|..]; auto. Qed.
Lemma safe_db_after_rotations f hs dr x k : safe_db f hs dr x -> safe_db f hs dr (after_rotations x k).
Proof.
  intro S.
  (* only the flush task and its queue change, and the task stays what it is or starts (FBegin for FNone): it holds no table *)
  assert (forall fl q, fl = x_flush x \/ x_flush x = FNone /\ fl = FBegin -> safe_db f hs dr (with_flush x fl q)) as W.
  { intros fl q E. apply (safe_db_bg f hs dr x (with_flush x fl q) S eq_refl (N.le_refl _) eq_refl); [cbn; auto|cbn; auto|].
    intros m Hm. left. unfold rn in *. cbn in Hm. destruct E as [->|[E ->]]; [|rewrite E]; exact Hm. }
  unfold after_rotations. destruct k as [|k]; [exact S|].
  destruct (x_flush x) eqn:F; [destruct (x_flushq x =? 0)%nat|..]; apply W; auto.
Qed.

Lemma safe_write w d k del v rot : Safe w -> Safe (fst (write_op w d k del v rot)).
Proof.
  intro S. unfold write_op. destruct (get_db w d) as [x|] eqn:G; [|exact S]. destruct (is_live x); [|exact S]. cbn [fst].
  destruct (after_rotations_dir_state (with_core x (db_write_at (x_core x) k del v rot)) (if rot then 1%nat else 0%nat)) as [Dr St].
  apply (safe_set_db w d x); [exact S|exact G|exact Dr|]. rewrite St. intro L. split; [exact L|]. apply safe_db_after_rotations.
  apply (safe_db_bg _ _ _ x); [apply (sf_db S _ x G L)|reflexivity| |reflexivity|cbn; auto..|]; cbn.
  - rewrite db_write_at_walid. apply N.le_refl.
  - intros n Hn. left. unfold rn in *. cbn in Hn. rewrite db_write_at_tables in Hn. exact Hn.
Qed.

Lemma mk_tables_kind dir next ms t : In t (mk_tables dir next ms) -> kind (t_name t) = 0.
Proof. revert next. induction ms as [|m ms IH]; intro next; [intros []|]. cbn [mk_tables]. intros [<-|H]; [reflexivity|eapply IH; exact H]. Qed.

Lemma safe_step_flush w d : Safe w -> Safe (step w (OStepFlush d)).
Proof.
  intro S. cbn [step]. destruct (get_db w d) as [x|] eqn:G; [|exact S].
  destruct (x_flush x) as [| |n ts|] eqn:F; [exact S| | |].
  - apply (safe_bg _ d x); [apply (safe_puts t_name (fun t => FSst (t_es t))); [exact S| |discriminate]|exact G|apply N.le_refl| |].
    + intros t Ht. rewrite (mk_tables_kind _ _ _ _ Ht). discriminate.
    + intros o Ho. apply in_app_or in Ho as [Ho|Ho]; [left; exact Ho|right].
      apply in_map_iff in Ho as (t & <- & Ht). apply (mk_tables_kind _ _ _ _ Ht).
    + intros m Hm. apply in_rn_parts in Hm. cbn in Hm. rewrite in_rn_parts. destruct Hm as [Hm|[Hm|[Hm|Hm]]]; auto.
      right. apply in_map_iff in Hm as (t & <- & Ht).
      split; [apply (fold_put_has t_name (fun t => FSst (t_es t))), Ht|apply (mk_tables_kind _ _ _ _ Ht)].
  - apply (safe_bg _ d x); [exact S|exact G|apply N.le_refl|auto|].
    intros m Hm. left. unfold rn in *. cbn in Hm. rewrite F. rewrite map_app, !in_app_iff in *. tauto.
  - destruct (x_flushq x); cbn [x_comp x_compq with_flush]; destruct (x_comp x) eqn:Cm;
      (apply (safe_idle w d x); [exact S|exact G|]; unfold rn; rewrite F, Cm; reflexivity).
Qed.

Lemma safe_step_flush_fail w d : Safe w -> Safe (step w (OStepFlushF d)).
Proof.
  intro S. cbn [step]. destruct (get_db w d) as [x|] eqn:G; [|exact S].
  destruct (x_flush x) eqn:F; try exact S. cbn [x_flushq with_objs]. destruct (x_flushq x);
    (apply (safe_idle w d x); [exact S|exact G|]; unfold rn; rewrite F; reflexivity).
Qed.

Lemma safe_step_compact w d r : Safe w -> step_ok w (OStepCompact d r) -> Safe (step w (OStepCompact d r)).
Proof.
  intros S OK. cbn [step]. destruct (get_db w d) as [x|] eqn:G; [|exact S].
  destruct (x_comp x) as [| | |a|] eqn:Cm.
  - destruct r; exact S.
  - apply (safe_idle w d x); [exact S|exact G|]. unfold rn. rewrite Cm. reflexivity.
  - destruct r as [| |names|removed added]; try exact S.
    + apply (safe_idle w d x); [exact S|exact G|]. unfold rn. rewrite Cm. reflexivity.
    + cbn [step_ok] in OK.
      apply (safe_bg _ d x); [apply (safe_puts (fun n => n) (fun _ => FSst [])); [exact S| |discriminate]|exact G|apply N.le_refl| |].
      * intros n Hn. rewrite (OK n Hn). discriminate.
      * intros o Ho. apply in_app_or in Ho as [Ho|Ho]; [left; exact Ho|right].
        apply in_map_iff in Ho as (n & <- & Hn). apply OK, Hn.
      * intros m Hm. apply in_rn_parts in Hm. cbn in Hm. rewrite in_rn_parts. destruct Hm as [Hm|[Hm|[Hm|Hm]]]; auto.
        right. split; [apply (fold_put_has (fun n => n) (fun _ => FSst [])), Hm|apply OK, Hm].
  - destruct r as [| | |removed added]; try exact S.
    cbn [step_ok] in OK.
    apply (safe_bg _ d x); [apply (safe_puts fst (fun a => FSst (snd a))); [exact S| |discriminate]|exact G|apply N.le_refl|auto|].
    + intros p Hp. rewrite (OK p Hp). discriminate.
    + intros m Hm. apply in_rn_parts in Hm. cbn in Hm. rewrite in_rn_parts. rewrite map_app, in_app_iff, map_map in Hm.
      destruct Hm as [[Hm|Hm]|[Hm|[Hm|[]]]]; auto.
      * left. left. apply in_map_iff in Hm as (t & <- & Ht). apply filter_In in Ht. apply in_map, Ht.
      * right. apply in_map_iff in Hm as (p & <- & Hp).
        split; [apply (fold_put_has fst (fun a => FSst (snd a))), Hp|apply OK, Hp].
  - destruct (x_compq x); (apply (safe_idle w d x); [exact S|exact G|]; unfold rn; rewrite Cm; reflexivity).
Qed.

Lemma safe_step_ckpt_call w d id : Safe w -> step_ok w (OCkpt d id) -> Safe (step w (OCkpt d id)).
Proof.
  intros S OK. cbn [step]. destruct (get_db w d) as [x|] eqn:G; [|exact S]. destruct (OK x G) as [L Fresh]. cbn [db_checkpoint].
  pose proof (sf_db S _ x G L) as SD.
  set (rec := mkCk id (d_tables (x_core x)) (x_dir x, 1, w_id (d_wal (x_core x))) (wal_content (d_wal (x_core x))) (d_latest (x_core x)) (d_seq (x_core x)) []).
  set (x' := with_ck _ _ _ _).
  assert (Permutation (rec :: recs x) (recs x')) as P by (unfold recs; cbn; rewrite <- app_assoc; apply Permutation_middle).
  apply (safe_set_db w d x); [exact S|exact G|reflexivity|]. intros _. split; [exact L|].
  apply (safe_db_step _ _ _ x x' SD eq_refl).
  - (* WAL id grows *) cbn. lia.
  - (* records kept *) intros c Hc. left. apply (Permutation_in _ P). right. exact Hc.
  - (* the one new record *) intros c Hc. apply (Permutation_in _ (Permutation_sym P)) in Hc as [<-|Hc]; [right; cbn; repeat split; lia|left; exact Hc].
  - (* ids distinct *) eapply Permutation_NoDup; [apply Permutation_map, P|]. constructor; [exact Fresh|apply (sd_ids SD)].
  - (* WAL handles distinct: the WAL that was rotated away has the id no earlier record of this directory can have *)
    eapply Permutation_NoDup; [apply Permutation_flat_map, P|]. constructor; [|apply (sd_wals SD)].
    intro H. apply in_flat_map in H as (c & Hc & [E|Hn]).
    + pose proof (sd_walid SD c Hc) as W. rewrite E in W. specialize (W eq_refl). cbn in W. lia.
    + destruct (sd_kx SD c _ Hc Hn) as [_ ND]. apply ND. reflexivity.
  - (* tasks *) cbn. intros id0 H. apply in_snoc in H as [H|H]; [auto|discriminate].
  - (* table objects *) auto.
  - (* reachable names: the record holds the current level set *)
    intros n Hn. left. apply in_rn_parts in Hn. cbn in Hn. destruct Hn as [Hn|[Hn|Hn]]; [apply in_rn_parts; auto| |apply in_rn_parts; auto].
    apply in_flat_map in Hn as (c & Hc & Hn). apply (Permutation_in _ (Permutation_sym P)) in Hc.
    destruct Hc as [<-|Hc]; [apply in_rn_parts; left; exact Hn|eapply rn_rec; eauto].
Qed.

Lemma safe_add_dropped w ids : Safe w -> Safe (add_dropped w ids).
Proof.
  intros [SDb SHandles SWriter SDirs SHdirs SKinds]. constructor; cbn [add_dropped g_fs g_dbs g_handles g_dropped g_nextdir]; try assumption.
  - (* sf_db *) intros i x Hx L. destruct (SDb i x Hx L) as [Reach Docs Ids Wals Kw Kx Ko Kt Walid Inflight]. constructor; try assumption.
    + (* sd_docs *) intros docs id d G Fd Hh ND. apply (Docs docs id d G Fd Hh). intro H. apply ND, in_or_app. auto.
    + (* sd_inflight *) intros id H ND. apply (Inflight id H). intro H1. apply ND, in_or_app. auto.
  - (* sf_handles *) intros id D Hh ND. apply SHandles; [exact Hh|]. intro H. apply ND, in_or_app. auto.
Qed.

(* CheckpointList.Save, part 1 ([save_write]). The object in the world is still the one before the update; [l1] and [l2] are
   its list and its pending removals after it. *)
Lemma safe_write_list w d x l1 l2 :
  Safe w -> get_db w d = Some x -> x_state x = Live ->
  Permutation (recs x) (l1 ++ l2) -> (forall c, In c l2 -> In (c_id c) (g_dropped w)) ->
  Safe (set_fs w (fs_put (g_fs w) (x_dir x, 2, 0) (FCk (map doc_of l1)))).
Proof.
  intros S G L P DR. pose proof S as [SDb SHandles SWriter SDirs SHdirs SKinds].
  assert (safe_db (g_fs w) (g_handles w) (g_dropped w) (with_ck x l1 l2 (x_cktasks x))) as SD1.
  { apply safe_db_with_ck with (gone := []); [apply (sf_db S _ x G L)|rewrite app_nil_r; exact P|intros c []|auto]. }
  assert (forall n, fs_has (g_fs w) n = true -> fs_has (fs_put (g_fs w) (x_dir x, 2, 0) (FCk (map doc_of l1))) n = true) as M
    by (intros n H; rewrite fs_has_put, H; apply orb_true_r).
  constructor; cbn [set_fs g_fs g_dbs g_handles g_dropped g_nextdir]; try assumption.
  - (* sf_db *) intros i y Hy Ly. destruct (SDb i y Hy Ly) as [Reach Docs Ids Wals Kw Kx Ko Kt Walid Inflight]. constructor; try assumption.
    + (* sd_reach *) intros n H. apply M, Reach, H.
    + (* sd_docs: only the acting object lives in the directory whose file changes *)
      intros docs id dd Gd Fd Hh ND. rewrite fs_get_put in Gd. destruct (fname_eqb (x_dir y, 2, 0) (x_dir x, 2, 0)) eqn:E; [|eauto].
      apply fname_eqb_eq in E. assert (i = N.to_nat d) as -> by (eapply SWriter; eauto; congruence).
      unfold get_db in G. rewrite G in Hy. inversion Hy; subst y. inversion Gd; subst docs.
      destruct (list_file_docs (with_ck x l1 l2 (x_cktasks x)) id dd Fd) as (c & Hc & A). exists c. split; [|exact A].
      apply (Permutation_in _ (Permutation_sym P)), Hc.
    + (* sd_inflight *) intros id H ND. destruct (Inflight id H ND) as (c & Hc & E & Hf). exists c. auto.
  - (* sf_handles *) intros id D Hh ND. destruct (SHandles id D Hh ND) as (docs & dd & G1 & G2 & G3). rewrite fs_get_put.
    destruct (fname_eqb (D, 2, 0) (x_dir x, 2, 0)) eqn:E; [|exists docs, dd; auto].
    apply fname_eqb_eq in E. inversion E; subst D.
    destruct (sd_docs SD1 docs id dd G1 G2 Hh ND) as (c & Hc & A1 & A2 & A3).
    assert (c_id c = id) as <- by (rewrite <- A1; apply (find_doc_in _ _ _ G2)).
    apply in_app_or in Hc as [Hc|Hc]; [|destruct (ND (DR c Hc))].
    destruct (list_file_handle _ _ _ _ c SD1 Hc) as [Fc Hf]; [apply G3; left; exact A2|]. exists (map doc_of l1), (doc_of c). auto.
  - (* sf_kinds *) intros n docs dd Gn Hd. rewrite fs_get_put in Gn. destruct (fname_eqb n (x_dir x, 2, 0)); [|eauto]. inversion Gn; subst docs.
    apply in_map_iff in Hd as (c & <- & Hc). assert (In c (recs (with_ck x l1 l2 (x_cktasks x)))) as Hr by (apply in_or_app; auto).
    split; [apply (sd_kw SD1 c Hr)|]. split; [|intros m Hm; apply (sd_kx SD1 c m Hr Hm)].
    intros t Ht. apply in_map_iff in Ht as (tb & <- & Htb). apply (sd_kt SD1). eapply rn_rec; [exact Hr|apply (in_map t_name), Htb].
Qed.

Lemma safe_save_write w d x l1 l2 ts :
  Safe w -> get_db w d = Some x -> x_state x = Live -> Permutation (recs x) (l1 ++ l2) -> Safe (save_write w (with_ck x l1 l2 ts)).
Proof.
  intros S G L P. apply (safe_write_list (add_dropped w (map c_id l2)) d x l1 l2); auto using safe_add_dropped.
  intros c Hc. apply in_or_app. right. apply in_map, Hc.
Qed.

(* Save, part 2: Destroy of the pending removals. What the object itself still needs is no WAL of a dropped checkpoint; for the
   other parties the monitor speaks. *)
Lemma safe_destroy w d x l1 l2 ts :
  Safe w -> get_db w d = Some x -> x_state x = Live -> Permutation (recs x) (l1 ++ l2) -> destroy_ok w d (with_ck x l1 l2 ts) ->
  Safe (fst (save_destroy (save_write w (with_ck x l1 l2 ts)) (with_ck x l1 l2 ts))).
Proof.
  intros S G L P MON. pose proof (safe_save_write w d x l1 l2 ts S G L P) as SW.
  apply safe_delete; [exact SW|]. intros m Hm Nd. apply in_flat_map in Hm as (p & Hp & Hm).
  destruct (needed_cases _ (N.to_nat d) m SW Nd) as [Pr|(x0 & Hx & _ & Own)]; [exact (MON p m Hp Hm Pr)|].
  unfold get_db in G. cbn in Hx. rewrite G in Hx. inversion Hx; subst x0. pose proof (sf_db S _ x G L) as SD.
  assert (NoDup (flat_map c_allw (l1 ++ l2))) as NW by (eapply Permutation_NoDup; [apply Permutation_flat_map, P|exact (sd_wals SD)]).
  assert (kind m = 1) as K1 by (apply (allw_kind _ _ _ _ p m SD), Hm; apply (Permutation_in _ (Permutation_sym P)), in_or_app; auto).
  destruct Own as [R|[(c & Hc & NDc & ->)|K2]]; [rewrite (sd_kt SD m R) in K1; discriminate| |congruence].
  apply (Permutation_in _ P), in_app_or in Hc as [Hc|Hc]; [|apply NDc, in_or_app; right; apply in_map, Hc].
  rewrite flat_map_app in NW. apply (proj2 (proj2 (proj1 (NoDup_app_iff _ _) NW)) (c_wal c)); apply in_flat_map; [exists c|exists p]; cbn; auto.
Qed.

Lemma perm_partition {A} (p : A -> bool) (l : list A) : Permutation l (filter p l ++ filter (fun x => negb (p x)) l).
Proof.
  induction l as [|a l IH]; [constructor|]. cbn [filter]. destruct (p a); cbn [negb app].
  - constructor. exact IH.
  - eapply perm_trans; [constructor; exact IH|]. apply Permutation_middle.
Qed.

Lemma recs_retain_perm x ids : Permutation (recs x) (recs (retain_x1 x ids)).
Proof.
  unfold recs, retain_x1. cbn [with_ck x_ckpts x_pending].
  eapply perm_trans; [apply Permutation_app_tail; apply (perm_partition (retain_keeps ids))|].
  rewrite <- app_assoc. apply Permutation_app_head. apply Permutation_app_comm.
Qed.

Lemma safe_step_retain w d ids f :
  Safe w ->
  (forall x, get_db w d = Some x -> x_state x = Live /\ (snd (save_list_f w (retain_x1 x ids) f) = true -> destroy_ok w d (retain_x1 x ids))) ->
  Safe (step_retain w d ids f).
Proof.
  intros S OK. unfold step_retain. destruct (get_db w d) as [x|] eqn:G; [|exact S]. destruct (OK x eq_refl) as [L MON].
  destruct (filter (retain_keeps ids) (x_ckpts x)) as [|k0 ks] eqn:FK; [exact S|]. rewrite <- FK. clear FK.
  pose proof (recs_retain_perm x ids) as P. unfold retain_x1 in *. set (x1 := with_ck _ _ _ _) in *.
  unfold save_list_f in *. destruct (f =? 1).
  - apply safe_recs_moved; auto.
  - destruct ((f =? 2) && _); cbn [fst snd] in *.
    + apply safe_recs_moved; auto. eapply safe_save_write; eassumption.
    + apply (safe_recs_cleared _ d x _ (x_pending x1)); auto; [apply (safe_destroy w d x); auto|].
      intros c Hc. apply in_or_app. right. apply in_map, Hc.
Qed.

Lemma safe_add_handle w d y id :
  Safe w -> get_db w d = Some y -> x_state y = Live ->
  fs_get (g_fs w) (x_dir y, 2, 0) = Some (FCk (map doc_of (x_ckpts y))) ->
  (~ In id (g_dropped w) -> exists c, In c (x_ckpts y) /\ c_id c = id /\ fs_has (g_fs w) (c_wal c) = true) ->
  Safe (add_handle w (id, x_dir y)).
Proof.
  intros S G L FILE NEW. pose proof (sf_db S _ y G L) as SY. unfold get_db in G. destruct S as [SDb SHandles SWriter SDirs SHdirs SKinds].
  constructor; cbn [add_handle g_fs g_dbs g_handles g_dropped g_nextdir]; try assumption.
  - (* sf_db, sd_docs: the new handle's document is the acting object's *)
    intros i z Hz Lz. destruct (SDb i z Hz Lz) as [Reach Docs Ids Wals Kw Kx Ko Kt Walid Inflight]. constructor; try assumption.
    intros docs id0 dd Gd Fd Hh ND. apply in_snoc in Hh as [Hh|Hh]; [eauto|].
    inversion Hh; subst id0. assert (i = N.to_nat d) as -> by (eapply SWriter; eauto).
    rewrite G in Hz. inversion Hz; subst z. rewrite FILE in Gd. inversion Gd; subst docs. eapply list_file_docs, Fd.
  - (* sf_handles *) intros id0 D Hh ND. apply in_snoc in Hh as [Hh|Hh]; [auto|]. inversion Hh; subst id0 D.
    destruct (NEW ND) as (c & Hc & <- & Hf). exists (map doc_of (x_ckpts y)), (doc_of c). split; [exact FILE|].
    apply (list_file_handle _ _ _ _ c SY Hc Hf).
  - (* sf_hdirs *) intros id0 D Hh. apply in_snoc in Hh as [Hh|Hh]; [eauto|]. inversion Hh; subst. eauto.
Qed.

Lemma safe_step_ckpt w d id f :
  Safe w ->
  (forall x, get_db w d = Some x -> x_state x = Live /\ (snd (save_list_f w x f) = true -> destroy_ok w d x)) ->
  Safe (step_ckpt w d id f).
Proof.
  intros S OK. unfold step_ckpt. destruct (get_db w d) as [x|] eqn:G; [|exact S]. destruct (OK x eq_refl) as [L MON].
  destruct (find (fun t => fst t =? id) (x_cktasks x)) as [[i0 b]|] eqn:FT; [|exact S].
  apply find_some in FT as [HT EI]. cbn in EI. apply N.eqb_eq in EI. subst i0.
  assert (forall i, In (i, true) (filter (fun t => negb (fst t =? id)) (x_cktasks x)) -> In (i, true) (x_cktasks x)) as Tk
    by (intros i H; apply filter_In in H; apply H).
  assert (Permutation (recs x) (x_ckpts x ++ x_pending x)) as P by reflexivity.
  destruct b.
  - unfold save_list_f in *. cbn [with_ck x_pending] in *. destruct (f =? 1).
    + apply safe_recs_moved; auto.
    + destruct ((f =? 2) && _); cbn [fst snd] in *.
      * apply safe_recs_moved; auto. eapply safe_save_write; eassumption.
      * (* the Save succeeded and the handle is returned: the WAL-saved task still vouches for the WAL file *)
        pose proof (safe_destroy w d x _ _ (x_cktasks x) S G L P (MON eq_refl)) as SB.
        match type of SB with Safe ?W => set (wb := W) in * end.
        assert (forall c, In c (x_pending x) -> In (c_id c) (g_dropped wb)) as DR by (intros c Hc; apply in_or_app; right; apply in_map, Hc).
        apply (safe_recs_cleared (add_handle wb (id, x_dir x)) d x _ (x_pending x)); auto.
        apply (safe_add_handle wb d x id SB G L).
        -- cbn. rewrite fs_get_dels, fs_get_put, fname_eqb_refl.
           destruct (mem_name (x_dir x, 2, 0) (flat_map c_allw (x_pending x))) eqn:E; [|reflexivity].
           apply mem_name_in, in_flat_map in E as (c & Hc & Hn).
           apply (allw_kind _ _ _ _ c _ (sf_db S _ x G L)) in Hn; [discriminate|apply in_or_app; auto].
        -- intro ND. destruct (sd_inflight (sf_db SB _ x G L) id HT ND) as (c & Hc & E & Hf). exists c. split; [|auto].
           apply in_app_or in Hc as [Hc|Hc]; [exact Hc|]. destruct ND. rewrite <- E. auto.
  - destruct (f =? 1); [apply safe_recs_moved; auto|].
    destruct (find (fun c => c_id c =? id) (x_ckpts x ++ x_pending x)) as [c|] eqn:FC; [|exact S].
    apply find_some in FC as [Hc Ec]. apply N.eqb_eq in Ec.
    assert (Safe (set_fs w (fs_put (g_fs w) (c_wal c) (FWal (c_content c))))) as SP
      by (apply safe_put; [exact S|rewrite (sd_kw (sf_db S _ x G L) c Hc)|]; discriminate).
    apply (safe_set_db _ d x); [exact SP|exact G|reflexivity|]. intros _. split; [exact L|].
    apply (safe_db_bg _ _ _ x); [apply (sf_db SP _ x G L)|reflexivity|apply N.le_refl|reflexivity| |auto..].
    cbn. intros id0 H. apply in_map_iff in H as ([i b] & Eq & Ht). cbn in Eq.
    destruct (i =? id); inversion Eq; subst; [right; exists c; rewrite fs_has_put, fname_eqb_refl|left]; auto.
Qed.

Lemma safe_add_db w x b :
  Safe w ->
  (x_state x = Live ->
     safe_db (g_fs w) (g_handles w) (g_dropped w) x /\
     (forall i y, nth_error (g_dbs w) i = Some y -> x_state y = Live -> x_dir y <> x_dir x) /\
     (x_dir x < (if b : bool then g_nextdir w + 1 else g_nextdir w))) ->
  Safe (add_db w x b).
Proof.
  intros [SDb SHandles SWriter SDirs SHdirs SKinds] H. constructor; cbn [add_db g_fs g_dbs g_handles g_dropped g_nextdir]; try assumption.
  - (* sf_db *) intros i y Hy L. destruct (proj1 (nth_error_snoc _ _ _ _) Hy) as [Hy'|[_ ->]]; [eauto|apply H, L].
  - (* sf_writer *) intros i j a c Ha Hc La Lc E.
    destruct (proj1 (nth_error_snoc _ _ _ _) Ha) as [Ha'|[Ia ->]], (proj1 (nth_error_snoc _ _ _ _) Hc) as [Hc'|[Ic ->]]; [eauto| | |congruence].
    + destruct (H Lc) as (_ & NW & _). destruct (NW _ _ Ha' La E).
    + destruct (H La) as (_ & NW & _). destruct (NW _ _ Hc' Lc (eq_sym E)).
  - (* sf_dirs *) intros i y Hy L. destruct (proj1 (nth_error_snoc _ _ _ _) Hy) as [Hy'|[_ ->]]; [specialize (SDirs _ _ Hy' L); destruct b; lia|apply H, L].
  - (* sf_hdirs *) intros id D Hh. specialize (SHdirs _ _ Hh). destruct b; lia.
Qed.

Lemma safe_add_dead w b : Safe w -> Safe (add_db w (dead_db w) b).
Proof. intro S. apply safe_add_db; [exact S|]. intro H. discriminate H. Qed.

Lemma safe_step_open w nd : Safe w -> Safe (step w (OOpen nd)).
Proof.
  intro S. cbn [step]. apply safe_add_db; [exact S|]. intros _. cbn [x_dir]. split; [|split].
  - (* the empty object is safe; sd_docs is left: no handle lies in the fresh directory *)
    constructor; unfold recs; cbn; try (intros; contradiction); try constructor; try (intros; discriminate).
    intros docs id d _ _ Hh. pose proof (sf_hdirs S _ _ Hh). lia.
  - (* no live object writes there *) intros i y Hy Ly E. pose proof (sf_dirs S _ _ Hy Ly). lia.
  - (* the directory is below the next one *) lia.
Qed.

Lemma handle_dir_in w id hd : handle_dir w id = Some hd -> In (id, hd) (g_handles w).
Proof.
  unfold handle_dir. destruct (find (fun h => fst h =? id) (g_handles w)) as [[i D]|] eqn:F; [|discriminate].
  intro H. inversion H; subst. apply find_some in F as [F E]. cbn in E. apply N.eqb_eq in E. subst. exact F.
Qed.

Lemma load_docs_spec w id dirs : forall ds, load_docs w id dirs = inl (Some ds) ->
  Forall2 (fun h d => In (id, h) (g_handles w) /\ exists docs, fs_get (g_fs w) (h, 2, 0) = Some (FCk docs) /\ find_doc docs id = Some d) dirs ds.
Proof.
  induction dirs as [|h rest IH]; intros ds H; cbn [load_docs] in H; [inversion H; constructor|].
  destruct (existsb (fun h0 => (fst h0 =? id) && (snd h0 =? h)) (g_handles w)) eqn:EX; cbn [negb] in H; [|discriminate].
  destruct (fs_get (g_fs w) (h, 2, 0)) as [[| |docs]|] eqn:GF; try discriminate.
  destruct (find_doc docs id) as [d0|] eqn:FD; [|discriminate].
  destruct (load_docs w id rest) as [[ds0|]|c]; try discriminate. inversion H; subst ds.
  constructor; [|apply IH; reflexivity]. split; [|eauto].
  apply existsb_exists in EX as ([i D] & Hh & E). cbn in E. apply andb_true_iff in E as [E1 E2].
  apply N.eqb_eq in E1, E2. subst. exact Hh.
Qed.

Lemma open_fromM_spec w id dirs dir o nb x : open_fromM w id dirs dir o nb = ROpen x ->
  exists d1 ds core rots next content,
    load_docs w id dirs = inl (Some (d1 :: ds)) /\
    d_tables core = map (table_of_doc (g_fs w)) (flat_map dc_tables (d1 :: ds)) /\
    w_id (d_wal core) = fold_right (fun d a => N.max (num_of (dc_wal d)) a) 0 (d1 :: ds) + 1 /\
    x = after_rotations (mkW core dir o nb next [mkCk id (d_tables core) (dc_wal d1) content (dc_after d1) (dc_lastseq d1) (map dc_wal ds)] []
                           FNone 0 CNone 0 [] (map (fun t => mkObj (td_name t) true (td_lo t) (td_hi t)) (flat_map dc_tables (d1 :: ds))) Live) rots.
Proof.
  unfold open_fromM. destruct (load_docs w id dirs) as [[[|d1 ds]|]|c]; try discriminate.
  destruct (replay_docs (g_fs w) (d1 :: ds)) as [[es|]|c]; try discriminate.
  destruct (db_restore _ _ _ _ _ _) as [core rots] eqn:DR. apply db_restore_fields in DR as [CT CW].
  intro H. injection H as <-. exists d1, ds, core, rots. eexists. eexists.
  split; [reflexivity|]. split; [exact CT|]. split; [exact CW|]. rewrite CT. reflexivity.
Qed.

Lemma loaded_docs_exist w id dirs ds : Safe w -> ~ In id (g_dropped w) -> load_docs w id dirs = inl (Some ds) ->
  forall d, In d ds -> kind (dc_wal d) = 1 /\ forall t, In t (dc_tables d) -> kind (td_name t) = 0 /\ fs_has (g_fs w) (td_name t) = true.
Proof.
  intros S ND LD. apply Forall_forall.
  pose proof (load_docs_spec _ _ _ _ LD) as F2. clear LD. induction F2 as [|h d dirs' ds' (Hh & docs & GF & FD) _ IH]; constructor; [|exact IH].
  destruct (sf_handles S id h Hh ND) as (docs' & d' & G1 & G2 & G3). rewrite GF in G1. inversion G1; subst docs'. rewrite FD in G2. inversion G2; subst d'.
  destruct (sf_kinds S _ _ d GF (proj1 (find_doc_in _ _ _ FD))) as (KW & KT & _).
  split; [exact KW|]. intros t Ht. split; [apply KT, Ht|]. apply G3. right. apply in_map, Ht.
Qed.

(* Every document was found under a completed handle that no saved update dropped, so its files exist; the new object starts
   with one record for them; into the directory of the first handle ([same]) its other handles are superseded. *)
Lemma safe_restoreM w nd id dirs (same : bool) o nb :
  Safe w -> ~ In id (g_dropped w) ->
  (forall d1 ds, load_docs w id dirs = inl (Some (d1 :: ds)) ->
     NoDup (map dc_wal (d1 :: ds)) /\ forall d, In d ds -> fst (fst (dc_wal d)) <> (if same then hd 0 dirs else g_nextdir w)) ->
  (same = true -> forall i x, nth_error (g_dbs w) i = Some x -> x_state x = Live -> x_dir x <> hd 0 dirs) ->
  Safe (step w (ORestoreM nd id dirs same o nb)).
Proof.
  intros S ND MON SAME. cbn [step]. set (dir := if same then hd 0 dirs else g_nextdir w) in *.
  destruct (open_fromM w id dirs dir o nb) as [c|x] eqn:OP; [apply safe_add_dead, S|].
  apply open_fromM_spec in OP as (d1 & ds & core & rots & next & content & LD & CT & CW & ->).
  destruct (MON d1 ds LD) as [NDW NDIR].
  pose proof (loaded_docs_exist w id dirs _ S ND LD) as DOCS.
  pose proof (load_docs_spec _ _ _ _ LD) as F2. inversion F2 as [|h1 ? rest ? (Hh1 & docs1 & GF1 & FD1) _]. subst. cbn [hd] in *.
  set (x0 := mkW core dir _ _ _ _ _ _ _ _ _ _ _ _).
  apply safe_add_db; [apply safe_add_dropped, S|]. intros _. rewrite (proj1 (after_rotations_dir_state x0 rots)).
  cbn [add_dropped g_fs g_dbs g_handles g_dropped g_nextdir x0 x_dir]. split; [|split].
  - (* the restored object is safe *)
    assert (forall n, In n (map t_name (d_tables core)) -> kind n = 0 /\ fs_has (g_fs w) n = true) as TABS.
    { intros n Hn. rewrite CT, map_map in Hn. apply in_map_iff in Hn as (t & <- & Ht). apply in_flat_map in Ht as (d & Hd & Ht).
      apply (DOCS d Hd), Ht. }
    assert (forall n, In n (rn x0) -> In n (map t_name (d_tables core))) as RN.
    { intros n Hn. apply in_rn_parts in Hn. unfold recs in Hn. cbn in Hn. rewrite app_nil_r in Hn. destruct Hn as [Hn|[Hn|[[]|[]]]]; exact Hn. }
    assert (forall ob, In ob (x_objs x0) -> kind (o_name ob) = 0) as OBJS.
    { intros ob Hob. apply in_map_iff in Hob as (t & <- & Ht). apply TABS. rewrite CT, map_map. apply (in_map td_name), Ht. }
    assert (forall c n, In c (recs x0) -> In n (c_xw c) -> kind n = 1 /\ fst (fst n) <> dir) as XW.
    { intros c n [<-|[]] Hn. apply in_map_iff in Hn as (d & <- & Hd). split; [apply DOCS; right; exact Hd|apply NDIR, Hd]. }
    (* the new WAL id lies above the ids of all the WALs restored from *)
    assert (forall c, In c (recs x0) -> fst (fst (c_wal c)) = dir -> snd (c_wal c) < w_id (d_wal core)) as WID.
    { intros c [<-|[]] _. rewrite CW. pose proof (fold_max_bound (fun d => num_of (dc_wal d)) (d1 :: ds) d1 (or_introl eq_refl)) as H.
      unfold num_of at 1 in H. cbn [c_wal]. lia. }
    apply safe_db_after_rotations.
    refine {| sd_reach := fun n Hn => proj2 (TABS n (RN n Hn));
              sd_kt := fun n Hn => proj1 (TABS n (RN n Hn));
              sd_ko := OBJS;
              sd_ids := ltac:(repeat constructor; intros []);
              sd_wals := ltac:(unfold recs; cbn; rewrite app_nil_r; exact NDW);
              sd_kw := ltac:(intros c [<-|[]]; apply DOCS; left; reflexivity);
              sd_kx := XW;
              sd_walid := WID;
              sd_inflight := ltac:(intros id0 []);
              sd_docs := _ |}.
    intros dcs id0 d0 Gd Fd Hh ND0. eexists. split; [left; reflexivity|]. cbn [x0 x_dir] in Gd, Hh. destruct same.
    + (* into the directory of the first handle: its other handles are superseded *)
      unfold dir in *. rewrite GF1 in Gd. inversion Gd; subst dcs. destruct (N.eq_dec id0 id) as [->|NE].
      * rewrite FD1 in Fd. inversion Fd; subst d0. split; [apply (find_doc_in _ _ _ FD1)|]. split; [reflexivity|].
        cbn. intros n Hn. rewrite CT, map_map. cbn. rewrite map_app. apply in_or_app. left. exact Hn.
      * destruct ND0. apply in_or_app. right. apply in_map_iff. exists (id0, h1). split; [reflexivity|].
        apply filter_In. split; [exact Hh|]. cbn. rewrite N.eqb_refl. apply negb_true_iff, N.eqb_neq, NE.
    + pose proof (sf_hdirs S _ _ Hh). unfold dir in *. lia.
  - (* no live object writes there *) intros i y Hy Ly E. destruct same; [exact (SAME eq_refl i y Hy Ly E)|]. pose proof (sf_dirs S _ _ Hy Ly). unfold dir in *. lia.
  - (* the directory is below the next one *) destruct same; cbn [negb]; unfold dir; [apply (sf_hdirs S _ _ Hh1)|lia].
Qed.

Lemma safe_step_restoreM w nd id dirs same o nb : Safe w -> step_ok w (ORestoreM nd id dirs same o nb) -> Safe (step w (ORestoreM nd id dirs same o nb)).
Proof.
  intros S (ND & MON & SAME). apply safe_restoreM; auto. intros d1 ds LD. destruct (MON d1 ds LD) as (A & B & _). auto.
Qed.

Lemma restore_as_restoreM w nd id same o nb h :
  handle_dir w id = Some h -> step w (ORestore nd id same o nb) = step w (ORestoreM nd id [h] same o nb).
Proof.
  intro HD. cbn [step hd]. unfold open_from, open_fromM. rewrite HD. cbn [load_docs].
  rewrite (proj2 (existsb_exists _ _)) by (exists (id, h); split; [apply handle_dir_in, HD|cbn; rewrite !N.eqb_refl; reflexivity]). cbn [negb].
  destruct (fs_get (g_fs w) (h, 2, 0)) as [[| |docs]|]; try reflexivity. destruct (find_doc docs id) as [d|] eqn:FD; [|reflexivity].
  cbn [replay_docs]. destruct (fs_get (g_fs w) (dc_wal d)) as [[|content|]|]; try reflexivity.
  destruct (wal_read content (dc_after d)); try reflexivity.
  cbn [flat_map fold_right map]. rewrite !app_nil_r, N.max_0_r, (proj2 (find_doc_in _ _ _ FD)). reflexivity.
Qed.

Lemma safe_step_restore w nd id same o nb : Safe w -> step_ok w (ORestore nd id same o nb) -> Safe (step w (ORestore nd id same o nb)).
Proof.
  intros S [ND SAME]. destruct (handle_dir w id) as [h|] eqn:HD.
  - rewrite (restore_as_restoreM w nd id same o nb h HD). apply safe_restoreM; auto.
    + intros d1 ds LD. cbn [load_docs] in LD. destruct (negb _); [discriminate|]. destruct (fs_get (g_fs w) (h, 2, 0)) as [[| |docs]|]; try discriminate.
      destruct (find_doc docs id); inversion LD; subst. split; [constructor; [intros []|constructor]|intros d []].
    + intros E i x. exact (SAME E h i x eq_refl).
  - cbn [step]. unfold open_from. rewrite HD. apply safe_add_dead, S.
Qed.

Lemma safe_step_gc w : Safe w -> gc_ok w -> Safe (step w OGc).
Proof.
  intros S OK. cbn [step]. pose proof (gc_fold w (g_dbs w) (g_fs w) [] []) as E.
  destruct (fold_left (gc_db w) (g_dbs w) (g_fs w, [], [])) as [[f dbs] dels]. cbn [fst app] in E. inversion E; subst f dbs. clear E.
  assert (Safe (set_fs w (fold_left fs_del (flat_map (gc_names w) (g_dbs w)) (g_fs w)))) as S'.
  { apply safe_delete; [exact S|]. intros m Hm Nd. apply in_flat_map in Hm as (z & Hz & Hm).
    apply In_nth_error in Hz as [j Hj]. unfold gc_names in Hm.
    assert (x_state z <> Crashed /\ In m (C09_Gc.gc_one w z)) as [NC Hg] by (destruct (x_state z); [split; [discriminate|exact Hm]|destruct Hm|split; [discriminate|exact Hm]]).
    destruct (needed_cases w j m S Nd) as [P|(x & Hx & L & Own)]; [exact (OK j z m Hj NC Hg P)|].
    rewrite Hj in Hx. inversion Hx; subst x. pose proof (sf_db S j z Hj L) as SD.
    (* the collecting object is live: it deletes files of its own table objects that it cannot reach *)
    assert (kind m = 0) as K0.
    { unfold C09_Gc.gc_one in Hg. apply in_map_iff in Hg as (ob & <- & Hob). apply filter_In in Hob as [Hob _].
      apply filter_In in Hob. apply (sd_ko SD), Hob. }
    destruct Own as [R|[(c & Hc & _ & ->)|K2]]; [|rewrite (sd_kw SD c Hc) in K0; discriminate|congruence].
    apply (gc_spares_own_reachable w z m Hg). rewrite (reachable_live z L). exact R. }
  apply (safe_dbs _ (map gc_obj (g_dbs w)) S'). intros i x' Hx' L'. rewrite nth_error_map in Hx'.
  destruct (nth_error (g_dbs w) i) as [z|] eqn:Hz; [|discriminate]. inversion Hx'; subst x'. exists z.
  unfold gc_obj in *. destruct (x_state z) eqn:St; try (cbn in L'; congruence). split; [exact Hz|]. split; [reflexivity|]. split; [reflexivity|].
  apply (safe_db_bg _ _ _ z); [apply (sf_db S' i z Hz St)|reflexivity|apply N.le_refl|reflexivity|auto| |auto].
  intros o Ho. left. apply filter_In in Ho. apply Ho.
Qed.

Lemma safe_init mem wm : Safe (init_world mem wm).
Proof.
  apply (safe_step_open (mkWorld [] [] [] 0 mem wm []) 0).
  constructor; cbn; try (intros [|i]; discriminate); try contradiction. intros [[d k] n]; discriminate.
Qed.

Lemma safe_with_state w d s : Safe w -> s <> Live -> Safe (match get_db w d with Some x => set_db w d (with_state x s) | None => w end).
Proof.
  intros S NL. destruct (get_db w d) as [x|] eqn:G; [|exact S]. apply (safe_set_db w d x); [exact S|exact G|reflexivity|]. intro L. destruct (NL L).
Qed.

Theorem safe_step o : forall w, Safe w -> step_ok w o -> Safe (step w o).
Proof.
  induction o as [d k v rot|d k rot|d id|d|d r|d id|d ids|d ids f|d id f|d|nd id same ow nb|nd id dirs same ow nb|nd same|nd|d|d| |d|a IHa b IHb];
    intros w S OK.
  - (* OPut *) exact (safe_write w d k false v rot S).
  - (* ODel *) exact (safe_write w d k true [] rot S).
  - (* OCkpt *) exact (safe_step_ckpt_call w d id S OK).
  - (* OStepFlush *) exact (safe_step_flush w d S).
  - (* OStepCompact *) exact (safe_step_compact w d r S OK).
  - (* OStepCkpt *) apply (safe_step_ckpt w d id 0 S). intros x G. destruct (OK x G). auto.
  - (* ORetain *) apply (safe_step_retain w d ids 0 S). intros x G. destruct (OK x G). auto.
  - (* ORetainF *) exact (safe_step_retain w d ids f S OK).
  - (* OStepCkptF *) exact (safe_step_ckpt w d id f S OK).
  - (* OStepFlushF *) exact (safe_step_flush_fail w d S).
  - (* ORestore *) exact (safe_step_restore w nd id same ow nb S OK).
  - (* ORestoreM *) exact (safe_step_restoreM w nd id dirs same ow nb S OK).
  - (* ORestoreF *) exact (safe_add_dead w (negb same) S).
  - (* OOpen *) exact (safe_step_open w nd S).
  - (* OCrash *) apply (safe_with_state w d Crashed S). discriminate.
  - (* ODrop *) apply (safe_with_state w d Dropped S). discriminate.
  - (* OGc *) exact (safe_step_gc w S OK).
  - (* ORead *) exact S.
  - (* OSeq *) destruct OK as [Oa Ob]. exact (IHb (step w a) (IHa w S Oa) Ob).
Qed.

Theorem safe_run ops : forall w, Safe w -> run_ok w ops -> Safe (run w ops).
Proof. induction ops as [|o ops IH]; intros w S OK; [exact S|]. destruct OK as [O1 O2]. apply IH; [apply safe_step; assumption|exact O2]. Qed.

(* retained_files_exist in every world that satisfies the invariant *)
Theorem safe_files_exist w : Safe w ->
  (forall id D, In (id, D) (g_handles w) -> ~ In id (g_dropped w) ->
     exists docs d, fs_get (g_fs w) (D, 2, 0) = Some (FCk docs) /\ find_doc docs id = Some d /\
                    fs_has (g_fs w) (dc_wal d) = true /\ forall t, In t (dc_tables d) -> fs_has (g_fs w) (td_name t) = true) /\
  (forall i x t, nth_error (g_dbs w) i = Some x -> x_state x = Live -> In t (d_tables (x_core x)) -> fs_has (g_fs w) (t_name t) = true).
Proof.
  intro S. split.
  - intros id D Hh ND. destruct (sf_handles S id D Hh ND) as (docs & d & G1 & G2 & G3). exists docs, d.
    split; [exact G1|]. split; [exact G2|]. split; [apply G3; left; reflexivity|]. intros t Ht. apply G3. right. apply in_map, Ht.
  - intros i x t Hx L Ht. apply (sd_reach (sf_db S i x Hx L)), in_rn_parts. left. apply in_map, Ht.
Qed.
