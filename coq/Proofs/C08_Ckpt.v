(* C08, database level: the representation invariant of Model/Ckpt.v, its preservation by every action of a database
   object, the characterisation of reads from it, and checkpoint -> restore exactness. *)
From Coq Require Import List NArith Bool Lia.
From Coq Require Import ZifyN ZifyNat ZifyBool.
Import ListNotations.
From RV Require Import Base.Lists Base.KeySorted Model.Ckpt.
Open Scope N_scope.

Lemma concat_snoc {A} (l : list (list A)) c : concat (l ++ [c]) = concat l ++ c.
Proof. rewrite concat_app. cbn. rewrite app_nil_r. reflexivity. Qed.

Lemma concat_split {A} n (l : list (list A)) r : concat l ++ r = concat (firstn n l) ++ concat (skipn n l) ++ r.
Proof. rewrite app_assoc, <- concat_app, firstn_skipn. reflexivity. Qed.

Lemma beqb_sym k x : beqb k x = beqb x k.
Proof. apply Bytes.beqb_sym. Qed.

(* Model.Ckpt's memtable functions are [kput] and [kget] of Base/KeySorted.v with the arguments the other way round *)
Lemma mt_put_kput m e : mt_put m e = kput e_key e m.
Proof. induction m as [|y m IH]; cbn; [|rewrite IH]; reflexivity. Qed.

Lemma mt_find_kget m k : mt_find m k = kget e_key k m.
Proof. induction m as [|y m IH]; [reflexivity|]. cbn [mt_find]. now rewrite kget_cons, beqb_sym, IH. Qed.

Lemma mt_put_in m e x : In x (mt_put m e) -> x = e \/ In x m.
Proof. rewrite mt_put_kput. apply kput_in. Qed.

Lemma mt_put_sorted m e : asc e_key m -> asc e_key (mt_put m e).
Proof. rewrite mt_put_kput. apply kput_asc. Qed.

Lemma mt_find_put m e k : mt_find (mt_put m e) k = if beqb k (e_key e) then Some e else mt_find m k.
Proof. now rewrite mt_put_kput, !mt_find_kget, kget_kput, beqb_sym. Qed.

Lemma newest_sorted m k : asc e_key m -> newest m k = mt_find m k.
Proof.
  induction m as [|y m IH]; intro S; [reflexivity|]. destruct S as [F S']. cbn [newest mt_find].
  rewrite (IH S'). destruct (beqb k (e_key y)) eqn:B; [|reflexivity].
  apply beqb_eq in B. subst k. now rewrite mt_find_kget, (kget_above e_key _ _ F).
Qed.

(* the memtable that the writes [ws], oldest first, leave behind *)
Definition build (ws : list entry) : list entry := fold_left mt_put ws [].
(* the last write of key [k] in [ws] *)
Fixpoint lastw (ws : list entry) (k : bytes) : option entry :=
  match ws with
  | [] => None
  | e :: ws' => match lastw ws' k with Some x => Some x | None => if beqb k (e_key e) then Some e else None end
  end.

Lemma lastw_app a b k : lastw (a ++ b) k = match lastw b k with Some x => Some x | None => lastw a k end.
Proof. induction a as [|e a IH]; cbn [app lastw]; [destruct (lastw b k); reflexivity|]. rewrite IH. destruct (lastw b k); reflexivity. Qed.

Lemma build_snoc ws e : build (ws ++ [e]) = mt_put (build ws) e.
Proof. unfold build. rewrite fold_left_app. reflexivity. Qed.

Lemma build_sorted ws : asc e_key (build ws).
Proof. induction ws as [|e ws IH] using rev_ind; [exact I|]. rewrite build_snoc. apply mt_put_sorted. exact IH. Qed.

Lemma build_in ws x : In x (build ws) -> In x ws.
Proof.
  induction ws as [|e ws IH] using rev_ind; [intros []|]. rewrite build_snoc, in_app_iff. intro H.
  destruct (mt_put_in _ _ _ H) as [->|H']; [right; left; reflexivity|left; apply IH; exact H'].
Qed.

Lemma build_last c x : In x c -> (forall y, In y c -> e_seq y <= e_seq x) -> True.
Proof. trivial. Qed.

Lemma builds_in cs e : In e (concat (map build cs)) -> In e (concat cs).
Proof.
  rewrite !in_concat. intros [m [Hm He]]. apply in_map_iff in Hm. destruct Hm as [c [<- Hc]].
  exists c. split; [exact Hc|apply build_in; exact He].
Qed.

Lemma newest_build ws k : newest (build ws) k = lastw ws k.
Proof.
  rewrite newest_sorted by apply build_sorted.
  induction ws as [|e ws IH] using rev_ind; [reflexivity|].
  rewrite build_snoc, mt_find_put, lastw_app, IH. cbn [lastw].
  destruct (beqb k (e_key e)); reflexivity.
Qed.

Lemma newest_in es k e : newest es k = Some e -> In e es /\ e_key e = k.
Proof.
  revert e. induction es as [|x es IH]; intro e; cbn [newest]; [discriminate|].
  destruct (beqb k (e_key x)) eqn:B; [|intro H; split; [right|]; apply (IH _ H)].
  apply beqb_eq in B. destruct (newest es k) as [z|]; [destruct (e_seq x <? e_seq z)|]; intros [= <-].
  - split; [right|]; apply (IH _ eq_refl).
  - split; [left; reflexivity|auto].
  - split; [left; reflexivity|auto].
Qed.

Lemma newest_ge es k y : In y es -> e_key y = k -> exists e, newest es k = Some e /\ e_seq y <= e_seq e.
Proof.
  induction es as [|x es IH]; [intros []|]. cbn [newest]. intros [->|Hy] Ky.
  - rewrite <- Ky, beqb_refl.
    destruct (newest es (e_key y)) as [z|]; [destruct (e_seq y <? e_seq z) eqn:C|]; eexists; split; try reflexivity; lia.
  - destruct (IH Hy Ky) as [e [-> L]].
    destruct (beqb k (e_key x)); [destruct (e_seq x <? e_seq e) eqn:C|]; eexists; split; try reflexivity; lia.
Qed.

Lemma newest_app_left a b k :
  (forall x y, In x a -> In y b -> e_seq y <= e_seq x) ->
  newest (a ++ b) k = match newest a k with Some x => Some x | None => newest b k end.
Proof.
  intro H. induction a as [|x a IH]; [reflexivity|]. cbn [app newest].
  rewrite IH by (intros; apply H; [right|]; assumption).
  destruct (beqb k (e_key x)); [|reflexivity].
  destruct (newest a k) as [z|]; [destruct (e_seq x <? e_seq z); reflexivity|].
  destruct (newest b k) as [y|] eqn:B; [|reflexivity]. apply newest_in in B.
  specialize (H x y (or_introl eq_refl) (proj1 B)). destruct (e_seq x <? e_seq y) eqn:C; [lia|reflexivity].
Qed.

Lemma newest_app_right a b k :
  (forall x y, In x a -> In y b -> e_seq x < e_seq y) ->
  newest (a ++ b) k = match newest b k with Some y => Some y | None => newest a k end.
Proof.
  intro H. induction a as [|x a IH]; cbn [app newest]; [destruct (newest b k); reflexivity|].
  rewrite IH by (intros; apply H; [right|]; assumption).
  destruct (beqb k (e_key x)); [|reflexivity].
  destruct (newest b k) as [y|] eqn:B; [|reflexivity]. apply newest_in in B.
  specialize (H x y (or_introl eq_refl) (proj1 B)). destruct (e_seq x <? e_seq y) eqn:C; [reflexivity|lia].
Qed.

(* [ws] is numbered a+1, a+2, ... without a gap *)
Definition contig (ws : list entry) (a : N) : Prop :=
  forall i e, nth_error ws i = Some e -> e_seq e = a + 1 + N.of_nat i.

Lemma contig_app u v a : contig (u ++ v) a <-> contig u a /\ contig v (a + N.of_nat (length u)).
Proof.
  split.
  - intro C. split; intros i e H.
    + apply C. rewrite nth_error_app1; [exact H|]. apply nth_error_Some. congruence.
    + rewrite (C (i + length u)%nat e); [lia|]. rewrite nth_error_app2, Nat.add_sub by lia. exact H.
  - intros [Cu Cv] i e H. destruct (Nat.lt_ge_cases i (length u)) as [L|L].
    + rewrite nth_error_app1 in H by exact L. apply Cu. exact H.
    + rewrite nth_error_app2 in H by exact L. rewrite (Cv _ _ H). lia.
Qed.

Lemma contig_in ws a e : contig ws a -> In e ws -> a < e_seq e /\ e_seq e <= a + N.of_nat (length ws).
Proof.
  intros C H. apply In_nth_error in H. destruct H as [i H]. rewrite (C _ _ H).
  assert (i < length ws)%nat by (apply nth_error_Some; congruence). lia.
Qed.

(* a delete is logged without a value, as [db_write] logs it *)
Definition normal (e : entry) : Prop := e_del e = true -> e_val e = [].

(* the bookkeeping [wal_truncate] relies on: a sealed segment's latestSeqNum bounds its entries, and while the buffer holds
   something the writer's latestSeqNum is the database's sequence number [seq] *)
Definition segs_ok (w : walw) (seq : N) : Prop :=
  Forall (fun g => Forall (fun e => e_seq e <= sg_latest g) (sg_es g)) (w_sealed w) /\
  (w_active w <> [] -> w_latest w = seq).

(* a table's end sequence number bounds its entries (endSeqNum = maximum, repair D6) *)
Definition ends_ok (ts : list table) : Prop := Forall (fun t => forall e, In e (t_es t) -> e_seq e <= t_end t) ts.

(* witnesses: [a] = sequence number before the first WAL entry; [pre] = WAL entries already covered by tables;
   [cs] = the writes of each sealed memtable, oldest first; [ca] = the writes of the active memtable.
   The log: [rp_wal] the WAL holds the three parts in this order, [rp_contig] numbered without a gap, [rp_normal], [rp_segs].
   The two boundaries: [rp_pre] LatestSeqNum is the number of the last covered entry, [rp_seq] seqNum that of the last entry.
   The memtables: [rp_sealed], [rp_active] each is [build] of its writes, [rp_nonempty] no sealed one is empty.
   The tables: [rp_tables] no entry above LatestSeqNum, [rp_ends]. *)
Record Rep (d : dbc) (a : N) (pre : list entry) (cs : list (list entry)) (ca : list entry) : Prop := mkRep {
  rp_wal : wal_content (d_wal d) = pre ++ concat cs ++ ca;
  rp_contig : contig (pre ++ concat cs ++ ca) a;
  rp_pre : a + N.of_nat (length pre) = d_latest d;
  rp_seq : d_latest d + N.of_nat (length (concat cs ++ ca)) = d_seq d;
  rp_sealed : d_sealed d = map build cs;
  rp_active : d_active d = build ca;
  rp_nonempty : Forall (fun c => c <> []) cs;
  rp_tables : Forall (fun e => e_seq e <= d_latest d) (tables_entries (d_tables d));
  rp_ends : ends_ok (d_tables d);
  rp_normal : Forall normal (pre ++ concat cs ++ ca);
  rp_segs : segs_ok (d_wal d) (d_seq d)
}.
Arguments rp_wal {d a pre cs ca} _.
Arguments rp_contig {d a pre cs ca} _.
Arguments rp_pre {d a pre cs ca} _.
Arguments rp_seq {d a pre cs ca} _.
Arguments rp_sealed {d a pre cs ca} _.
Arguments rp_active {d a pre cs ca} _.
Arguments rp_nonempty {d a pre cs ca} _.
Arguments rp_tables {d a pre cs ca} _.
Arguments rp_ends {d a pre cs ca} _.
Arguments rp_normal {d a pre cs ca} _.
Arguments rp_segs {d a pre cs ca} _.
Definition Inv (d : dbc) : Prop := exists a pre cs ca, Rep d a pre cs ca.

Lemma rep_inv {d a pre cs ca} : Rep d a pre cs ca -> Inv d.
Proof. intro R. exists a, pre, cs, ca. exact R. Qed.

Lemma tables_entries_app ts ts' : tables_entries (ts ++ ts') = tables_entries ts ++ tables_entries ts'.
Proof. apply flat_map_app. Qed.

Lemma tables_entries_filter f ts e : In e (tables_entries (filter f ts)) -> In e (tables_entries ts).
Proof. unfold tables_entries. rewrite !in_flat_map. intros [t [Ht He]]. apply filter_In in Ht. exists t. tauto. Qed.

Lemma tables_latest_bound ts t : In t ts -> t_end t <= tables_latest ts.
Proof. apply (fold_max_bound t_end). Qed.

Lemma ends_ok_latest ts : ends_ok ts -> Forall (fun e => e_seq e <= tables_latest ts) (tables_entries ts).
Proof.
  intro EO. apply Forall_forall. intros e He. apply in_flat_map in He. destruct He as [t [Ht He]].
  unfold ends_ok in EO. rewrite Forall_forall in EO. specialize (EO t Ht e He). pose proof (tables_latest_bound _ _ Ht). lia.
Qed.

(* a database without memtables over a level set: a new one, or the one a restore starts its replay from *)
Lemma rep_fresh mem wm ts walid :
  ends_ok ts -> Rep (mkDb (tables_latest ts) [] [] ts (tables_latest ts) (wal_new walid) mem wm) (tables_latest ts) [] [] [].
Proof.
  intro EO. constructor; cbn [d_wal d_latest d_seq d_sealed d_active d_tables]; try solve [reflexivity | constructor | cbn; lia].
  - (* rp_contig *) intros [|i] e H; discriminate.
  - (* rp_tables *) apply ends_ok_latest. exact EO.
  - (* rp_ends *) exact EO.
  - (* rp_segs *) split; [constructor|]. intro H. destruct H. reflexivity.
Qed.

Lemma inv_new mem wm : Inv (db_new mem wm).
Proof. apply (rep_inv (rep_fresh mem wm [] 0 (Forall_nil _))). Qed.

Lemma rep_suffix {d a pre cs ca} : Rep d a pre cs ca -> contig (concat cs ++ ca) (d_latest d).
Proof. intro R. rewrite <- (rp_pre R). apply (contig_app pre), (rp_contig R). Qed.

(* memtables are read newest first, then [T], which holds nothing newer than [b]: induction from the oldest chunk, which
   joins [T] *)
Lemma newest_mems (cs : list (list entry)) T b k :
  contig (concat cs) b -> (forall y, In y T -> e_seq y <= b) ->
  newest (concat (rev (map build cs)) ++ T) k = match lastw (concat cs) k with Some x => Some x | None => newest T k end.
Proof.
  revert T b. induction cs as [|c cs IH]; intros T b C HT; [reflexivity|]. cbn [map rev concat] in *.
  apply contig_app in C. destruct C as [Cc Cs].
  rewrite concat_snoc, <- app_assoc, (IH _ _ Cs), lastw_app, newest_app_left, newest_build; [destruct (lastw (concat cs) k); reflexivity| |].
  - intros x y Hx Hy. apply build_in in Hx. apply (contig_in _ _ _ Cc) in Hx. specialize (HT y Hy). lia.
  - intros y Hy. apply in_app_or in Hy. destruct Hy as [Hy|Hy]; [|specialize (HT y Hy); lia].
    apply build_in in Hy. apply (contig_in _ _ _ Cc Hy).
Qed.

(* what a key reads: its last write in the log above LatestSeqNum, else its newest table entry *)
Definition view (suffix : list entry) (ts : list table) (k : bytes) : option bytes :=
  value_of (match lastw suffix k with Some x => Some x | None => newest (tables_entries ts) k end).

Theorem db_get_char d a pre cs ca k : Rep d a pre cs ca -> db_get d k = view (concat cs ++ ca) (d_tables d) k.
Proof.
  intro R. pose proof (rep_suffix R) as C.
  unfold db_get, view, db_entries. rewrite (rp_sealed R), (rp_active R), flat_map_concat_map, map_id, app_assoc.
  (* the active memtable is the newest chunk *)
  rewrite <- concat_snoc in C |- *.
  change (build ca ++ concat (rev (map build cs))) with (concat (build ca :: rev (map build cs))).
  rewrite <- rev_unit, <- map_last, (newest_mems _ _ _ k C); [reflexivity|]. apply Forall_forall, (rp_tables R).
Qed.

(* [wal_rotate] differs from [wal_cut] in the writer's id only, which neither [wal_content] nor [segs_ok] looks at: the
   Checkpoint case uses this by conversion *)
Lemma rep_cut {d a pre cs ca} : Rep d a pre cs ca ->
  wal_content (wal_cut (d_wal d)) = pre ++ concat cs ++ ca /\ segs_ok (wal_cut (d_wal d)) (d_seq d).
Proof.
  intros [Hwal Hcontig Hpre Hseq Hsealed Hactive Hnonempty Htables Hends Hnormal Hsegs]. unfold wal_content, segs_ok in *. cbn. split; [rewrite flat_map_app; cbn; rewrite !app_nil_r; exact Hwal|].
  destruct Hsegs as [S L]. split; [|congruence]. apply Forall_app. split; [exact S|]. constructor; [|constructor]. cbn.
  destruct (w_active (d_wal d)) as [|x act] eqn:A; [constructor|]. rewrite L by congruence.
  (* every entry of the log is at most the current sequence number *)
  apply Forall_forall. intros e He.
  assert (In e (pre ++ concat cs ++ ca)) as H by (rewrite <- Hwal; apply in_or_app; right; exact He).
  apply (contig_in _ _ _ Hcontig) in H. rewrite app_length in H. lia.
Qed.

Lemma rep_rotate {d a pre cs ca} : Rep d a pre cs ca -> ca <> [] -> Rep (db_rotate d) a pre (cs ++ [ca]) [].
Proof.
  intros R NE. destruct (rep_cut R) as [W S]. destruct R as [Hwal Hcontig Hpre Hseq Hsealed Hactive Hnonempty Htables Hends Hnormal Hsegs].
  constructor; cbn [db_rotate d_wal d_latest d_seq d_sealed d_active d_tables]; rewrite ?concat_snoc, ?app_nil_r; try assumption.
  - (* rp_sealed *) rewrite Hsealed, map_app, Hactive. reflexivity.
  - (* rp_active *) reflexivity.
  - (* rp_nonempty *) apply Forall_app. split; [assumption|constructor; [exact NE|constructor]].
Qed.

Lemma rep_checkpoint {d a pre cs ca} : Rep d a pre cs ca -> Rep (fst (db_checkpoint d)) a pre cs ca.
Proof.
  intro R. destruct (rep_cut R) as [W S]. destruct R as [Hwal Hcontig Hpre Hseq Hsealed Hactive Hnonempty Htables Hends Hnormal Hsegs].
  constructor; cbn [db_checkpoint fst d_wal d_latest d_seq d_sealed d_active d_tables]; assumption.
Qed.

Lemma rep_put {d a pre cs ca} k del v :
  Rep d a pre cs ca -> Rep (db_put d k del v) a pre cs (ca ++ [mkE k (d_seq d + 1) del (if del then [] else v)]).
Proof.
  intros [Hwal Hcontig Hpre Hseq Hsealed Hactive Hnonempty Htables Hends Hnormal Hsegs]. set (e := mkE _ _ _ _).
  assert (pre ++ concat cs ++ ca ++ [e] = (pre ++ concat cs ++ ca) ++ [e]) as A by (rewrite <- !app_assoc; reflexivity).
  constructor; cbn [db_put d_wal d_latest d_seq d_sealed d_active d_tables]; fold e; rewrite ?A; try assumption.
  - (* rp_wal *) unfold wal_content, wal_put in *. cbn. rewrite app_assoc, Hwal. reflexivity.
  - (* rp_contig *) apply contig_app. split; [assumption|]. intros [|[|i]] x H; inversion H. rewrite app_length. cbn. lia.
  - (* rp_seq *) rewrite <- Hseq, app_assoc, !app_length. cbn. lia.
  - (* rp_active *) rewrite Hactive. symmetry. apply build_snoc.
  - (* rp_normal *) apply Forall_app. split; [assumption|]. constructor; [|constructor]. unfold normal. cbn. intros ->. reflexivity.
  - (* rp_segs *) destruct Hsegs as [S L]. split; [exact S|reflexivity].
Qed.

Lemma rep_write_at {d a pre cs ca} k del v rot :
  Rep d a pre cs ca ->
  exists cs' ca', Rep (db_write_at d k del v rot) a pre cs' ca' /\
                  concat cs' ++ ca' = concat cs ++ ca ++ [mkE k (d_seq d + 1) del (if del then [] else v)].
Proof.
  intro R. apply (rep_put k del v) in R. unfold db_write_at. destruct rot.
  - eexists _, []. split; [apply (rep_rotate R); destruct ca; discriminate|].
    rewrite concat_snoc, app_nil_r. reflexivity.
  - eexists _, _. split; [exact R|reflexivity].
Qed.

Lemma db_write_at_eq d k del v : fst (db_write d k del v) = db_write_at d k del v (snd (db_write d k del v)).
Proof. unfold db_write, db_write_at, db_put. destruct (_ || _); reflexivity. Qed.

Lemma db_write_at_tables d k del v rot : d_tables (db_write_at d k del v rot) = d_tables d.
Proof. destruct rot; reflexivity. Qed.
Lemma db_write_at_walid d k del v rot : w_id (d_wal (db_write_at d k del v rot)) = w_id (d_wal d).
Proof. destruct rot; reflexivity. Qed.
Lemma db_write_tables d k del v : d_tables (fst (db_write d k del v)) = d_tables d.
Proof. rewrite db_write_at_eq. apply db_write_at_tables. Qed.
Lemma db_write_walid d k del v : w_id (d_wal (fst (db_write d k del v))) = w_id (d_wal d).
Proof. rewrite db_write_at_eq. apply db_write_at_walid. Qed.

Lemma rep_compact d a pre cs ca removed added :
  Rep d a pre cs ca -> ends_ok added -> tables_latest added <= d_latest d ->
  Rep (db_compact_apply d removed added) a pre cs ca.
Proof.
  intros [Hwal Hcontig Hpre Hseq Hsealed Hactive Hnonempty Htables Hends Hnormal Hsegs] EO LE.
  assert (N.max (d_latest d) (tables_latest added) = d_latest d) as M by lia.
  constructor; cbn [db_compact_apply d_wal d_latest d_seq d_sealed d_active d_tables]; rewrite ?M; try assumption.
  - (* rp_tables *) rewrite tables_entries_app. apply Forall_app. split.
    + rewrite Forall_forall in *. intros e He. apply Htables. eapply tables_entries_filter. exact He.
    + eapply Forall_impl; [|exact (ends_ok_latest _ EO)]. cbn. intros e He. lia.
  - (* rp_ends *) apply Forall_app. split; [|exact EO]. unfold ends_ok in Hends. rewrite Forall_forall in *.
    intros t Ht. apply filter_In in Ht. apply Hends. apply Ht.
Qed.

Lemma wal_truncate_spec w seq s : segs_ok w seq ->
  exists dropped, wal_content w = dropped ++ wal_content (wal_truncate w s) /\
                  Forall (fun e => e_seq e <= s) dropped /\ segs_ok (wal_truncate w s) seq.
Proof.
  destruct w as [id segs act latest]. unfold segs_ok, wal_content. cbn. intros [SO LA].
  induction SO as [|g segs Fg F IH]; [exists []; repeat constructor; exact LA|]. cbn [drop_covered]. destruct (s <? sg_latest g) eqn:C.
  - exists []. repeat constructor; assumption.
  - destruct IH as [dropped [E [B F']]]. exists (sg_es g ++ dropped). cbn [flat_map]. rewrite <- !app_assoc, E.
    split; [reflexivity|]. split; [|exact F']. apply Forall_app. split; [|exact B].
    eapply Forall_impl; [|exact Fg]. cbn. intros e He. lia.
Qed.

Lemma max_seq_bound es e : In e es -> e_seq e <= max_seq es.
Proof. apply (fold_max_bound e_seq). Qed.

Lemma max_seq_le es b : (forall e, In e es -> e_seq e <= b) -> max_seq es <= b.
Proof. apply (fold_max_le e_seq). Qed.

Lemma max_seq_app a b : max_seq (a ++ b) = N.max (max_seq a) (max_seq b).
Proof. induction a as [|x a IH]; unfold max_seq in *; cbn [app fold_right]; [lia|]. rewrite IH. lia. Qed.

Lemma mk_tables_entries dir next ms : tables_entries (mk_tables dir next ms) = concat ms.
Proof.
  revert next. induction ms as [|m ms IH]; intro next; [reflexivity|].
  unfold tables_entries in *. cbn [mk_tables flat_map t_es concat]. rewrite IH. reflexivity.
Qed.
Lemma mk_tables_latest dir next ms : tables_latest (mk_tables dir next ms) = max_seq (concat ms).
Proof.
  revert next. induction ms as [|m ms IH]; intro next; [reflexivity|].
  cbn [concat]. rewrite max_seq_app, <- (IH (next + 1)). reflexivity.
Qed.
Lemma mk_tables_ends dir next ms : ends_ok (mk_tables dir next ms).
Proof.
  revert next. induction ms as [|m ms IH]; intro next; [constructor|]. cbn [mk_tables]. constructor; [|apply IH].
  cbn [t_es t_end]. intros e He. apply max_seq_bound. exact He.
Qed.

(* a memtable keeps the last write of its chunk, so the newest sequence number in it is the chunk's last *)
Lemma max_seq_build c b : contig c b -> c <> [] -> max_seq (build c) = b + N.of_nat (length c).
Proof.
  intros C NE. destruct (exists_last NE) as [c' [e ->]]. apply N.le_antisymm.
  - apply max_seq_le. intros x Hx. apply build_in in Hx. apply (contig_in _ _ _ C Hx).
  - assert (newest (build (c' ++ [e])) (e_key e) = Some e) as H
      by (rewrite newest_build, lastw_app; cbn [lastw]; rewrite beqb_refl; reflexivity).
    apply newest_in, proj1, max_seq_bound in H.
    rewrite (C (length c') e) in H by (rewrite nth_error_app2, Nat.sub_diag by lia; reflexivity).
    rewrite app_length. cbn. lia.
Qed.

(* the LatestSeqNum a flush of consecutive chunks above [b] reaches is exactly the boundary after them *)
Lemma max_seq_builds cs b : contig (concat cs) b -> Forall (fun c => c <> []) cs ->
  N.max b (max_seq (concat (map build cs))) = b + N.of_nat (length (concat cs)).
Proof.
  revert b. induction cs as [|c cs IH]; intros b C NE; cbn [map concat] in *; [cbn; lia|].
  inversion NE; subst. apply contig_app in C. destruct C as [Cc Cs].
  rewrite max_seq_app, app_length, (max_seq_build c b) by assumption. specialize (IH _ Cs). lia.
Qed.

(* whatever prefix of the sealed memtables the task had snapshotted ([n] may even exceed their number: then all are flushed) *)
Theorem rep_flush_swap d a pre cs ca n dir next :
  Rep d a pre cs ca ->
  exists a' pre', Rep (db_flush_swap d n (mk_tables dir next (firstn n (d_sealed d)))) a' pre' (skipn n cs) ca.
Proof.
  intro R. pose proof (rep_suffix R) as CS. destruct R as [Hwal Hcontig Hpre Hseq Hsealed Hactive Hnonempty Htables Hends Hnormal Hsegs]. rewrite Hsealed, firstn_map.
  set (fl := concat (firstn n cs)). set (rest := concat (skipn n cs) ++ ca).
  assert (concat cs ++ ca = fl ++ rest) as Ecs by apply concat_split.
  rewrite <- (firstn_skipn n cs) in Hnonempty. apply Forall_app in Hnonempty. destruct Hnonempty as [NEf NEr].
  rewrite Ecs in *. apply contig_app in CS. destruct CS as [Cf Cr].
  (* the new LatestSeqNum is the boundary after the flushed chunks *)
  set (ts := mk_tables dir next (map build (firstn n cs))).
  assert (N.max (d_latest d) (tables_latest ts) = d_latest d + N.of_nat (length fl)) as EL
    by (unfold ts; rewrite mk_tables_latest; apply max_seq_builds; assumption).
  (* truncation drops a prefix of the log; it ends at or before that boundary, since an entry dropped beyond it would be
     both at most the boundary and one of [rest] *)
  destruct (wal_truncate_spec _ _ (d_latest d + N.of_nat (length fl)) Hsegs) as [dropped [ED [BD SO]]].
  rewrite <- Hwal, ED in Hcontig, Hnormal. rewrite ED, (app_assoc pre) in Hwal.
  apply contig_app in Hcontig. destruct Hcontig as [_ Ck]. apply Forall_app in Hnormal.
  assert (exists pre', pre ++ fl = dropped ++ pre' /\ wal_content (wal_truncate (d_wal d) (d_latest d + N.of_nat (length fl))) = pre' ++ rest)
    as [pre' [EP EK]].
  { destruct (app_eq_app _ _ _ _ Hwal) as [l [[E1 E2]|H]]; [|exists l; exact H].
    destruct l as [|x l]; [exists []; rewrite app_nil_r in *; auto|exfalso].
    rewrite E1 in BD. apply Forall_app in BD. destruct BD as [_ BD]. inversion BD; subst.
    destruct (contig_in _ _ x Cr); [rewrite E2; left; reflexivity|lia]. }
  apply (f_equal (@length _)) in EP. rewrite !app_length in *.
  exists (a + N.of_nat (length dropped)), pre'.
  constructor; cbn [db_flush_swap d_wal d_latest d_seq d_sealed d_active d_tables]; fold ts rest; rewrite ?EL.
  - (* rp_wal *) exact EK.
  - (* rp_contig *) rewrite <- EK. exact Ck.
  - (* rp_pre *) lia.
  - (* rp_seq *) lia.
  - (* rp_sealed *) rewrite Hsealed, skipn_map. reflexivity.
  - (* rp_active *) exact Hactive.
  - (* rp_nonempty *) exact NEr.
  - (* rp_tables *) rewrite tables_entries_app. apply Forall_app. split.
    + eapply Forall_impl; [|exact Htables]. cbn. intros e He. lia.
    + unfold ts. rewrite mk_tables_entries. apply Forall_forall. intros e He.
      apply builds_in in He. apply (contig_in _ _ _ Cf He).
  - (* rp_ends *) apply Forall_app. split; [exact Hends|apply mk_tables_ends].
  - (* rp_normal *) rewrite <- EK. exact (proj2 Hnormal).
  - (* rp_segs *) exact SO.
Qed.

Theorem db_write_at_get d k del v rot k' :
  Inv d ->
  db_get (db_write_at d k del v rot) k' = if beqb k' k then (if del then None else Some v) else db_get d k'.
Proof.
  intros [a [pre [cs [ca R]]]].
  destruct (rep_write_at k del v rot R) as [cs1 [ca1 [R1 E1]]].
  rewrite (db_get_char _ _ _ _ _ k' R1), (db_get_char _ _ _ _ _ k' R). unfold view.
  rewrite db_write_at_tables, E1, app_assoc, lastw_app. cbn [lastw e_key].
  destruct (beqb k' k); [|reflexivity]. cbn [value_of e_del e_val]. destruct del; reflexivity.
Qed.

Theorem db_write_get d k del v k' :
  Inv d ->
  db_get (fst (db_write d k del v)) k' = if beqb k' k then (if del then None else Some v) else db_get d k'.
Proof. rewrite db_write_at_eq. apply db_write_at_get. Qed.

Theorem rotation_point_irrelevant d k del v rot rot' k' :
  Inv d -> db_get (db_write_at d k del v rot) k' = db_get (db_write_at d k del v rot') k'.
Proof. intro I. rewrite !db_write_at_get by exact I. reflexivity. Qed.

Inductive action :=
| AWrite (k : bytes) (del : bool) (v : bytes)      (* Put / Delete, including the rotation it may trigger *)
| ACheckpoint                                       (* locked part of Checkpoint: WAL rotation *)
| AFlush (n : nat) (dir next : N)                   (* swap of a flush task that had snapshotted the first n sealed memtables *)
| ACompact (removed : list fname) (added : list table)   (* apply of a compaction change set *)
| AWriteAt (k : bytes) (del : bool) (v : bytes) (rot : bool).   (* Put / Delete with ANY rotation decision (whatever policy decides when a buffer is full) *)

(* the side condition under which an action keeps [Inv], and what the action does to the database *)
Definition act_ok (d : dbc) (a : action) : Prop :=
  match a with
  | AFlush n _ _ => (n <= length (d_sealed d))%nat
  | ACompact _ added => ends_ok added /\ tables_latest added <= d_latest d
  | _ => True
  end.
Definition do_action (d : dbc) (a : action) : dbc :=
  match a with
  | AWrite k del v => fst (db_write d k del v)
  | ACheckpoint => fst (db_checkpoint d)
  | AFlush n dir next => db_flush_swap d n (mk_tables dir next (firstn n (d_sealed d)))
  | ACompact removed added => db_compact_apply d removed added
  | AWriteAt k del v rot => db_write_at d k del v rot
  end.

Lemma inv_write_at {d a pre cs ca} k del v rot : Rep d a pre cs ca -> Inv (db_write_at d k del v rot).
Proof. intro R. destruct (rep_write_at k del v rot R) as [cs1 [ca1 [R1 _]]]. exact (rep_inv R1). Qed.

Theorem inv_step d a : Inv d -> act_ok d a -> Inv (do_action d a).
Proof.
  intros [a0 [pre [cs [ca R]]]] OK. destruct a as [k del v| |n dir next|removed added|k del v rot]; cbn [do_action act_ok] in *.
  - (* AWrite *) rewrite db_write_at_eq. exact (inv_write_at _ _ _ _ R).
  - (* ACheckpoint *) exact (rep_inv (rep_checkpoint R)).
  - (* AFlush *) destruct (rep_flush_swap d a0 pre cs ca n dir next R) as [a' [pre' R']]. exact (rep_inv R').
  - (* ACompact *) apply (rep_inv (rep_compact _ _ _ _ _ _ _ R (proj1 OK) (proj2 OK))).
  - (* AWriteAt *) exact (inv_write_at _ _ _ _ R).
Qed.

(* [es] as [db_put] would log them one after the other from sequence number [s]: numbered s+1, s+2, ..., a delete without its value *)
Fixpoint restamp (s : N) (es : list entry) : list entry :=
  match es with [] => [] | e :: es' => mkE (e_key e) (s + 1) (e_del e) (if e_del e then [] else e_val e) :: restamp (s + 1) es' end.

Lemma restamp_length s es : length (restamp s es) = length es.
Proof. revert s. induction es; intro s; cbn; [reflexivity|]. rewrite IHes. reflexivity. Qed.

Lemma lastw_filter o es k : owns o k = true -> lastw (filter (fun e => owns o (e_key e)) es) k = lastw es k.
Proof.
  intro O. induction es as [|e es IH]; [reflexivity|]. cbn [filter lastw].
  destruct (owns o (e_key e)) eqn:OE; cbn [lastw]; rewrite IH; [reflexivity|].
  destruct (lastw es k); [reflexivity|].
  destruct (beqb k (e_key e)) eqn:B; [|reflexivity]. apply beqb_eq in B. subst. congruence.
Qed.

Fixpoint replay_core (o : own) (d : dbc) (es : list entry) : dbc :=
  match es with
  | [] => d
  | e :: es' => if owns o (e_key e) then replay_core o (fst (db_write d (e_key e) (e_del e) (e_val e))) es'
                else replay_core o d es'
  end.

Lemma db_replay_core o es d : fst (db_replay o d es) = replay_core o d es.
Proof.
  unfold db_replay. generalize 0%nat. revert d. induction es as [|e es IH]; intros d n; [reflexivity|].
  cbn [fold_left replay_core fst snd]. destruct (owns o (e_key e)); [|apply IH].
  destruct (db_write d (e_key e) (e_del e) (e_val e)) as [d1 r]. cbn [fst]. apply IH.
Qed.

Lemma replay_tables o es : forall d, d_tables (replay_core o d es) = d_tables d.
Proof.
  induction es as [|e es IH]; intro d; [reflexivity|]. cbn [replay_core]. destruct (owns o (e_key e)); [|apply IH].
  rewrite IH. apply db_write_tables.
Qed.
Lemma replay_walid o es : forall d, w_id (d_wal (replay_core o d es)) = w_id (d_wal d).
Proof.
  induction es as [|e es IH]; intro d; [reflexivity|]. cbn [replay_core]. destruct (owns o (e_key e)); [|apply IH].
  rewrite IH. apply db_write_walid.
Qed.
Lemma db_restore_fields mem wm o ts walid es core rots :
  db_restore mem wm o ts walid es = (core, rots) -> d_tables core = ts /\ w_id (d_wal core) = walid + 1.
Proof.
  intro H. apply (f_equal fst) in H. unfold db_restore in H. rewrite db_replay_core in H. cbn [fst] in H. subst core.
  split; [apply replay_tables|apply replay_walid].
Qed.

(* a replay is a sequence of writes: what is read after it follows from the visibility of each write *)
Lemma replay_get o es : forall d, Inv d ->
  Inv (replay_core o d es) /\
  forall k, db_get (replay_core o d es) k =
            match lastw (filter (fun e => owns o (e_key e)) es) k with Some e => value_of (Some e) | None => db_get d k end.
Proof.
  induction es as [|e es IH]; intros d I; [split; [exact I|reflexivity]|]. cbn [replay_core filter].
  destruct (owns o (e_key e)); [|apply IH; exact I].
  destruct (IH _ (inv_step d (AWrite (e_key e) (e_del e) (e_val e)) I Logic.I)) as [I' G]. split; [exact I'|].
  intro k. rewrite G. cbn [lastw do_action]. destruct (lastw _ k); [reflexivity|].
  rewrite db_write_get by exact I. destruct (beqb k (e_key e)); reflexivity.
Qed.

(* the reader asked to start after any prefix [u] of a contiguous log returns exactly the rest: the gap check does not fire and
   the skip count [after + 1 - first] is the length of [u], never more than the log holds *)
Lemma wal_read_skip u v a : contig (u ++ v) a -> wal_read (u ++ v) (a + N.of_nat (length u)) = ROk v.
Proof.
  intro C. unfold wal_read. destruct (u ++ v) as [|e0 rest] eqn:W.
  - destruct u; [|discriminate]. cbn in W. rewrite W. reflexivity.
  - rewrite (C 0%nat e0 eq_refl). destruct (_ <? _) eqn:C1; [lia|].
    replace (N.to_nat _) with (length u) by lia.
    destruct (length (e0 :: rest) <? length u)%nat eqn:C2; [rewrite <- W, app_length in C2; lia|].
    rewrite <- W, skipn_app, skipn_all, Nat.sub_diag. reflexivity.
Qed.

(* a checkpoint's After is LatestSeqNum, the end of the covered prefix *)
Lemma wal_read_ok {d a pre cs ca} : Rep d a pre cs ca -> wal_read (wal_content (d_wal d)) (d_latest d) = ROk (concat cs ++ ca).
Proof. intro R. rewrite (rp_wal R), <- (rp_pre R). exact (wal_read_skip _ _ _ (rp_contig R)). Qed.

(* the restore of what a checkpoint of [d] captures: its level set, and the log the reader returns *)
Lemma restore_exact {d a pre cs ca} o mem wm : Rep d a pre cs ca ->
  let r := fst (db_restore mem wm o (d_tables d) (w_id (d_wal d)) (concat cs ++ ca)) in
  Inv r /\ (forall k, owns o k = true -> db_get r k = db_get d k).
Proof.
  intro R. unfold db_restore. rewrite db_replay_core.
  pose proof (rep_fresh mem wm (d_tables d) (w_id (d_wal d) + 1) (rp_ends R)) as R0.
  destruct (replay_get o (concat cs ++ ca) _ (rep_inv R0)) as [I G].
  split; [exact I|]. intros k O.
  rewrite G, (lastw_filter o _ k O), (db_get_char _ _ _ _ _ k R0), (db_get_char _ _ _ _ _ k R). unfold view. cbn [concat app lastw d_tables].
  destruct (lastw (concat cs ++ ca) k); reflexivity.
Qed.

(* the databases that can exist: a new one, one more action, or a restore from a checkpoint of one that can exist
   (with any ownership filter and any sizes) - this closes chains checkpoint -> restore -> write -> checkpoint -> restore *)
Inductive reach : dbc -> Prop :=
| reach_new mem wm : reach (db_new mem wm)
| reach_act d a : reach d -> act_ok d a -> reach (do_action d a)
| reach_restore d o mem wm es :
    reach d -> wal_read (cp_wal (snd (db_checkpoint d))) (cp_after (snd (db_checkpoint d))) = ROk es ->
    reach (fst (db_restore mem wm o (cp_tables (snd (db_checkpoint d))) (cp_walid (snd (db_checkpoint d))) es)).

Theorem reach_inv d : reach d -> Inv d.
Proof.
  induction 1 as [mem wm|d a _ IH OK|d o mem wm es _ [a [pre [cs [ca R]]]] RD].
  - (* new *) apply inv_new.
  - (* action *) apply inv_step; assumption.
  - (* restore *) cbn [db_checkpoint snd cp_wal cp_after cp_tables cp_walid] in *. rewrite (wal_read_ok R) in RD.
    injection RD as <-. apply (restore_exact o mem wm R).
Qed.

Theorem checkpoint_exact_db d o mem wm :
  reach d ->
  exists es, wal_read (cp_wal (snd (db_checkpoint d))) (cp_after (snd (db_checkpoint d))) = ROk es /\
    let r := fst (db_restore mem wm o (cp_tables (snd (db_checkpoint d))) (cp_walid (snd (db_checkpoint d))) es) in
    reach r /\ (forall k, owns o k = true -> db_get r k = db_get d k) /\
    (forall k del v k', db_get (fst (db_write r k del v)) k' = if beqb k' k then (if del then None else Some v) else db_get r k').
Proof.
  intro RC. destruct (reach_inv d RC) as [a [pre [cs [ca R]]]]. exists (concat cs ++ ca).
  pose proof (wal_read_ok R : wal_read (cp_wal (snd (db_checkpoint d))) _ = _) as RD.
  destruct (restore_exact o mem wm R) as [I G].
  split; [exact RD|]. split; [exact (reach_restore d o mem wm _ RC RD)|]. split; [exact G|].
  intros k del v k'. apply db_write_get. exact I.
Qed.

(* the log reader never panics and never runs into end-of-file on a checkpoint of a reachable database *)
Theorem replay_never_fails d : reach d ->
  exists es, wal_read (cp_wal (snd (db_checkpoint d))) (cp_after (snd (db_checkpoint d))) = ROk es.
Proof. intro RC. destruct (checkpoint_exact_db d OwnAll 0 0 RC) as [es [RD _]]. exists es. exact RD. Qed.
