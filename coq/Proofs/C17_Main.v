(* Get and ScanPrefix on a whole table, fresh or re-opened, and on the tables of a run cut into consecutive chunks, read
   as one sorted level.  Where WriteRun cuts is a writer-side policy (target, look-ahead factor); the round trip holds
   for EVERY cutting, because each chunk of a well-formed run is well-formed (run_ok_chunks).  Also here: the four
   facts about WriteRun's own cutting put together (write_run_partition). *)
From RV Require Import Model.SstTable Model.WriteRun.
From RV Require Import Proofs.C17_Codec Proofs.C17_Table Proofs.C17_Bloom Proofs.C17_WriteRun2 Proofs.C17_Get.
Open Scope N_scope.

Theorem table_get_is_find tp es key : params_ok tp -> run_ok es -> table_get (write_table tp es) key = get_spec es key.
Proof.
  intros Hp H. apply table_get_is_find_gen; [exact H|intros e He; apply bloom_of_no_false_negative; [apply Hp..|exact He]].
Qed.

(* in particular Get never panics and never returns an error on a well-formed run *)
Lemma get_spec_total es key : get_spec es key <> GPanic /\ get_spec es key <> GErr.
Proof. unfold get_spec. destruct (find_key key es); split; discriminate. Qed.

Theorem write_run_partition es target : 1 <= target ->
  concat (write_run es target) = es /\ write_run es target <> [] /\
  (es <> [] -> Forall (fun c => c <> []) (write_run es target)) /\
  size_rule target (write_run es target).
Proof.
  intros H. split; [apply write_run_concat; exact H|].
  split; [apply write_run_not_nil; exact H|]. split; [intros Hne; apply write_run_nonempty; assumption|].
  apply write_run_size_rule; exact H.
Qed.

Lemma run_ok_app a b : run_ok (a ++ b) -> run_ok a /\ run_ok b.
Proof.
  intros (Hok & Hs & Hsz). apply Forall_app in Hok as [Ha Hb]. apply keys_sorted_app in Hs as (Hsa & Hsb & _).
  rewrite ser_entries_app, blen_app in Hsz. repeat split; try assumption; lia.
Qed.

Lemma run_ok_chunks chunks : run_ok (concat chunks) -> Forall run_ok chunks.
Proof.
  induction chunks as [|c cs IH]; intros H; constructor; apply run_ok_app in H; [apply H|apply IH, H].
Qed.

Lemma table_reads_back tp c : params_ok tp -> run_ok c ->
  (forall key, table_get (write_table tp c) key = get_spec c key) /\
  (forall key, table_get (reopen (write_table tp c)) key = get_spec c key) /\
  (forall p, table_scan_prefix (write_table tp c) p = Some (scan_spec c p)) /\
  (forall p, table_scan_prefix (reopen (write_table tp c)) p = Some (scan_spec c p)).
Proof.
  intros Hp Hc. pose proof Hc as (Ho & _ & Hz). split; [intros key; apply table_get_is_find; assumption|].
  split; [intros key; unfold table_get; rewrite table_get_reopen_same by assumption; apply table_get_is_find; assumption|].
  split; intros p; [|rewrite table_scan_reopen_same by assumption]; apply table_scan_is_filter, Ho.
Qed.

(* tables read as one sorted level, whichever way [f] each chunk is made into a table *)
Lemma level_read_chunks (f : list entry -> table) chunks :
  Forall (fun c => (forall key, table_get (f c) key = get_spec c key) /\
                   (forall p, table_scan_prefix (f c) p = Some (scan_spec c p))) chunks ->
  (forall p, level_scan (map f chunks) p = Some (scan_spec (concat chunks) p)) /\
  (forall key, level_get (map f chunks) key = get_spec (concat chunks) key).
Proof.
  induction 1 as [|c cs [Hg Hs] _ [IHs IHg]]; [split; reflexivity|]. split.
  - intros p. cbn [map level_scan fold_right concat]. fold (level_scan (map f cs) p).
    rewrite Hs, IHs, scan_spec_app. reflexivity.
  - intros key. cbn [map level_get concat]. rewrite Hg, IHg. unfold get_spec. rewrite find_key_app.
    destruct (find_key key c); reflexivity.
Qed.

Lemma level_reads_back tp chunks : params_ok tp -> Forall run_ok chunks ->
  (forall p, level_scan (map (write_table tp) chunks) p = Some (scan_spec (concat chunks) p)) /\
  (forall key, level_get (map (write_table tp) chunks) key = get_spec (concat chunks) key) /\
  (forall p, level_scan (map (fun c => reopen (write_table tp c)) chunks) p = Some (scan_spec (concat chunks) p)) /\
  (forall key, level_get (map (fun c => reopen (write_table tp c)) chunks) key = get_spec (concat chunks) key).
Proof.
  intros Hp H. apply (Forall_impl _ (fun c => table_reads_back tp c Hp)) in H.
  destruct (level_read_chunks (write_table tp) chunks) as [A B].
  { eapply Forall_impl; [|exact H]. intros c (G & _ & S & _). split; assumption. }
  destruct (level_read_chunks (fun c => reopen (write_table tp c)) chunks) as [C D].
  { eapply Forall_impl; [|exact H]. intros c (_ & G & _ & S). split; assumption. }
  repeat split; assumption.
Qed.
