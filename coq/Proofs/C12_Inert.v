(* C12: acknowledgements that name another id, come from a node outside the assembly or from a node that has
   already acknowledged change nothing; explicit statements about ids and about "one checkpoint in progress"; what
   the completing ack does when the snapshot write fails. *)
From RV Require Import Base.Mach Model.SnapStore.
Open Scope N_scope.

(* an acknowledgement that the store must not count: nothing is pending, it names another id, or its sender is not
   awaited (outside the assembly, or already counted) *)
Definition bad_ack (w : world) (a : action) : Prop :=
  match a with
  | AAckOp cid op _ =>
      match pend (w_store w) with
      | None => True
      | Some p => p_id p <> cid \/ flag_of op (p_ops p) <> Some false
      end
  | AAckSr cid sr _ =>
      match pend (w_store w) with
      | None => True
      | Some p => p_id p <> cid \/ flag_of sr (p_srs p) <> Some false
      end
  | _ => False
  end.

(* the pending snapshot awaits nobody: isComplete holds of it from the start, so any ack naming its id publishes it *)
Definition empty_assembly (w : world) : Prop :=
  exists p, pend (w_store w) = Some p /\ p_ops p = [] /\ p_srs p = [].

(* a pending snapshot is never complete (completion publishes and clears it), unless its assembly is empty *)
Definition Incomplete (w : world) : Prop :=
  match pend (w_store w) with
  | Some p => is_complete p = false \/ (p_ops p = [] /\ p_srs p = [])
  | None => True
  end.

Lemma mk_flags_nil l : mk_flags l = [] -> l = [].
Proof.
  unfold mk_flags. destruct l as [|x l]; [reflexivity|]. intros H. exfalso.
  assert (Hin : In x (nodup N.eq_dec (x :: l))) by (apply nodup_In; left; reflexivity).
  destruct (nodup N.eq_dec (x :: l)); [exact Hin|discriminate].
Qed.

Lemma all_set_mk_flags l : all_set (mk_flags l) = true -> mk_flags l = [].
Proof. unfold mk_flags. destruct (nodup N.eq_dec l); [reflexivity|discriminate]. Qed.

Lemma new_pending_incomplete id ops srs sp :
  is_complete (new_pending id ops srs sp) = false \/
  (p_ops (new_pending id ops srs sp) = [] /\ p_srs (new_pending id ops srs sp) = []).
Proof.
  unfold is_complete, new_pending. cbn [p_ops p_srs].
  destruct (all_set (mk_flags srs)) eqn:E1; [|left; reflexivity].
  destruct (all_set (mk_flags ops)) eqn:E2; [|left; reflexivity].
  right. split; apply all_set_mk_flags; assumption.
Qed.

Lemma finish_incomplete w p : Incomplete (fst (finish_if_complete w p)).
Proof.
  unfold finish_if_complete. destruct (is_complete p) eqn:E; [destruct (w_failw w); exact I|left; exact E].
Qed.

Lemma step_incomplete q w a : Incomplete w -> Incomplete (fst (step q w a)).
Proof.
  intros H. unfold step. destruct a as [ops srs|ops srs|cid op pl|cid sr sts| |b|rid| |].
  - (* ACreate *) destruct (pend (w_store w)); [exact H|apply new_pending_incomplete].
  - (* ASavepoint: the flag of the pending snapshot does not matter *)
    unfold Incomplete in *. destruct (pend (w_store w)) as [p|] eqn:Ep; [|apply new_pending_incomplete].
    destruct (p_sp p); cbn [fst]; [rewrite Ep|]; exact H.
  - (* AAckOp *) destruct (pend (w_store w)) as [p|]; [|exact H].
    destruct (negb (p_id p =? cid)); [exact H|apply finish_incomplete].
  - (* AAckSr *) destruct (pend (w_store w)) as [p|]; [|exact H].
    destruct (negb (p_id p =? cid)); [exact H|]. destruct (add_sr q p sr sts); [apply finish_incomplete|exact H].
  - (* ARestart: nothing pending *) unfold load_store. destruct (max_snap None (w_files w)); exact I.
  - (* ALoseRemoves *) exact H.
  - (* ARestartFrom: nothing pending *) destruct (find_snap rid (w_sps w)); exact I.
  - (* AAbort: nothing pending *) exact I.
  - (* AFailNextWrite *) exact H.
Qed.

Lemma final_incomplete q acts : forall w, Incomplete w -> Incomplete (final q w acts).
Proof.
  induction acts as [|a acts IH]; intros w H; [exact H|].
  cbn [final]. apply IH. apply step_incomplete. exact H.
Qed.

Lemma with_pending_same w : with_pending w (pend (w_store w)) = w.
Proof. destruct w as [[c p k] f b sp fw]. reflexivity. Qed.

Lemma add_op_counted p op cid pl : flag_of op (p_ops p) <> Some false -> add_op p (op, cid, pl) = p.
Proof. intros Hb. unfold add_op. cbn [fst]. destruct (flag_of op (p_ops p)) as [[|]|]; congruence. Qed.

Lemma add_sr_counted p sr sts : flag_of sr (p_srs p) <> Some false -> add_sr repaired p sr sts = None.
Proof. intros Hb. unfold add_sr. cbn [dup_sr_ack_appends repaired]. destruct (flag_of sr (p_srs p)) as [[|]|]; congruence. Qed.

(* the common shape of every refused branch of [bad_ack_inert], which applies it by unification *)
Lemma refused_inert (w : world) e : fst (w, RAck e None) = w /\ exists e', snd (w, RAck e None) = RAck e' None.
Proof. split; [reflexivity|eexists; reflexivity]. Qed.

Theorem bad_ack_inert w a : Incomplete w -> bad_ack w a ->
  (fst (step repaired w a) = w /\ exists e, snd (step repaired w a) = RAck e None) \/ empty_assembly w.
Proof.
  unfold Incomplete, bad_ack, step. intros Hinc Hbad.
  destruct a as [ops srs|ops srs|cid op pl|cid sr sts| |b|rid| |]; try contradiction.
  - (* AAckOp *) destruct (pend (w_store w)) as [p|] eqn:Ep; [|left; apply refused_inert].
    destruct (N.eqb_spec (p_id p) cid) as [E|E]; cbn [negb]; [|left; apply refused_inert].
    destruct Hbad as [Hb|Hb]; [contradiction|]. rewrite (add_op_counted p op cid pl Hb).
    (* the unchanged pending snapshot is looked at again: it is incomplete, or the assembly is empty *)
    destruct Hinc as [Hc|Hc]; [left|right; exists p; split; [exact Ep|exact Hc]].
    unfold finish_if_complete. rewrite Hc. rewrite <- Ep, with_pending_same. apply refused_inert.
  - (* AAckSr *) destruct (pend (w_store w)) as [p|] eqn:Ep; [|left; apply refused_inert].
    destruct (N.eqb_spec (p_id p) cid) as [E|E]; cbn [negb]; [|left; apply refused_inert].
    destruct Hbad as [Hb|Hb]; [contradiction|]. rewrite (add_sr_counted p sr sts Hb). left. apply refused_inert.
Qed.

(* an empty assembly is completed by any ack that names its id (isComplete of two empty maps) *)
Lemma empty_assembly_witness :
  exists pub, run repaired init [ACreate [] []; AAckOp 1 7 0] = [RCreate false 1; RAck false (Some pub)].
Proof. eexists. vm_compute. reflexivity. Qed.

(* one checkpoint in progress: a creation while one is pending is refused and changes nothing *)
Theorem create_while_pending_refused q w ops srs p :
  pend (w_store w) = Some p ->
  step q w (ACreate ops srs) = (w, RCreate true 0) /\
  (fst (step q w (ASavepoint ops srs)) = w \/
   exists p', pend (w_store (fst (step q w (ASavepoint ops srs)))) = Some p' /\ p_id p' = p_id p /\
              p_ops p' = p_ops p /\ p_srs p' = p_srs p /\ p_entries p' = p_entries p /\ p_splits p' = p_splits p).
Proof.
  intros Ep. unfold step. rewrite Ep. split; [reflexivity|].
  destruct (p_sp p); [left; reflexivity|]. right. eexists. repeat split.
Qed.

(* ids handed out within one store lifetime increase strictly: [handed r] is the fresh id a result hands out (a
   savepoint that joins the pending checkpoint hands out none), [no_restart] confines a call list to one lifetime,
   [increasing_from b l] says that l ascends strictly and starts above b *)
Definition handed (r : result) : option N :=
  match r with
  | RCreate false id => Some id
  | RSavepoint false id true => Some id
  | _ => None
  end.
Fixpoint handed_ids (rs : list result) : list N :=
  match rs with
  | [] => []
  | r :: rs' => match handed r with Some i => i :: handed_ids rs' | None => handed_ids rs' end
  end.
Definition is_restart (a : action) : Prop := match a with ARestart | ARestartFrom _ => True | _ => False end.
Definition no_restart (acts : list action) : Prop := Forall (fun a => ~ is_restart a) acts.
Fixpoint increasing_from (b : N) (l : list N) : Prop :=
  match l with [] => True | x :: l' => b < x /\ increasing_from x l' end.

(* a call that hands out an id hands out the successor of the counter and sets the counter to it; any other call
   that is not a restart leaves the counter alone *)
Definition counts (w : world) (wr : world * result) : Prop :=
  match handed (snd wr) with
  | Some i => i = ckpt_id (w_store w) + 1 /\ ckpt_id (w_store (fst wr)) = i
  | None => ckpt_id (w_store (fst wr)) = ckpt_id (w_store w)
  end.

Lemma finish_counts w p : counts w (finish_if_complete w p).
Proof. unfold finish_if_complete. destruct (is_complete p); [destruct (w_failw w)|]; reflexivity. Qed.

Lemma step_counts q w a : ~ is_restart a -> counts w (step q w a).
Proof.
  intros Ha. unfold step.
  destruct a as [ops srs|ops srs|cid op pl|cid sr sts| |b|rid| |].
  - (* ACreate *) destruct (pend (w_store w)); [reflexivity|split; reflexivity].
  - (* ASavepoint *) destruct (pend (w_store w)) as [p|]; [destruct (p_sp p); reflexivity|split; reflexivity].
  - (* AAckOp *) destruct (pend (w_store w)) as [p|]; [|reflexivity].
    destruct (negb (p_id p =? cid)); [reflexivity|apply finish_counts].
  - (* AAckSr *) destruct (pend (w_store w)) as [p|]; [|reflexivity].
    destruct (negb (p_id p =? cid)); [reflexivity|]. destruct (add_sr q p sr sts); [apply finish_counts|reflexivity].
  - (* ARestart *) destruct (Ha I).
  - (* ALoseRemoves *) reflexivity.
  - (* ARestartFrom *) destruct (Ha I).
  - (* AAbort *) reflexivity.
  - (* AFailNextWrite *) reflexivity.
Qed.

Theorem ids_increase_in_lifetime q acts : forall w, no_restart acts ->
  increasing_from (ckpt_id (w_store w)) (handed_ids (run q w acts)).
Proof.
  induction acts as [|a acts IH]; intros w Hnr; [exact I|].
  inversion Hnr as [|? ? Ha Hnr']; subst.
  cbn [run]. pose proof (step_counts q w a Ha) as Hc. unfold counts in Hc.
  destruct (step q w a) as [w' r]. cbn [fst snd handed_ids] in *. destruct (handed r) as [i|].
  - destruct Hc as [Ei <-]. split; [lia|]. apply IH. exact Hnr'.
  - rewrite <- Hc. apply IH. exact Hnr'.
Qed.

(* a failed write of the snapshot file: the completing ack publishes nothing - no file, no removal, no notification,
   no savepoint artifact, the current checkpoint unchanged; only the pending snapshot is gone *)
Lemma finish_failed_write w p : is_complete p = true -> w_failw w = true ->
  finish_if_complete w p = (fail_publish w, RAckFailed false [] [] (cur_of w)).
Proof. intros Hc Hf. unfold finish_if_complete. rewrite Hc, Hf. reflexivity. Qed.
