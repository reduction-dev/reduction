(* C11, operator side (Model/UpstreamWm.v).  [ups_inv]: the table of upstream watermarks holds, for exactly the
   participants, the latest report of each; [reg_inv], on the pair [tw r] of a registry's table and cached watermark, adds
   that the watermark is [spec_composite] of the reports so far (the minimum over the table: ups_min_spec); reg_step_inv
   keeps it.  [op_inv] carries it to the operator together
   with "every timer in the batch fired at or below a watermark that had been reached" (fired_ok); op_step_spec keeps it,
   by op_step_sub: an event acts on the registry by [reg_after], and what follows (batches handed to the handler, timers
   fired) keeps [tw]; so [tw] after a history is [fold_left reg_after] over it (table_after), whatever the handler does.
   _l marks the lemma behind one conjunct of a theorem of Props/C11.v (latest_unreported_l, latest_last_l: of composite_is_min). *)
From Coq Require Import ZArith NArith List Bool Lia.
From RV Require Import Base.Lists Model.Wmark Model.UpstreamWm.
Import ListNotations.
Open Scope Z_scope.

Definition min_of (l : list Z) : option Z :=
  match l with [] => None | x :: r => Some (zmin_list x r) end.

(* the mirror image of C11_Wmark.zmax_list_spec (Base.Lists.fold_left_max_spec is the same fact for N.max) *)
Lemma zmin_list_spec : forall l d, In (zmin_list d l) (d :: l) /\ forall x, In x (d :: l) -> zmin_list d l <= x.
Proof.
  unfold zmin_list. induction l as [|y l IH]; intro d; cbn [fold_left].
  - split; [left; reflexivity|]. intros x [<-|[]]. lia.
  - destruct (IH (Z.min d y)) as [Hin Hle]. split.
    + cbn [In] in *. destruct Hin as [E|Hin]; [lia|tauto].
    + pose proof (Hle _ (or_introl eq_refl)). intros x [<-|[<-|Hx]]; [lia..|apply Hle; right; exact Hx].
Qed.

Lemma min_of_char : forall l m, min_of l = Some m -> In m l /\ forall x, In x l -> m <= x.
Proof. intros [|x r] m [= <-]. apply zmin_list_spec. Qed.

Lemma min_of_ext : forall l1 l2, (forall v, In v l1 <-> In v l2) -> min_of l1 = min_of l2.
Proof.
  intros l1 l2 Hext.
  destruct l1 as [|x1 r1], l2 as [|x2 r2]; [reflexivity| | |].
  - destruct (proj2 (Hext x2) (or_introl eq_refl)).
  - destruct (proj1 (Hext x1) (or_introl eq_refl)).
  - destruct (min_of_char (x1 :: r1) _ eq_refl) as [Hi1 Hl1].
    destruct (min_of_char (x2 :: r2) _ eq_refl) as [Hi2 Hl2].
    cbn [min_of]. f_equal. apply Z.le_antisymm; [apply Hl1, Hext, Hi2|apply Hl2, Hext, Hi1].
Qed.

Lemma ups_set_keys : forall u s t s', In s' (map fst (ups_set u s t)) <-> s' = s \/ In s' (map fst u).
Proof.
  induction u as [|[a b] r IH]; intros s t s'; cbn [ups_set map fst In].
  - intuition.
  - destruct (N.eqb_spec s a) as [->|Hne]; cbn [map fst In]; [|rewrite IH]; intuition.
Qed.

Lemma ups_set_nodup : forall u s t, NoDup (map fst u) -> NoDup (map fst (ups_set u s t)).
Proof.
  induction u as [|[a b] r IH]; intros s t Hnd; cbn [ups_set map fst].
  - constructor; [intros []|constructor].
  - inversion Hnd as [|x l Hnotin Hnd']; subst.
    destruct (N.eqb_spec s a) as [->|Hne]; cbn [map fst]; constructor; auto.
    rewrite ups_set_keys. intros [Heq|Hin]; [congruence|contradiction].
Qed.

Lemma ups_set_in : forall u s t s' t', NoDup (map fst u) ->
  (In (s', t') (ups_set u s t) <-> (s' = s /\ t' = t) \/ (s' <> s /\ In (s', t') u)).
Proof.
  induction u as [|[a b] r IH]; intros s t s' t' Hnd; cbn [ups_set In].
  - intuition congruence.
  - inversion Hnd as [|x l Hnotin Hnd']; subst.
    destruct (N.eqb_spec s a) as [->|Hne]; cbn [In]; [|rewrite (IH s t s' t' Hnd'); intuition congruence].
    assert (Hk : In (s', t') r -> s' <> a) by (intros H ->; exact (Hnotin (in_map fst _ _ H))).
    intuition congruence.
Qed.

Lemma last_of_app1 : forall msgs s t s',
  last_of (msgs ++ [(s, t)]) s' = if (s =? s')%N then Some t else last_of msgs s'.
Proof. intros msgs s t s'. unfold last_of. rewrite fold_left_app. reflexivity. Qed.

Lemma latest_app1 : forall msgs s t s',
  latest (msgs ++ [(s, t)]) s' = if (s =? s')%N then t else latest msgs s'.
Proof. intros msgs s t s'. unfold latest. rewrite last_of_app1. destruct (s =? s')%N; reflexivity. Qed.

Lemma last_of_skip : forall (m2 : list (N * Z)) s acc, ~ In s (map fst m2) ->
  fold_left (fun acc m => if (fst m =? s)%N then Some (snd m) else acc) m2 acc = acc.
Proof.
  intros m2 s acc Hn. apply (fold_left_keeps _ (fun a => a)). intros a m Hm.
  destruct (N.eqb_spec (fst m) s) as [<-|_]; [destruct (Hn (in_map fst _ _ Hm))|reflexivity].
Qed.

Lemma last_of_none : forall msgs s, ~ In s (map fst msgs) -> last_of msgs s = None.
Proof. intros msgs s Hn. exact (last_of_skip msgs s None Hn). Qed.

(* a runner that has not reported counts as the epoch *)
Lemma latest_unreported_l : forall msgs s, ~ In s (map fst msgs) -> latest msgs s = epoch.
Proof. intros msgs s Hn. unfold latest. rewrite (last_of_none _ _ Hn). reflexivity. Qed.

(* otherwise its most recent message counts, whatever came before (also a lower, regressing one) *)
Lemma latest_last_l : forall msgs m1 s t m2, msgs = m1 ++ (s, t) :: m2 -> ~ In s (map fst m2) -> latest msgs s = t.
Proof.
  intros msgs m1 s t m2 -> Hn. unfold latest, last_of. rewrite fold_left_app. cbn [fold_left fst snd].
  rewrite N.eqb_refl, last_of_skip by exact Hn. reflexivity.
Qed.

Lemma participants_app1 : forall ids msgs s t x,
  In x (participants ids (msgs ++ [(s, t)])) <-> x = s \/ In x (participants ids msgs).
Proof.
  intros ids msgs s t x. unfold participants. rewrite map_app, !in_app_iff. cbn [map fst In]. intuition.
Qed.

(* the table holds exactly the latest report of every participant *)
Definition ups_inv (ids : list N) (msgs : list (N * Z)) (u : ups) : Prop :=
  NoDup (map fst u) /\ forall s t, In (s, t) u <-> (In s (participants ids msgs) /\ t = latest msgs s).

(* one more participant [k], or a new report of [k]: the table follows by [ups_set] *)
Lemma ups_inv_set : forall ids msgs ids' msgs' u k v,
  ups_inv ids msgs u ->
  (forall x, In x (participants ids' msgs') <-> x = k \/ In x (participants ids msgs)) ->
  (forall x, latest msgs' x = if (k =? x)%N then v else latest msgs x) ->
  ups_inv ids' msgs' (ups_set u k v).
Proof.
  intros ids msgs ids' msgs' u k v [Hnd Hin] HP HL. split; [apply ups_set_nodup; exact Hnd|].
  intros s t. rewrite (ups_set_in u k v s t Hnd), Hin, HP, HL.
  destruct (N.eqb_spec k s) as [->|Hne]; intuition congruence.
Qed.

Lemma ups_inv_step : forall ids msgs u s t,
  ups_inv ids msgs u -> ups_inv ids (msgs ++ [(s, t)]) (ups_set u s t).
Proof.
  intros ids msgs u s t H. apply (ups_inv_set ids msgs _ _ u s t H); intro x; [apply participants_app1|apply latest_app1].
Qed.

Lemma ups_inv_init : forall ids, ups_inv ids [] (ups_init ids).
Proof.
  unfold ups_init. induction ids as [|i ids IH] using rev_ind.
  - split; [constructor|]. intros s t. split; [intros []|intros [[] _]].
  - rewrite fold_left_app. apply (ups_inv_set ids [] _ _ _ i epoch IH); intro x.
    + unfold participants. cbn [map]. rewrite !app_nil_r, in_app_iff. cbn [In]. intuition.
    + destruct (i =? x)%N; reflexivity.
Qed.

Lemma ups_min_min_of : forall u, ups_min u = min_of (map snd u).
Proof. intros [|[s t] r]; reflexivity. Qed.

Lemma spec_composite_min_of : forall ids msgs,
  spec_composite ids msgs = match min_of (map (latest msgs) (participants ids msgs)) with Some m => m | None => epoch end.
Proof. intros ids msgs. unfold spec_composite. destruct (map (latest msgs) (participants ids msgs)); reflexivity. Qed.

Lemma ups_inv_values : forall ids msgs u, ups_inv ids msgs u ->
  forall v, In v (map snd u) <-> In v (map (latest msgs) (participants ids msgs)).
Proof.
  intros ids msgs u [_ Hin] v. rewrite !in_map_iff. split.
  - intros [[s t] [<- H]]. apply Hin in H. destruct H as [Hp ->]. exists s. split; [reflexivity|exact Hp].
  - intros [s [<- Hp]]. exists (s, latest msgs s). split; [reflexivity|]. apply Hin. split; [exact Hp|reflexivity].
Qed.

Lemma ups_min_spec : forall ids msgs u, ups_inv ids msgs u ->
  match ups_min u with Some c => c | None => epoch end = spec_composite ids msgs.
Proof.
  intros ids msgs u Hinv. rewrite ups_min_min_of, spec_composite_min_of.
  rewrite (min_of_ext _ _ (ups_inv_values _ _ _ Hinv)). reflexivity.
Qed.

Lemma spec_composite_char : forall ids msgs, participants ids msgs <> [] ->
  (forall s, In s (participants ids msgs) -> spec_composite ids msgs <= latest msgs s) /\
  (exists s, In s (participants ids msgs) /\ spec_composite ids msgs = latest msgs s).
Proof.
  intros ids msgs Hne. rewrite spec_composite_min_of.
  destruct (min_of (map (latest msgs) (participants ids msgs))) as [m|] eqn:E.
  - apply min_of_char in E. destruct E as [Hin Hle]. split; [intros s Hs; apply Hle, in_map, Hs|].
    apply in_map_iff in Hin. destruct Hin as [s [Heq Hs]]. exists s. split; [exact Hs|symmetry; exact Heq].
  - destruct (participants ids msgs); [contradiction|discriminate].
Qed.

Lemma spec_composite_nobody : forall ids msgs, participants ids msgs = [] -> spec_composite ids msgs = epoch.
Proof. intros ids msgs H. unfold spec_composite. rewrite H. reflexivity. Qed.

(* with no message yet every participant counts as the epoch, so the composite is the epoch *)
Lemma spec_composite_nil : forall ids, spec_composite ids [] = epoch.
Proof.
  intro ids. rewrite spec_composite_min_of.
  destruct (min_of (map (latest []) (participants ids []))) as [m|] eqn:E; [|reflexivity].
  destruct (min_of_char _ _ E) as [Hin _]. apply in_map_iff in Hin. destruct Hin as [s [<- _]]. reflexivity.
Qed.

Lemma go_zero_below_epoch : go_zero_time < epoch.
Proof. unfold go_zero_time, epoch, NS. lia. Qed.

(* what the theorems read of a registry: the pair (upstream table, cached composite watermark).  [note] is [reg_note] on
   that pair; [reg_note] does not look at the timers, so it is run on a registry without any (tw (reg_note r s p) and
   note (tw r) s p are convertible) *)
Definition tw (r : reg) : ups * Z := (r_ups r, r_wm r).

Definition note (x : ups * Z) (s : N) (p : pbts) : ups * Z :=
  tw (reg_note {| r_ups := fst x; r_wm := snd x; r_timers := [] |} s p).

Definition reg_inv (ids : list N) (msgs : list (N * Z)) (x : ups * Z) : Prop :=
  ups_inv ids msgs (fst x) /\ snd x = spec_composite ids msgs.

Lemma set_timer_same : forall r k t, tw (set_timer r k t) = tw r.
Proof. intros r k t. unfold set_timer. destruct (r_wm r <? t); reflexivity. Qed.

Lemma reg_inv_new : forall ids, reg_inv ids [] (tw (reg_new ids)).
Proof. intro ids. split; [apply ups_inv_init|symmetry; apply spec_composite_nil]. Qed.

Lemma reg_inv_note : forall ids msgs x s p,
  reg_inv ids msgs x -> reg_inv ids (msgs ++ [(s, as_time p)]) (note x s p).
Proof.
  intros ids msgs x s p [Hu _]. apply (ups_inv_step _ _ _ s (as_time p)) in Hu.
  split; [exact Hu|exact (ups_min_spec _ _ _ Hu)].
Qed.

Lemma fire_le : forall c ts t k, In (t, k) (fst (fire c ts)) -> t <= c.
Proof.
  induction ts as [|[t0 k0] rest IH]; intros t k; cbn [fire]; [intros []|].
  destruct (Z.ltb_spec c t0) as [_|E]; [intros []|].
  destruct (fire c rest) as [f keep]. intros [[= <- _]|Hin]; [exact E|exact (IH t k Hin)].
Qed.

Lemma rop_msgs_app : forall a b, rop_msgs (a ++ b) = rop_msgs a ++ rop_msgs b.
Proof.
  induction a as [|o a IH]; intro b; [reflexivity|].
  destruct o; cbn [app rop_msgs]; rewrite IH; reflexivity.
Qed.

Lemma rop_msgs_cons : forall o ops, rop_msgs (o :: ops) = rop_msgs [o] ++ rop_msgs ops.
Proof. intros o ops. exact (rop_msgs_app [o] ops). Qed.

Lemma reg_step_inv : forall ids msgs r o,
  reg_inv ids msgs (tw r) ->
  reg_inv ids (msgs ++ rop_msgs [o]) (tw (fst (reg_step r o))) /\
  forall t k, In (t, k) (snd (reg_step r o)) -> t <= r_wm (fst (reg_step r o)).
Proof.
  intros ids msgs r o Hinv. destruct o as [s p|k t|s p k]; cbn [reg_step rop_msgs fst snd].
  - pose proof (fire_le (r_wm (reg_note r s p)) (r_timers (reg_note r s p))) as Hf.
    unfold advance. destruct (fire _ _) as [f keep]. split; [exact (reg_inv_note ids msgs _ s p Hinv)|exact Hf].
  - rewrite app_nil_r, set_timer_same. split; [exact Hinv|intros ? ? []].
  - pose proof (fire_le (r_wm (reg_note r s p)) (r_timers (reg_note r s p))) as Hf.
    unfold advance_stop. destruct (fire _ _) as [f keep]. split; [exact (reg_inv_note ids msgs _ s p Hinv)|].
    (* the consumer stopped early: it was handed a prefix of the due timers *)
    intros t key Hin. exact (Hf t key (In_firstn _ _ _ Hin)).
Qed.

Lemma reg_run_inv : forall ops ids msgs r,
  reg_inv ids msgs (tw r) -> reg_inv ids (msgs ++ rop_msgs ops) (tw (reg_run r ops)).
Proof.
  induction ops as [|o ops IH]; intros ids msgs r Hinv; cbn [reg_run].
  - cbn [rop_msgs]. rewrite app_nil_r. exact Hinv.
  - rewrite rop_msgs_cons, app_assoc. apply IH, reg_step_inv, Hinv.
Qed.

Lemma reg_run_wm : forall ids ops, r_wm (reg_run (reg_new ids) ops) = spec_composite ids (rop_msgs ops).
Proof. intros ids ops. exact (proj2 (reg_run_inv ops ids [] _ (reg_inv_new ids))). Qed.

Lemma reg_trace_spec_gen : forall ops ids msgs r i f w,
  reg_inv ids msgs (tw r) -> nth_error (reg_trace r ops) i = Some (f, w) ->
  w = spec_composite ids (msgs ++ rop_msgs (firstn (S i) ops)) /\ forall t k, In (t, k) f -> t <= w.
Proof.
  induction ops as [|o ops IH]; intros ids msgs r i f w Hinv H; cbn [reg_trace] in H; [destruct i; discriminate|].
  destruct (reg_step_inv ids msgs r o Hinv) as [Hinv' Hle]. destruct (reg_step r o) as [r' f']. cbn [fst snd] in *.
  destruct i as [|i]; cbn [nth_error] in H.
  - injection H as <- <-. split; [apply Hinv'|exact Hle].
  - cbn [firstn]. rewrite rop_msgs_cons, app_assoc. exact (IH ids _ r' i f w Hinv' H).
Qed.

Lemma set_timer_dropped : forall r k t, t <= r_wm r -> set_timer r k t = r.
Proof. intros r k t H. unfold set_timer. rewrite (proj2 (Z.ltb_ge _ _) H). reflexivity. Qed.

Lemma tins_in : forall x l, In x (tins x l).
Proof.
  intros [t k] l. unfold tins. destruct (existsb (timer_eqb (t, k)) l) eqn:E; [|apply In_insert_by; left; reflexivity].
  apply existsb_exists in E. destruct E as [[t' k'] [Hin He]]. unfold timer_eqb in He. cbn [fst snd] in He.
  apply andb_true_iff in He. destruct He as [H1 H2]. apply Z.eqb_eq in H1. apply N.eqb_eq in H2. subst. exact Hin.
Qed.

Lemma set_timer_stored : forall r k t,
  r_wm r < t -> In (swrap64 t, k) (r_timers (set_timer r k t)) /\ r_wm (set_timer r k t) = r_wm r.
Proof.
  intros r k t H. unfold set_timer. rewrite (proj2 (Z.ltb_lt _ _) H). split; [apply tins_in|reflexivity].
Qed.

Lemma apply_results_keeps : forall res r, tw (apply_results r res) = tw r.
Proof.
  intros res r. unfold apply_results. apply (fold_left_keeps _ tw). intros a kr _.
  apply (fold_left_keeps _ tw). intros b p _. apply set_timer_same.
Qed.

(* [P] holds of the timestamp of every expired timer among the events *)
Definition ht_ok (P : Z -> Prop) (evs : list hevent) : Prop := forall k t, In (HT k t) evs -> P t.

(* a handler call that was told watermark [w] and whose expired timers satisfy [P] *)
Definition call_ok (w : Z) (P : Z -> Prop) (c : call) : Prop := c_told c = pb_new w /\ ht_ok P (c_events c).

(* sub-steps of the operator that started with table and composite [x], end in [st'] and made [calls]: they kept [x], the
   pending batch is [ht_ok], and every call was told the composite of [x] *)
Definition sub_ok (P : Z -> Prop) (x : ups * Z) (st' : opst) (calls : list call) : Prop :=
  tw (o_reg st') = x /\ ht_ok P (o_batch st') /\ forall c, In c calls -> call_ok (snd x) P c.

Lemma sub_ok_nil : forall P st, ht_ok P (o_batch st) -> sub_ok P (tw (o_reg st)) st [].
Proof. intros P st Hb. split; [reflexivity|]. split; [exact Hb|intros c []]. Qed.

Lemma sub_ok_app : forall P x st1 st2 c1 c2,
  sub_ok P x st1 c1 -> sub_ok P (tw (o_reg st1)) st2 c2 -> sub_ok P x st2 (c1 ++ c2).
Proof.
  intros P x st1 st2 c1 c2 (E1 & _ & C1). rewrite E1. intros (E2 & B2 & C2).
  split; [exact E2|]. split; [exact B2|].
  intros c Hin. apply in_app_or in Hin. destruct Hin as [Hin|Hin]; [exact (C1 c Hin)|exact (C2 c Hin)].
Qed.

Lemma process_batch_ok : forall h st P, ht_ok P (o_batch st) ->
  sub_ok P (tw (o_reg st)) (fst (fst (process_batch h st))) (snd (fst (process_batch h st))).
Proof.
  intros h st P Hb. unfold process_batch.
  destruct (o_batch st) as [|e evs] eqn:E; [apply (sub_ok_nil P st); rewrite E; exact Hb|].
  assert (Hc : forall c, In c [{| c_told := pb_new (r_wm (o_reg st)); c_events := e :: evs |}] ->
                 call_ok (r_wm (o_reg st)) P c) by (intros c [<-|[]]; split; [reflexivity|exact Hb]).
  destruct (h (pb_new (r_wm (o_reg st))) (e :: evs)) as [res|]; cbn [fst snd].
  - split; [apply apply_results_keeps|]. split; [intros k t []|exact Hc].
  - split; [reflexivity|]. split; [intros k t []|exact Hc].
Qed.

Lemma add_event_ok : forall h m st e P, ht_ok P (o_batch st) -> match e with HT _ t => P t | _ => True end ->
  sub_ok P (tw (o_reg st)) (fst (fst (add_event h m st e))) (snd (fst (add_event h m st e))).
Proof.
  intros h m st e P Hb He. unfold add_event.
  assert (Hb1 : ht_ok P (o_batch st ++ [e])).
  { intros k t [Hin| ->]%in_snoc; [exact (Hb k t Hin)|exact He]. }
  destruct (Nat.leb m _); [|apply (sub_ok_nil P {| o_reg := o_reg st; o_batch := o_batch st ++ [e] |} Hb1)].
  exact (process_batch_ok h {| o_reg := o_reg st; o_batch := o_batch st ++ [e] |} P Hb1).
Qed.

Lemma fire_loop_ok : forall h m c P fuel st, ht_ok P (o_batch st) -> (forall t, t <= c -> P t) ->
  sub_ok P (tw (o_reg st)) (fst (fire_loop h m c fuel st)) (snd (fire_loop h m c fuel st)).
Proof.
  intros h m c P. induction fuel as [|fuel IH]; intros st Hb HP; cbn [fire_loop]; [apply sub_ok_nil, Hb|].
  destruct (r_timers (o_reg st)) as [|[t k] rest]; [apply sub_ok_nil, Hb|].
  destruct (Z.ltb_spec c t) as [_|Ec]; [apply sub_ok_nil, Hb|].
  set (st1 := {| o_reg := {| r_ups := r_ups (o_reg st); r_wm := r_wm (o_reg st); r_timers := rest |}; o_batch := o_batch st |}).
  pose proof (add_event_ok h m st1 (HT k t) P Hb (HP t Ec)) as H1.
  destruct (add_event h m st1 (HT k t)) as [[st2 calls] ok]. cbn [fst snd] in H1. destruct ok; [|exact H1].
  specialize (IH st2 (proj1 (proj2 H1)) HP). destruct (fire_loop h m c fuel st2) as [st3 calls'].
  exact (sub_ok_app P _ st2 st3 calls calls' H1 IH).
Qed.

(* the table after an incoming event does not depend on the handler *)
Definition reg_after (x : ups * Z) (o : oop) : ups * Z :=
  match o with OWm s p => note x s p | ODeploy ids => tw (reg_new ids) | _ => x end.

Lemma op_step_sub : forall h m st o P, ht_ok P (o_batch st) ->
  (forall s p t, o = OWm s p -> t <= r_wm (reg_note (o_reg st) s p) -> P t) ->
  sub_ok P (reg_after (tw (o_reg st)) o) (fst (op_step h m st o)) (snd (op_step h m st o)).
Proof.
  intros h m st o P Hb HP. destruct o as [s id key timers|s p|s|ids]; cbn [op_step reg_after].
  - apply add_event_ok; [exact Hb|exact I].
  - apply (fire_loop_ok h m _ P _ {| o_reg := reg_note (o_reg st) s p; o_batch := o_batch st |} Hb (fun t => HP s p t eq_refl)).
  - apply process_batch_ok, Hb.
  - apply (sub_ok_nil P {| o_reg := reg_new ids; o_batch := o_batch st |} Hb).
Qed.

Lemma op_step_table : forall h m st o, tw (o_reg (fst (op_step h m st o))) = reg_after (tw (o_reg st)) o.
Proof.
  (* the first component of sub_ok, at P := fun _ => True; the two arguments after P are [ht_ok P] of the batch and the
     premise about OWm, both trivial for this P *)
  intros h m st o. exact (proj1 (op_step_sub h m st o (fun _ => True) (fun _ _ _ => I) (fun _ _ _ _ _ => I))).
Qed.

(* the operator's table and composite after a history are those of the handler-free run of [reg_after] over it: a
   handler error in the middle of a watermark advance (or anywhere else) rolls nothing back, and neither the handler nor
   the batch size matters *)
Theorem table_after : forall (h : handler) m l st,
  tw (o_reg (fold_left (fun s o => fst (op_step h m s o)) l st)) = fold_left reg_after l (tw (o_reg st)).
Proof.
  intros h m l st. apply (fold_left_sim _ reg_after (fun st x => tw (o_reg st) = x)); [|reflexivity].
  intros st' x o <-. apply op_step_table.
Qed.

Theorem table_independent_of_handler : forall (h h' : handler) m m' l st st',
  tw (o_reg st) = tw (o_reg st') ->
  tw (o_reg (fold_left (fun s o => fst (op_step h m s o)) l st)) =
  tw (o_reg (fold_left (fun s o => fst (op_step h' m' s o)) l st')).
Proof. intros h h' m m' l st st' H. rewrite !table_after, H. reflexivity. Qed.

(* an expired timer is justified by a watermark message handled earlier (in this or an earlier deployment): it
   is not later than the composite that held right after that message *)
Definition fired_ok (ids0 : list N) (pre : list oop) (t : Z) : Prop :=
  exists a s p b, pre = a ++ OWm s p :: b /\ t <= spec_at ids0 (a ++ [OWm s p]).

Lemma ht_ok_app1 : forall ids0 pre o evs, ht_ok (fired_ok ids0 pre) evs -> ht_ok (fired_ok ids0 (pre ++ [o])) evs.
Proof.
  intros ids0 pre o evs H k t Hin. destruct (H k t Hin) as [a [s [p [b [-> Hle]]]]].
  exists a, s, p, (b ++ [o]). split; [rewrite <- app_assoc; reflexivity|exact Hle].
Qed.

Lemma drun_app1 : forall d pre o, drun d (pre ++ [o]) = dstep (drun d pre) o.
Proof. intros d pre o. unfold drun. rewrite fold_left_app. reflexivity. Qed.

Definition op_inv (ids0 : list N) (pre : list oop) (st : opst) : Prop :=
  reg_inv (fst (drun (ids0, []) pre)) (snd (drun (ids0, []) pre)) (tw (o_reg st)) /\
  ht_ok (fired_ok ids0 pre) (o_batch st).

Lemma op_inv_new : forall ids, op_inv ids [] (op_new ids).
Proof. intro ids. split; [apply reg_inv_new|intros ? ? []]. Qed.

Lemma reg_after_inv : forall d x o,
  reg_inv (fst d) (snd d) x -> reg_inv (fst (dstep d o)) (snd (dstep d o)) (reg_after x o).
Proof.
  intros d x o H. destruct o as [s id key timers|s p|s|ids]; cbn [dstep reg_after fst snd];
    [exact H|apply reg_inv_note, H|exact H|apply reg_inv_new].
Qed.

Lemma op_step_spec : forall h m ids0 pre st o,
  op_inv ids0 pre st ->
  op_inv ids0 (pre ++ [o]) (fst (op_step h m st o)) /\
  forall c, In c (snd (op_step h m st o)) ->
    call_ok (spec_at ids0 (pre ++ [o])) (fired_ok ids0 (pre ++ [o])) c.
Proof.
  intros h m ids0 pre st o [Hreg Hb]. apply (reg_after_inv _ _ o) in Hreg. rewrite <- drun_app1 in Hreg.
  assert (Hw : snd (reg_after (tw (o_reg st)) o) = spec_at ids0 (pre ++ [o])) by exact (proj2 Hreg).
  destruct (op_step_sub h m st o (fired_ok ids0 (pre ++ [o])) (ht_ok_app1 ids0 pre o _ Hb)) as (Hs & Hb' & Hc).
  - intros s p t -> Hle. exists pre, s, p, []. split; [reflexivity|]. rewrite <- Hw. exact Hle.
  - rewrite Hw in Hc. rewrite <- Hs in Hreg. split; [split; [exact Hreg|exact Hb']|exact Hc].
Qed.

Lemma op_trace_spec_gen : forall h m ops ids0 pre st i calls,
  op_inv ids0 pre st -> nth_error (op_trace h m st ops) i = Some calls ->
  forall c, In c calls ->
    call_ok (spec_at ids0 (pre ++ firstn (S i) ops)) (fired_ok ids0 (pre ++ firstn (S i) ops)) c.
Proof.
  intros h m. induction ops as [|o ops IH]; intros ids0 pre st i calls Hinv H; cbn [op_trace] in H; [destruct i; discriminate|].
  destruct (op_step_spec h m ids0 pre st o Hinv) as [Hinv' Hc]. destruct (op_step h m st o) as [st' calls'].
  destruct i as [|i]; cbn [nth_error firstn fst snd] in *.
  - injection H as <-. exact Hc.
  - specialize (IH ids0 (pre ++ [o]) st' i calls Hinv' H). rewrite <- app_assoc in IH. exact IH.
Qed.

Lemma oop_msgs_app : forall a b, oop_msgs (a ++ b) = oop_msgs a ++ oop_msgs b.
Proof.
  induction a as [|o a IH]; intro b; [reflexivity|].
  destruct o; cbn [app oop_msgs]; rewrite IH; reflexivity.
Qed.

Lemma drun_no_deploy : forall pre ids msgs,
  (forall ids', ~ In (ODeploy ids') pre) -> drun (ids, msgs) pre = (ids, msgs ++ oop_msgs pre).
Proof.
  unfold drun. induction pre as [|o pre IH]; intros ids msgs Hn; cbn [fold_left oop_msgs]; [rewrite app_nil_r; reflexivity|].
  assert (Hn' : forall ids', ~ In (ODeploy ids') pre) by (intros i Hi; exact (Hn i (or_intror Hi))).
  destruct o as [s id key timers|s p|s|ids']; cbn [dstep fst snd]; try exact (IH ids msgs Hn').
  - rewrite (IH _ _ Hn'), <- app_assoc. reflexivity.
  - destruct (Hn ids' (or_introl eq_refl)).
Qed.

(* without a redeploy the specification is the composite of the watermark messages of the history *)
Lemma spec_at_no_deploy : forall ids0 pre,
  (forall ids, ~ In (ODeploy ids) pre) -> spec_at ids0 pre = spec_composite ids0 (oop_msgs pre).
Proof. intros ids0 pre Hn. unfold spec_at. rewrite (drun_no_deploy pre ids0 [] Hn). reflexivity. Qed.

(* right after a (re)deploy, and until the deployment's first watermark message, it is the epoch *)
Lemma spec_at_after_deploy : forall ids0 pre ids post,
  (forall s p, ~ In (OWm s p) post) -> (forall ids', ~ In (ODeploy ids') post) ->
  spec_at ids0 (pre ++ ODeploy ids :: post) = epoch.
Proof.
  intros ids0 pre ids post Hw Hdp. unfold spec_at, drun. rewrite fold_left_app. cbn [fold_left dstep].
  rewrite (fold_left_keeps _ (fun d => d)); [apply spec_composite_nil|].
  intros d o Ho. destruct o as [s id key timers|s p|s|ids']; try reflexivity; [destruct (Hw s p Ho)|destruct (Hdp ids' Ho)].
Qed.
