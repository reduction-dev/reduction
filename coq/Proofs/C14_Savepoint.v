(* C14: a savepoint is closed (holds every file restoring its checkpoint reads) and restores the checkpointed files after
   the working storage is gone (savepoint_sound); creation and restore are one loop over sources and destinations
   (Section Xfer).  For the folding theorem of Props/C14.v: acknowledging commutes with erasing the savepoint marks
   (run_acks_erase); the two lemmas after it are used by no theorem.  The flag [true] of sp_create, sp_restore and
   list_files is by_id: the entry with the savepoint's own id, as the repository looks it up; [false] takes the last
   entry and is kept for the D25 witness. *)
From Coq Require Import List NArith Bool.
From RV Require Import Model.Savepoint.
Import ListNotations.
Open Scope N_scope.

Lemma bytes_eqb_eq : forall a b, bytes_eqb a b = true <-> a = b.
Proof.
  induction a as [|x a IH]; destruct b as [|y b]; cbn [bytes_eqb]; try (split; (discriminate || reflexivity)).
  rewrite andb_true_iff, N.eqb_eq, IH. split; [intros [-> ->]; reflexivity|intros E; inversion E; auto].
Qed.
Lemma uri_eqb_eq : forall a b, uri_eqb a b = true <-> a = b.
Proof.
  destruct a as [o n|i o n|i|i], b as [o' n'|i' o' n'|i'|i']; cbn [uri_eqb]; try (split; discriminate).
  - rewrite andb_true_iff, N.eqb_eq, bytes_eqb_eq. split; [intros [-> ->]|intros [= -> ->]]; auto.
  - rewrite !andb_true_iff, !N.eqb_eq, bytes_eqb_eq. split; [intros [[-> ->] ->]|intros [= -> -> ->]]; auto.
  - rewrite N.eqb_eq. split; [intros ->|intros [= ->]]; reflexivity.
  - rewrite N.eqb_eq. split; [intros ->|intros [= ->]]; reflexivity.
Qed.
Lemma uri_eqb_refl : forall a, uri_eqb a a = true.
Proof. intros. apply uri_eqb_eq. reflexivity. Qed.
Lemma uri_eqb_neq : forall a b, a <> b -> uri_eqb a b = false.
Proof. intros a b H. destruct (uri_eqb a b) eqn:E; [apply uri_eqb_eq in E; contradiction|reflexivity]. Qed.

Lemma read_write : forall fs u c u', fs_read (fs_write fs u c) u' = if uri_eqb u' u then Some c else fs_read fs u'.
Proof. reflexivity. Qed.

(* the uri lies in a savepoint directory: what wipe keeps *)
Definition is_save (u : uri) : bool := match u with USave _ _ _ | UJobSp _ => true | _ => false end.
Definition is_work (u : uri) : bool := match u with UWork _ _ => true | _ => false end.

Lemma wipe_read : forall fs u, fs_read (wipe fs) u = if is_save u then fs_read fs u else None.
Proof.
  (* wipe filters on the uri alone, so the first entry for u is kept or dropped with every other entry for u: by cases on
     whether the head entry is for u, and on the kind of uri *)
  induction fs as [|[u' c] fs IH]; intros u; cbn [wipe filter fs_read fst].
  - destruct (is_save u); reflexivity.
  - fold (wipe fs). destruct (uri_eqb u u') eqn:E.
    + apply uri_eqb_eq in E. subst u'. destruct u; cbn [is_save]; cbn [fs_read]; rewrite ?uri_eqb_refl; try reflexivity; apply IH.
    + destruct u'; cbn [fs_read]; rewrite ?E; apply IH.
Qed.

(* what ListFiles names for checkpoint cid, plus the checkpoints file itself, read through rd (a directory) *)
Definition refs (rd : bytes -> option content) (cid : N) : option (list bytes) :=
  match rd ck_name with
  | Some (FCkList l) => match list_files true l cid with Some files => Some (files ++ [ck_name]) | None => None end
  | _ => None
  end.
(* the checkpoints file is there, names checkpoint cid, and every file it names is there *)
Definition ready (rd : bytes -> option content) (cid : N) : Prop :=
  exists fl, refs rd cid = Some fl /\ forall f, In f fl -> rd f <> None.

Lemma refs_ck : forall rd cid fl, refs rd cid = Some fl -> In ck_name fl.
Proof.
  intros rd cid fl R. unfold refs in R. destruct (rd ck_name) as [[|l|]|]; try discriminate.
  destruct (list_files true l cid); [|discriminate]. injection R as <-. apply in_or_app; right; left; reflexivity.
Qed.

Lemma refs_ext : forall rd rd' cid, rd' ck_name = rd ck_name -> refs rd' cid = refs rd cid.
Proof. intros rd rd' cid H. unfold refs. rewrite H. reflexivity. Qed.

Lemma ready_ext : forall rd rd' cid, (forall f, rd' f = rd f) -> ready rd cid -> ready rd' cid.
Proof.
  intros rd rd' cid H (fl & R & P). exists fl. rewrite (refs_ext rd rd' cid (H _)). split; [exact R|].
  intros f Hf. rewrite H. apply P, Hf.
Qed.

(* moving the files of all operators: creation and restore are the same loop, with source and destination swapped *)
Section Xfer.
  Variables (src dst : N -> bytes -> uri).
  Hypothesis dst_inj : forall op f op' g, dst op f = dst op' g -> op = op' /\ f = g.
  Hypothesis src_not_dst : forall op f op' g, src op f <> dst op' g.


  (* every file is as it was, or is a destination and holds what its source held.  Sources are never written, so the
     relation is transitive, and a destination written twice holds the same contents both times: the loops may name a
     file, or an operator, any number of times. *)
  Definition moved (fs fs' : fsys) : Prop :=
    forall u, fs_read fs' u = fs_read fs u \/ exists op f, u = dst op f /\ fs_read fs' u = fs_read fs (src op f).

  Lemma moved_src : forall fs fs' op f, moved fs fs' -> fs_read fs' (src op f) = fs_read fs (src op f).
  Proof. intros fs fs' op f H. destruct (H (src op f)) as [E|(op' & g & E & _)]; [exact E|destruct (src_not_dst _ _ _ _ E)]. Qed.

  Lemma moved_trans : forall fs fs1 fs', moved fs fs1 -> moved fs1 fs' -> moved fs fs'.
  Proof.
    intros fs fs1 fs' H1 H2 u. destruct (H2 u) as [E|(op & f & E & R)]; [rewrite E; apply H1|].
    right. exists op, f. rewrite R. auto using moved_src.
  Qed.

  Lemma moved_dst : forall fs fs1 fs' op f, moved fs fs1 -> moved fs1 fs' ->
    fs_read fs1 (dst op f) = fs_read fs (src op f) -> fs_read fs' (dst op f) = fs_read fs (src op f).
  Proof.
    intros fs fs1 fs' op f H1 H2 Hd. destruct (H2 (dst op f)) as [E|(op' & g & E & R)]; [rewrite E; exact Hd|].
    apply dst_inj in E. destruct E as [<- <-]. rewrite R. apply moved_src, H1.
  Qed.

  Lemma copy_moved : forall op files fs fs', copy_all fs (map (fun f => (src op f, dst op f)) files) = Some fs' ->
    moved fs fs' /\ forall f, In f files -> fs_read fs' (dst op f) = fs_read fs (src op f).
  Proof.
    induction files as [|f files IH]; intros fs fs' H; cbn [map copy_all] in H.
    - injection H as <-. split; [left; reflexivity|intros f []].
    - unfold fs_copy in H. destruct (fs_read fs (src op f)) as [c|] eqn:Hs; [|discriminate].
      assert (H1 : moved fs (fs_write fs (dst op f) c)).
      { intros u. rewrite read_write. destruct (uri_eqb u (dst op f)) eqn:E; [|left; reflexivity].
        apply uri_eqb_eq in E. right. exists op, f. auto. }
      destruct (IH _ _ H) as [H2 Hcopied]. split; [exact (moved_trans _ _ _ H1 H2)|].
      intros g [<-|Hg]; [|rewrite (Hcopied g Hg); apply moved_src, H1].
      apply (moved_dst _ _ _ _ _ H1 H2). rewrite read_write, uri_eqb_refl. symmetry; exact Hs.
  Qed.

  (* the only way a copy fails: a source is missing (StorageLocation.Copy's ErrNotFound) *)
  Lemma copy_fails_iff : forall op files fs,
    copy_all fs (map (fun f => (src op f, dst op f)) files) = None <-> exists f, In f files /\ fs_read fs (src op f) = None.
  Proof.
    induction files as [|f files IH]; intros fs; cbn [map copy_all]; [split; [discriminate|intros (f & [] & _)]|].
    unfold fs_copy. destruct (fs_read fs (src op f)) as [c|] eqn:Hs; [|split; [exists f; auto using in_eq|reflexivity]].
    assert (E : forall g, fs_read (fs_write fs (dst op f) c) (src op g) = fs_read fs (src op g))
      by (intros g; rewrite read_write, uri_eqb_neq by apply src_not_dst; reflexivity).
    split.
    - intros H. apply IH in H. destruct H as (g & Hg & Hm). rewrite E in Hm. exists g. auto using in_cons.
    - intros (g & [<-|Hg] & Hm); [congruence|]. apply IH. exists g. rewrite E. auto.
  Qed.

  Fixpoint xfer (fs : fsys) (ops : list opckpt) : option fsys :=
    match ops with
    | [] => Some fs
    | (op, cid) :: rest =>
        match refs (fun f => fs_read fs (src op f)) cid with
        | Some files => match copy_all fs (map (fun f => (src op f, dst op f)) files) with Some fs' => xfer fs' rest | None => None end
        | None => None
        end
    end.

  Lemma xfer_spec : forall ops fs,
    (forall oc, In oc ops -> ready (fun f => fs_read fs (src (fst oc) f)) (snd oc)) ->
    exists fs', xfer fs ops = Some fs' /\ moved fs fs' /\
      forall oc files, In oc ops -> refs (fun f => fs_read fs (src (fst oc) f)) (snd oc) = Some files ->
        forall f, In f files -> fs_read fs' (dst (fst oc) f) = fs_read fs (src (fst oc) f).
  Proof.
    induction ops as [|[op cid] ops IH]; intros fs Hready; cbn [xfer].
    - exists fs. split; [reflexivity|]. split; [left; reflexivity|]. intros oc files [].
    - destruct (Hready (op, cid) (or_introl eq_refl)) as (files & Hrefs & Hfiles). cbn [fst snd] in *. rewrite Hrefs.
      destruct (copy_all fs _) as [fs1|] eqn:Hc1; [|apply copy_fails_iff in Hc1; destruct Hc1 as (f & Hf & E); destruct (Hfiles f Hf E)].
      destruct (copy_moved _ _ _ _ Hc1) as [Hm1 Hcopied].
      destruct (IH fs1) as (fs' & Hc & Hm2 & Hall).
      { intros oc Hoc. apply (ready_ext (fun f => fs_read fs (src (fst oc) f))); [intros f; apply moved_src, Hm1|]. apply Hready. right; exact Hoc. }
      exists fs'. split; [exact Hc|]. split; [exact (moved_trans _ _ _ Hm1 Hm2)|].
      intros oc files2 [<-|Hoc] Hrefs2 f Hf; cbn [fst snd] in *.
      + rewrite Hrefs in Hrefs2. injection Hrefs2 as <-.
        apply (moved_dst _ _ _ _ _ Hm1 Hm2), Hcopied, Hf.
      + rewrite <- (moved_src _ _ _ f Hm1). apply (Hall oc files2 Hoc); [|exact Hf].
        rewrite <- Hrefs2. apply refs_ext, moved_src, Hm1.
  Qed.

  Lemma xfer_missing : forall ops fs op cid files f,
    In (op, cid) ops -> refs (fun f => fs_read fs (src op f)) cid = Some files -> In f files -> fs_read fs (src op f) = None -> xfer fs ops = None.
  Proof.
    induction ops as [|[op2 cid2] ops IH]; intros fs op cid files f Hin Hrefs Hf Hmiss; [destruct Hin|]. cbn [xfer].
    destruct Hin as [Heq|Hin].
    - injection Heq as -> ->. rewrite Hrefs, (proj2 (copy_fails_iff op files fs)); eauto.
    - destruct (refs _ cid2) as [files2|]; [|reflexivity].
      destruct (copy_all fs _) as [fs1|] eqn:Hc; [|reflexivity].
      pose proof (proj1 (copy_moved _ _ _ _ Hc)) as Hm1.
      apply (IH fs1 op cid files f Hin); [|exact Hf|rewrite (moved_src _ _ _ _ Hm1); exact Hmiss].
      rewrite <- Hrefs. apply refs_ext, moved_src, Hm1.
  Qed.
End Xfer.

Lemma create_is_xfer : forall ops fs id, sp_create_ops true fs id ops = xfer UWork (USave id) fs ops.
Proof.
  induction ops as [|[op cid] ops IH]; intros fs id; cbn [sp_create_ops xfer]; [reflexivity|]. unfold refs.
  destruct (fs_read fs (UWork op ck_name)) as [[|l|]|]; try reflexivity.
  destruct (list_files true l cid); try reflexivity. destruct (copy_all fs _); [apply IH|reflexivity].
Qed.
Lemma restore_is_xfer : forall ops fs id, sp_restore_ops true fs id ops = xfer (USave id) UWork fs ops.
Proof.
  induction ops as [|[op cid] ops IH]; intros fs id; cbn [sp_restore_ops xfer]; [reflexivity|]. unfold refs.
  destruct (fs_read fs (USave id op ck_name)) as [[|l|]|]; try reflexivity.
  destruct (list_files true l cid); try reflexivity. destruct (copy_all fs _); [apply IH|reflexivity].
Qed.

Lemma USave_inj : forall id op f op' g, USave id op f = USave id op' g -> op = op' /\ f = g.
Proof. intros id op f op' g E. inversion E. auto. Qed.
Lemma UWork_inj : forall op f op' g, UWork op f = UWork op' g -> op = op' /\ f = g.
Proof. intros op f op' g E. inversion E. auto. Qed.
Lemma work_not_save : forall id op f op' g, UWork op f <> USave id op' g.
Proof. discriminate. Qed.
Lemma save_not_work : forall id op f op' g, USave id op f <> UWork op' g.
Proof. discriminate. Qed.

(* restoring checkpoint cid of operator op works: dkv_reads gives the files dkv.Open(handle{cid, <op>/checkpoints}) reads,
   as (name, content) *)
Definition reads_ok (fs : fsys) (oc : opckpt) : Prop := dkv_reads fs (fst oc) (snd oc) <> None.


Lemma dkv_reads_inv : forall fs op cid files, dkv_reads fs op cid = Some files ->
  refs (fun f => fs_read fs (UWork op f)) cid = Some (map fst files ++ [ck_name]) /\
  forall f c, In (f, c) files -> fs_read fs (UWork op f) = Some c.
Proof.
  intros fs op cid files H. unfold dkv_reads in H. unfold refs, list_files.
  destruct (fs_read fs (UWork op ck_name)) as [[|l|]|]; try discriminate.
  destruct (find (fun e => fst e =? cid) l) as [e|]; [|discriminate].
  enough (E : map fst files = snd e /\ forall f c, In (f, c) files -> fs_read fs (UWork op f) = Some c)
    by (destruct E as [<- E]; auto).
  revert files H. induction (snd e) as [|g fl IH]; intros files H; cbn [fold_right] in H.
  - injection H as <-. split; [reflexivity|intros f c []].
  - destruct (fs_read fs (UWork op g)) eqn:Hg; [|discriminate].
    destruct (fold_right _ _ fl) as [r|]; [|discriminate]. injection H as <-.
    destruct (IH r eq_refl) as [E P]. split; [cbn; rewrite E; reflexivity|].
    intros f c' [Heq|Hin]; [injection Heq as <- <-; exact Hg|apply P, Hin].
Qed.

Lemma reads_ready : forall fs oc, reads_ok fs oc -> ready (fun f => fs_read fs (UWork (fst oc) f)) (snd oc).
Proof.
  intros fs [op cid] H. unfold reads_ok in H. cbn [fst snd] in *.
  destruct (dkv_reads fs op cid) as [files|] eqn:Hr; [|contradiction]. destruct (dkv_reads_inv _ _ _ _ Hr) as [R P].
  exists (map fst files ++ [ck_name]). split; [exact R|].
  intros f Hf. cbn beta. apply in_app_or in Hf. destruct Hf as [Hf|[<-|[]]].
  - apply in_map_iff in Hf. destruct Hf as [[f' c] [<- Hin]]. cbn [fst]. rewrite (P _ _ Hin). discriminate.
  - unfold refs in R. destruct (fs_read fs (UWork op ck_name)); discriminate.
Qed.

Lemma dkv_reads_ext : forall fs fs' op cid fl, refs (fun f => fs_read fs (UWork op f)) cid = Some fl ->
  (forall f, In f fl -> fs_read fs' (UWork op f) = fs_read fs (UWork op f)) ->
  dkv_reads fs' op cid = dkv_reads fs op cid.
Proof.
  intros fs fs' op cid fl R Hsame. unfold dkv_reads. unfold refs, list_files in R.
  destruct (fs_read fs (UWork op ck_name)) as [[|l|]|] eqn:Hck; try discriminate.
  destruct (find (fun e => fst e =? cid) l) as [e|] eqn:Hfind; [|discriminate]. injection R as <-.
  rewrite (Hsame ck_name), Hck, Hfind by (apply in_or_app; right; left; reflexivity).
  assert (Hs : forall f, In f (snd e) -> fs_read fs' (UWork op f) = fs_read fs (UWork op f))
    by (intros f Hf; apply Hsame, in_or_app; left; exact Hf).
  clear Hsame Hfind. induction (snd e) as [|f fl IH]; cbn [fold_right]; [reflexivity|].
  rewrite (Hs f (or_introl eq_refl)), IH by (intros g Hg; apply Hs; right; exact Hg). reflexivity.
Qed.

(* [fs2] is the storage after anything that leaves the directory of savepoint [id] alone: later checkpoints, compactions,
   deletions, later savepoints; the restart then begins from [wipe fs2], with the working storage gone.  The id written
   inside the job file is not looked at ([sp_restore] matches [FJob _ ops]). *)
Theorem savepoint_sound : forall fs id id' ops,
  fs_read fs (UJobCk id) = Some (FJob id' ops) ->
  (forall oc, In oc ops -> reads_ok fs oc) ->
  exists fs1, sp_create true fs id ops = Some fs1 /\
    fs_read fs1 (UJobSp id) = Some (FJob id' ops) /\
    (forall oc, In oc ops ->
      fs_read fs1 (USave id (fst oc) ck_name) = fs_read fs (UWork (fst oc) ck_name) /\
      forall files, dkv_reads fs (fst oc) (snd oc) = Some files ->
        forall f c, In (f, c) files -> fs_read fs1 (USave id (fst oc) f) = Some c) /\
    forall fs2, fs_read fs2 (UJobSp id) = fs_read fs1 (UJobSp id) ->
      (forall op f, fs_read fs2 (USave id op f) = fs_read fs1 (USave id op f)) ->
      exists fs3, sp_restore true (wipe fs2) id = Some (fs3, ops) /\
        forall oc, In oc ops -> dkv_reads fs3 (fst oc) (snd oc) = dkv_reads fs (fst oc) (snd oc) /\ reads_ok fs3 oc.
Proof.
  intros fs id id' ops Hjob Hok.
  assert (Hready : forall oc, In oc ops -> ready (fun f => fs_read fs (UWork (fst oc) f)) (snd oc)) by (intros oc Hoc; apply reads_ready, Hok, Hoc).
  destruct (xfer_spec UWork (USave id) (USave_inj id) (work_not_save id) ops fs Hready) as (fs1 & Hx & Hm & Hcp).
  unfold sp_create. rewrite create_is_xfer, Hx. unfold fs_copy.
  destruct (Hm (UJobCk id)) as [->|(op & f & E & _)]; [|discriminate]. rewrite Hjob.
  eexists. split; [reflexivity|]. split; [rewrite read_write, uri_eqb_refl; reflexivity|]. split.
  - intros oc Hoc. destruct (Hready oc Hoc) as (fl & R & _). split.
    + apply (Hcp oc fl Hoc R), (refs_ck _ _ _ R).
    + intros files Hr f c Hin. destruct (dkv_reads_inv _ _ _ _ Hr) as [R' P]. rewrite <- (P f c Hin).
      apply (Hcp oc _ Hoc R'). apply in_or_app; left. apply (in_map fst _ _ Hin).
  - intros fs2 Hjob2 Hagree.
    unfold sp_restore. rewrite wipe_read, Hjob2, read_write, uri_eqb_refl. cbn [is_save].
    assert (Hsaved : forall oc fl, In oc ops -> refs (fun f => fs_read fs (UWork (fst oc) f)) (snd oc) = Some fl ->
              refs (fun f => fs_read (wipe fs2) (USave id (fst oc) f)) (snd oc) = Some fl /\
              forall f, In f fl -> fs_read (wipe fs2) (USave id (fst oc) f) = fs_read fs (UWork (fst oc) f)).
    { intros oc fl Hoc R.
      assert (E : forall f, In f fl -> fs_read (wipe fs2) (USave id (fst oc) f) = fs_read fs (UWork (fst oc) f))
        by (intros f Hf; rewrite wipe_read, <- (Hcp oc fl Hoc R f Hf); apply (Hagree (fst oc) f)).
      split; [|exact E]. rewrite <- R. apply refs_ext, E, (refs_ck _ _ _ R). }
    destruct (xfer_spec (USave id) UWork UWork_inj (save_not_work id) ops (wipe fs2)) as (fs3 & Hx3 & _ & Hcp3).
    { intros oc Hoc. destruct (Hready oc Hoc) as (fl & R & P). destruct (Hsaved oc fl Hoc R) as [R2 E].
      exists fl. split; [exact R2|]. intros f Hf. rewrite (E f Hf). apply P, Hf. }
    rewrite restore_is_xfer, Hx3. eexists. split; [reflexivity|].
    intros oc Hoc. destruct (Hready oc Hoc) as (fl & R & _). destruct (Hsaved oc fl Hoc R) as [R2 E].
    assert (Heq : dkv_reads fs3 (fst oc) (snd oc) = dkv_reads fs (fst oc) (snd oc)).
    { apply (dkv_reads_ext fs fs3 _ _ fl R). intros f Hf. rewrite (Hcp3 oc fl Hoc R2 f Hf). apply E, Hf. }
    split; [exact Heq|]. unfold reads_ok. rewrite Heq. apply Hok, Hoc.
Qed.

(* witness of Props/C14 (savepoint_instance, savepoint_closed_failed_before_fix): checkpoints 5 and 6 of operator 0 share
   table [10]; with by_id = false (last entry) the artifact of 5 lacks [1] *)
Definition d25_fs : fsys :=
  [(UWork 0 ck_name, FCkList [(5, [[1]; [10]]); (6, [[2]; [10]; [11]])]);
   (UWork 0 [1], FData 1); (UWork 0 [2], FData 2); (UWork 0 [10], FData 10); (UWork 0 [11], FData 11);
   (UJobCk 5, FJob 5 [(0, 5)])].

(* erase the savepoint marks: what the rest of the job can observe of the store *)
Definition erase_p (p : pending) : pending := mkP (p_id p) false (p_missing p) (p_acks p).
Definition erase (s : store) : store :=
  mkSt (st_counter s) (option_map erase_p (st_pending s)) (map (fun d => (fst (fst d), false, snd d)) (st_done s)).

Lemma add_ack_erase : forall s op cid,
  erase (fst (add_ack s op cid)) = fst (add_ack (erase s) op cid) /\ snd (add_ack s op cid) = snd (add_ack (erase s) op cid).
Proof.
  intros [c [p|] d] op cid; unfold add_ack, erase; cbn [st_pending st_counter st_done option_map erase_p p_id p_missing p_acks p_sp]; [|split; reflexivity].
  destruct ((p_id p =? cid) && existsb (N.eqb op) (p_missing p)); [|split; reflexivity].
  destruct (filter (fun o => negb (o =? op)) (p_missing p)); cbn [fst snd st_counter st_pending st_done option_map erase_p p_id p_missing p_acks p_sp].
  - rewrite map_app. split; reflexivity.
  - split; reflexivity.
Qed.

(* the store after a sequence of acknowledgements, with the answer to each *)
Fixpoint run_acks (s : store) (acks : list (N * N)) : store * list bool :=
  match acks with
  | [] => (s, [])
  | (op, cid) :: rest => let '(s1, ok) := add_ack s op cid in let '(s2, oks) := run_acks s1 rest in (s2, ok :: oks)
  end.

Lemma run_acks_erase : forall acks s,
  erase (fst (run_acks s acks)) = fst (run_acks (erase s) acks) /\ snd (run_acks s acks) = snd (run_acks (erase s) acks).
Proof.
  induction acks as [|[op cid] acks IH]; intros s; cbn [run_acks]; [auto|].
  destruct (add_ack_erase s op cid) as [E O]. destruct (add_ack s op cid) as [s1 ok], (add_ack (erase s) op cid) as [s1' ok'].
  cbn [fst snd] in *. subst s1' ok'. destruct (IH s1) as [E O].
  destruct (run_acks s1 acks), (run_acks (erase s1) acks). cbn [fst snd] in *. subst. auto.
Qed.

Lemma savepoint_fresh_lemma : forall s ops, st_pending s = None ->
  create_savepoint s ops = (mkSt (st_counter s + 1) (Some (mkP (st_counter s + 1) true ops [])) (st_done s), RId (st_counter s + 1) true).
Proof. intros [c pend d] ops H. cbn [st_pending] in H. subst. reflexivity. Qed.

(* the mark is read when the checkpoint completes: with one operator awaited, its acknowledgement records the checkpoint
   as a savepoint (that earlier acknowledgements keep the mark is not stated here) *)
Lemma folded_completes_as_savepoint : forall c d id missing acks op cid,
  missing = [op] -> id = cid ->
  st_done (fst (add_ack (mkSt c (Some (mkP id true missing acks)) d) op cid)) = d ++ [(id, true, acks ++ [(op, cid)])].
Proof.
  intros c d id missing acks op cid -> ->. unfold add_ack. cbn [st_pending p_id p_missing existsb].
  rewrite N.eqb_refl. cbn [andb orb filter]. rewrite N.eqb_refl. cbn [negb]. reflexivity.
Qed.
