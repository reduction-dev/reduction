(* C18: a compaction step on a valid layout, with level-0 tables arriving between Compact and the apply, changes no
   Get / ScanPrefix result and keeps the layout valid ([good_cs_preserves] for every good change set, [compact_preserves_proof]
   for those of Compact); so does one whole step of the compaction task, whether Compact returns nil, a change set, or fails
   ([compact_step_preserves_proof]). *)
From Coq Require Import List NArith Lia.
From RV Require Import Model.LsmBase Model.LsmCompaction Proofs.C18_Layout Proofs.C18_Apply Proofs.C18_Compact Proofs.C18_Reader.
Import ListNotations.
Open Scope N_scope.

(* The layouts the theorems of C18 speak of: the invariant; a base level beside level 0 (the target of a change set is a
   level >= 1); no empty table ([nonempty]): tables are told apart by their content, and the merge of a change
   set's input must hold an entry for the tables written to be non-empty. *)
Definition valid (ll : levels) : Prop :=
  LLInv ll /\ (2 <= length ll)%nat /\ (forall l t, In l ll -> In t l -> t <> []).

(* TargetTableSize >= 1: a buffer that has reached the target is not empty, so WriteRun cuts non-empty tables (with 0 the real
   loop spins; write_run_spec).  L0RunNumCompactionTrigger >= 1: a minor step with the cursor at 0 finds a table in level 0 to
   merge (compact_cases). *)
Definition good_cfg (cfg : ccfg) : Prop := 1 <= c_target cfg /\ 1 <= c_trigger cfg.

Theorem ll_scan_newest ll p : valid ll -> ll_scan p ll = without_deletes (tbl_scan p (view ll)).
Proof. intros (Hv & _ & _). unfold ll_scan. rewrite ll_scan_ok by exact Hv. reflexivity. Qed.

Theorem good_cs_preserves ll cs :
  valid ll -> good_cs ll cs ->
  let ll' := apply_cs cs ll in
  valid ll' /\ (forall k, ll_get k ll' = ll_get k ll) /\ (forall p, ll_scan p ll' = ll_scan p ll) /\
  view ll' = view ll /\ (forall e, ents ll' e -> ents ll e).
Proof.
  intros Hval Hg. pose proof Hval as (Hv & Hl & Hne). pose proof (apply_view _ _ Hv Hg) as Hview.
  assert (Hval' : valid (apply_cs cs ll)).
  { split; [apply apply_LLInv; assumption|]. split; [rewrite length_apply; exact Hl|exact (apply_nonempty _ _ (proj2 (g_add _ _ Hg)) Hne)]. }
  cbv zeta. split; [exact Hval'|]. split; [intros k; rewrite !ll_get_ok, Hview by (exact Hv || apply Hval'); reflexivity|].
  split; [intros p; rewrite !ll_scan_newest, Hview by assumption; reflexivity|]. split; [exact Hview|exact (ents_apply_sub _ _ Hg)].
Qed.

Lemma add_l0_length extra ll : length (add_l0 extra ll) = length ll.
Proof. destruct ll; reflexivity. Qed.

(* Compact sees the level list alone; the tables that arrive meanwhile are further level-0 components of a reader layout *)
Lemma step_good tsize cfg mcl ll extra cs mcl' :
  good_cfg cfg -> valid (add_l0 extra ll) -> compact tsize cfg mcl ll = (Some cs, mcl') -> good_cs (add_l0 extra ll) cs.
Proof.
  intros [H1 H2] (Hv & Hlen & Hne) Hc. rewrite add_l0_length in Hlen.
  assert (Hll : ll <> []) by (intros ->; cbn in Hlen; lia). rewrite add_l0_vlay in * by exact Hll.
  assert (Hne' : nonempty ll).
  { intros l t Hl Ht. destruct ll as [|l0 ll']; [congruence|]. destruct Hl as [<-|Hl].
    - apply (Hne (l0 ++ extra)); [left; reflexivity|apply in_or_app; left; exact Ht].
    - apply (Hne l); [right; exact Hl|exact Ht]. }
  apply good_cs_vlay; [exact Hv|exact Hne'|]. eapply compact_good; eauto. exact (LLInv_real _ _ Hv Hll).
Qed.

Theorem compact_preserves_proof tsize cfg mcl ll extra cs mcl' :
  good_cfg cfg -> valid (add_l0 extra ll) -> compact tsize cfg mcl ll = (Some cs, mcl') ->
  let ll1 := add_l0 extra ll in
  let ll2 := apply_cs cs ll1 in
  valid ll2 /\ (forall k, ll_get k ll2 = ll_get k ll1) /\ (forall p, ll_scan p ll2 = ll_scan p ll1) /\
  view ll2 = view ll1 /\ (forall e, ents ll2 e -> ents ll1 e).
Proof.
  intros Hcfg Hval Hc. exact (good_cs_preserves _ _ Hval (step_good tsize cfg mcl ll extra cs mcl' Hcfg Hval Hc)).
Qed.

Theorem compact_step_preserves_proof tsize cfg mcl ll extra failed :
  good_cfg cfg -> valid (add_l0 extra ll) ->
  let ll1 := add_l0 extra ll in
  let ll2 := fst (compact_step tsize failed cfg mcl ll extra) in
  valid ll2 /\ (forall k, ll_get k ll2 = ll_get k ll1) /\ (forall p, ll_scan p ll2 = ll_scan p ll1) /\ view ll2 = view ll1.
Proof.
  intros Hcfg Hval. cbv zeta. unfold compact_step. destruct (compact tsize cfg mcl ll) as [[cs|] m] eqn:Hc; cbn [fst].
  - (* a change set: installed unless the step failed *)
    destruct failed; [auto|]. destruct (compact_preserves_proof tsize cfg mcl ll extra cs m Hcfg Hval Hc) as (H1 & H2 & H3 & H4 & _). auto.
  - (* nil *) auto.
Qed.

Theorem failed_step_unchanged_proof tsize cfg mcl ll extra :
  fst (compact_step tsize true cfg mcl ll extra) = add_l0 extra ll.
Proof. unfold compact_step. destruct (compact tsize cfg mcl ll) as [[cs|] m]; reflexivity. Qed.
