(* C10: the TimerRegistry over the store.  The store with its DB is read as a set of timers ([tset]): GetEarliest, Put and
   Delete are minimum, insertion and removal on that set.  The loop of AdvanceWatermark is then the relation [fires] of
   Proofs/C10_SpecFacts.v on it, and the whole system refines the pending-set specification of Proofs/C10_Spec.v for every
   history. *)
From RV Require Import Base.Lists Base.Bytes Model.TimerStore Model.TimerRegistry.
From RV Require Import Proofs.C10_Sorted Proofs.C10_Queue Proofs.C10_Codec Proofs.C10_Store Proofs.C10_Spec Proofs.C10_SpecFacts.
From Coq Require Import ZifyN ZifyNat ZifyBool Permutation.
Open Scope N_scope.

Lemma NoDup_map_retract {A B} (f : A -> B) (g : B -> A) l :
  (forall x, In x l -> g (f x) = x) -> NoDup l -> NoDup (map f l).
Proof. intros H Hn. apply (NoDup_map_inv g). rewrite map_map, (map_ext_in _ (fun x => x)), map_id; assumption. Qed.

Lemma Forall2_imp {A B} (P Q : A -> B -> Prop) l1 l2 :
  (forall a b, P a b -> Q a b) -> Forall2 P l1 l2 -> Forall2 Q l1 l2.
Proof. intros H F. induction F; constructor; auto. Qed.

Lemma iff_or_absurd (P A B : Prop) : ~ A -> (P <-> P \/ A /\ B).
Proof. intros Hn. split; [intros H; left; exact H|]. intros [H|[H _]]; [exact H|destruct (Hn H)]. Qed.

(* [quirks_now]: the three switches of Model/TimerStore.v off; the lemmas of this file are about that setting alone *)
Local Notation Q := quirks_now.

Section Registry.
Variable kgf : bytes -> N.
Variables start size cache : N.
Variable srids : list N.
Hypothesis Hrange : start + size <= 65536.

Definition cfg : config :=
  {| cf_q := Q; cf_kgf := kgf; cf_start := start; cf_size := size; cf_cache := cache; cf_srids := srids |}.

Notation wf_entry := (wf_entry kgf start size).
Notation TimerKeys := (TimerKeys kgf start size).
Notation StInv := (StInv kgf start size).
Notation in_range := (in_range start size).

Definition enc (x : fired) : bytes := timer_key (kgf (fst x)) (snd x) (fst x).
Local Definition dec (b : bytes) : fired := (key_subject b, key_time b).
Definition fired_ok (x : fired) : Prop := t_in (snd x) /\ in_range (kgf (fst x)).

Lemma dec_enc x : fired_ok x -> dec (enc x) = x.
Proof. intros [Ht _]. unfold dec, enc. rewrite key_subject_timer, key_time_timer by exact Ht. destruct x; reflexivity. Qed.

Lemma enc_wf x : fired_ok x -> wf_entry (enc x).
Proof. intros [Ht Hr]. exists (fst x), (snd x). auto. Qed.

Lemma enc_dec b : wf_entry b -> enc (dec b) = b /\ fired_ok (dec b).
Proof.
  intros (key & t & -> & Ht & Hr). unfold enc, dec. cbn [fst snd].
  rewrite key_subject_timer, key_time_timer by exact Ht. split; [reflexivity|]. split; cbn [fst snd]; auto.
Qed.

Lemma key_time_enc x : fired_ok x -> key_time (enc x) = snd x.
Proof. intros [Ht _]. unfold enc. apply key_time_timer. exact Ht. Qed.

Lemma enc_inj x y : fired_ok x -> fired_ok y -> enc x = enc y -> x = y.
Proof. intros Hx Hy E. rewrite <- (dec_enc x Hx), <- (dec_enc y Hy), E. reflexivity. Qed.

(* the timers the DB holds; under [StInv] every entry of the DB is the encoding of one *)
Definition tset (d : db) (x : fired) : Prop := fired_ok x /\ In (enc x) d.

Lemma tset_dec d b : TimerKeys d -> In b d -> enc (dec b) = b /\ tset d (dec b).
Proof.
  intros [_ Hw] Hb. rewrite Forall_forall in Hw. destruct (enc_dec b (Hw b Hb)) as [E Hok].
  split; [exact E|]. split; [exact Hok|]. rewrite E. exact Hb.
Qed.

Lemma tset_peek d s o s' :
  StInv d s -> ts_peek Q d s = (o, s') ->
  StInv d s' /\
  match o with
  | None => forall y, ~ tset d y
  | Some b => enc (dec b) = b /\ tset d (dec b) /\ forall y, tset d y -> (snd (dec b) <= snd y)%Z
  end.
Proof.
  intros HS E. destruct (ts_peek_spec kgf start size Hrange d s o s' HS E) as (HS' & Ho). split; [exact HS'|].
  destruct o as [b|]; [|subst d; intros y [_ []]].
  destruct Ho as (Hb & Hmin). destruct (tset_dec d b (proj2 HS) Hb) as [Eb Hd]. split; [exact Eb|]. split; [exact Hd|].
  intros y [Hy Hin]. specialize (Hmin _ Hin). rewrite key_time_enc in Hmin by exact Hy. exact Hmin.
Qed.

Lemma tset_put d s x s' d' :
  StInv d s -> fired_ok x -> ts_push Q (enc x) d s = (s', d') ->
  StInv d' s' /\ forall y, tset d' y <-> y = x \/ tset d y.
Proof.
  intros HS Hx E. destruct (ts_push_spec kgf start size Hrange d s _ s' d' HS (enc_wf _ Hx) E) as (-> & HS').
  split; [exact HS'|]. intros y. unfold tset. rewrite In_sins. split.
  - intros (Hy & [Ey|H]); [left; apply enc_inj; assumption|right; auto].
  - intros [->|H]; [auto|tauto].
Qed.

Lemma tset_delete d s x s' d' :
  StInv d s -> fired_ok x -> ts_delete Q (enc x) d s = (s', d') ->
  StInv d' s' /\ forall y, tset d' y <-> tset d y /\ y <> x.
Proof.
  intros HS Hx E. destruct (ts_delete_spec kgf start size Hrange d s _ s' d' HS (enc_wf _ Hx) E) as (-> & HS').
  split; [exact HS'|]. intros y. unfold tset. rewrite (In_sdel _ d _ (proj1 (proj2 HS))). split.
  - intros (Hy & H & Hne). split; [auto|]. intros ->. auto.
  - intros ((Hy & H) & Hne). split; [exact Hy|]. split; [exact H|]. intros Ey. apply Hne, enc_inj; assumption.
Qed.

Lemma store_set_spec wm k t s d s' d' :
  StInv d s -> fired_ok (k, t) ->
  store_set Q kgf wm k t s d = (s', d') ->
  StInv d' s' /\ forall y, tset d' y <-> tset d y \/ ((wm < t)%Z /\ y = (k, t)).
Proof.
  intros HS Hok E. unfold store_set in E. destruct (Z.ltb_spec wm t) as [Ew|Ew]; cbn [negb] in E.
  - (* wm < t: registered *) destruct (tset_put d s (k, t) s' d' HS Hok E) as (HS' & M). split; [exact HS'|]. intros y. rewrite M. tauto.
  - (* t <= wm: ignored *) inversion E; subst. split; [exact HS|]. intros y. apply iff_or_absurd. lia.
Qed.

Definition dur_ok (e : nat * bytes * Z) : Prop := fired_ok (snd (fst e), snd e).

Lemma during_sets_spec wm n during s d s' d' :
  StInv d s -> Forall dur_ok during ->
  during_sets Q kgf wm (S n) during s d = (s', d') ->
  StInv d' s' /\ forall y, tset d' y <-> tset d y \/ sets during n (S n) wm y.
Proof.
  intros HS Hdur E. rewrite Forall_forall in Hdur.
  destruct (fold_left_adds
    (fun sd e => let '(a, k, t) := e in if Nat.eqb a (S n) then store_set Q kgf wm k t (fst sd) (snd sd) else sd)
    (fun sd => StInv (snd sd) (fst sd)) (fun sd => tset (snd sd)) (set_in n (S n) wm) during)
    with (s := (s, d)) as [HS' M].
  - intros [s1 d1] [[a k] t] Hin HS1. unfold set_in. cbn [fst snd]. destruct (Nat.eqb_spec a (S n)) as [->|Ha].
    + (* the call made after yield S n *) destruct (store_set Q kgf wm k t s1 d1) as [s2 d2] eqn:E2.
      destruct (store_set_spec _ _ _ _ _ _ _ HS1 (Hdur _ Hin) E2) as (HS2 & M2).
      split; [exact HS2|]. intros y. rewrite M2.
      split; (intros [H|H]; [left; exact H|right]); [split; [lia|exact H]|exact (proj2 H)].
    + (* a call made after another yield *) split; [exact HS1|]. intros y. apply iff_or_absurd. lia.
  - exact HS.
  - unfold during_sets in E. rewrite E in HS', M. auto.
Qed.

Lemma fire_fires fuel : forall cw n during s d acc out s' d',
  StInv d s -> Forall dur_ok during ->
  fire Q kgf fuel cw n during s d acc = (out, s', d') ->
  exists fo, out = rev acc ++ fo /\ fires cw during fuel n (tset d) fo (tset d') /\ StInv d' s'.
Proof.
  induction fuel as [|f IH]; intros cw n during s d acc out s' d' HS Hdur E; cbn [fire] in E.
  { inversion E; subst out s' d'. exists []. rewrite app_nil_r. split; [reflexivity|]. split; [constructor; lia|exact HS]. }
  destruct (ts_peek Q d s) as [o s1] eqn:Ep. destruct (tset_peek d s o s1 HS Ep) as (HS1 & Ho).
  destruct o as [b|]; [destruct Ho as (Eb & Hx & Hmin); destruct (Z.ltb_spec cw (key_time b)) as [Ec|Ec]|].
  - (* the earliest timer is not due: nothing is *)
    inversion E; subst out s' d'. exists []. rewrite app_nil_r. split; [reflexivity|]. split; [constructor|exact HS1].
    intros _ y Hy. specialize (Hmin _ Hy). cbn in Hmin. lia.
  - (* it is due: delete, yield, the consumer's SetTimers, next round *)
    rewrite <- Eb in E at 1. destruct (ts_delete Q (enc (dec b)) d s1) as [s2 d2] eqn:Ed.
    destruct (tset_delete d s1 _ s2 d2 HS1 (proj1 Hx) Ed) as (HS2 & M2).
    destruct (during_sets Q kgf cw (S n) during s2 d2) as [s3 d3] eqn:Eds.
    destruct (during_sets_spec cw n during _ _ _ _ HS2 Hdur Eds) as (HS3 & M3).
    destruct (IH cw (S n) during s3 d3 _ out s' d' HS3 Hdur E) as (fo & -> & F & HS').
    exists (dec b :: fo). split; [cbn [rev]; rewrite <- app_assoc; reflexivity|]. split; [|exact HS'].
    apply (fires_yield cw during f n _ (dec b) (tset d3)); auto. intros y. rewrite M3, M2. reflexivity.
  - (* no timer left *)
    inversion E; subst out s' d'. exists []. rewrite app_nil_r. split; [reflexivity|]. split; [constructor|exact HS1].
    intros _ y Hy. destruct (Ho y Hy).
Qed.

(* the registry with its DB against a state of the specification: store and DB in order, the same upstream table and
   watermark, and the pending list enumerates without repetition the timers the DB holds *)
Local Definition Rel (st : sys) (sp : spec) : Prop :=
  StInv (snd st) (r_store (fst st)) /\ r_ups (fst st) = sp_ups sp /\ r_wm (fst st) = sp_wm sp /\
  NoDup (sp_pending sp) /\ forall x, In x (sp_pending sp) <-> tset (snd st) x.

(* The guard of a history element in the theorems.  [C10_Spec.op_ok], the boolean guard of the computed witnesses and of
   Corr/Check_timers.v, asks for the timestamps in [0, 2^63) only; [op_okc] asks for that ([t_in]) and for the subject
   key's group to lie in the operator's range. *)
Definition op_okc (o : op) : Prop :=
  match o with
  | SetTimer k t => fired_ok (k, t)
  | AdvanceSet _ _ during => Forall dur_ok during
  | AdvancePartial _ _ _ during => Forall dur_ok during
  | _ => True
  end.

Lemma Rel_init : Rel (sys_new cfg []) (spec_new srids []).
Proof.
  split; [split; [apply SInv_new|apply TimerKeys_nil]|]. split; [reflexivity|]. split; [reflexivity|].
  split; [constructor|]. intros x. cbn. unfold tset. cbn. tauto.
Qed.

Lemma set_timer_rel st sp k t : Rel st sp -> fired_ok (k, t) -> Rel (set_timer Q kgf k t st) (sp_set k t sp).
Proof.
  destruct st as [r d]. intros (HS & Hu & Hw & Hn & Hm) Hx. cbn [fst snd] in *.
  unfold set_timer. destruct (store_set Q kgf (r_wm r) k t (r_store r) d) as [s' d'] eqn:E.
  destruct (store_set_spec _ _ _ _ _ _ _ HS Hx E) as (HS' & M).
  unfold sp_set. rewrite <- Hw. split; [exact HS'|]. cbn [fst snd r_ups r_wm].
  destruct (Z.ltb_spec (r_wm r) t) as [Ew|Ew]; (split; [exact Hu|]); (split; [auto|]); cbn [sp_pending].
  - (* r_wm r < t: registered *) split; [apply NoDup_sp_add, Hn|]. intros y. rewrite M, In_sp_add, Hm. tauto.
  - (* t <= r_wm r: ignored *) split; [exact Hn|]. intros y. rewrite M, Hm. apply iff_or_absurd. lia.
Qed.

Lemma restore_rel st sp : Rel st sp -> Rel (sys_new cfg (snd st)) (spec_new srids (sp_pending sp)).
Proof.
  intros ([_ HD] & _ & _ & HP). split; [split; [apply SInv_new|exact HD]|]. split; [reflexivity|]. split; [reflexivity|]. exact HP.
Qed.

Lemma tset_perm d P : TimerKeys d -> NoDup P -> (forall x, In x P <-> tset d x) -> Permutation d (map enc P).
Proof.
  intros HD Hn Hm. apply NoDup_Permutation.
  - apply ssorted_NoDup, HD.
  - apply (NoDup_map_retract enc dec); [|exact Hn]. intros x Hx. apply dec_enc, Hm, Hx.
  - intros b. rewrite in_map_iff. split.
    + intros Hb. destruct (tset_dec d b HD Hb) as [Eb Hd]. exists (dec b). split; [exact Eb|apply Hm, Hd].
    + intros (x & <- & Hx). apply Hm, Hx.
Qed.

(* An advance whose loop runs at most k rounds (the consumer stops after k items; a drained iterator has more rounds than
   the DB has entries): what was handed out satisfies [partial_ok] and exactly that left the pending set. *)
Lemma advance_refines stop sender wm during st sp out st' :
  Rel st sp -> Forall dur_ok during ->
  advance Q kgf stop sender wm during st = (out, st') ->
  let k := match stop with None => S (length (snd st) + length during) | Some k => k end in
  let due := fst (sp_advance_partial sender wm during out sp) in
  partial_ok k due out /\ (length due <= length (snd st))%nat /\
  Rel st' (snd (sp_advance_partial sender wm during out sp)).
Proof.
  destruct st as [r d]. intros (HS & Hu & Hw & Hn & Hm) Hdur E k. cbn [fst snd] in *.
  unfold advance in E. rewrite Hu in E. fold k in E.
  destruct (fire Q kgf k _ 0 during (r_store r) d []) as [[o s'] d'] eqn:Ef.
  inversion E; subst out st'. clear E.
  destruct (fire_fires _ _ _ _ _ _ _ _ _ _ HS Hdur Ef) as (fo & -> & F & HS'). cbn [rev app].
  destruct (fires_partial sender wm during k _ _ fo sp Hn Hm F) as (Hp & Hn' & Hm').
  split; [exact Hp|]. split; [|exact (conj HS' (conj eq_refl (conj eq_refl (conj Hn' Hm'))))].
  rewrite (Permutation_length (tset_perm d _ (proj2 HS) Hn Hm)), map_length.
  apply NoDup_incl_length; [apply NoDup_filter, Hn|apply incl_filter].
Qed.

Definition out_ok (out : list fired) (e : expect) : Prop :=
  match snd e with
  | None => Permutation out (fst e) /\ time_sorted out = true /\ NoDup out
  | Some k => partial_ok k (fst e) out
  end.

(* one advance of a history, drained ([stop = None]) or stopped, as [step] and [sp_step] run it; [outs2]: the outputs of
   the rest of the history *)
Lemma advance_step stop sender wm during st sp outs2 :
  Rel st sp -> Forall dur_ok during ->
  let res := let '(out, st') := advance Q kgf stop sender wm during st in ([out], st') in
  let e := let '(due, s') := match stop with
                             | None => sp_advance sender wm during sp
                             | Some _ => sp_advance_partial sender wm during (hd [] (fst res ++ outs2)) sp
                             end in ([(due, stop)], s') in
  Forall2 out_ok (fst res) (fst e) /\ Rel (snd res) (snd e) /\ tl (fst res ++ outs2) = outs2.
Proof.
  intros HR Hdur. destruct (advance Q kgf stop sender wm during st) as [out st'] eqn:E. cbn [fst snd app hd tl].
  destruct (advance_refines _ _ _ _ _ _ _ _ HR Hdur E) as (Hp & Hl & HR').
  destruct stop as [k|].
  - (* stopped *) destruct (sp_advance_partial sender wm during out sp) as [due s']. split; [constructor; [exact Hp|constructor]|split; [exact HR'|reflexivity]].
  - (* drained *) apply partial_ok_drained in Hp; [|lia]. pose proof (sp_advance_drained sender wm during out sp (proj1 Hp)) as Ed. rewrite Ed in Hp, HR'.
    destruct (sp_advance sender wm during sp) as [due s']. split; [constructor; [exact Hp|constructor]|split; [exact HR'|reflexivity]].
Qed.

(* the element type of the output lists is written [list fired], as in the text of [spec_run], so that the last equation
   rewrites there ([step] says [list (bytes * Z)]) *)
Lemma step_refines o st sp outs2 :
  Rel st sp -> op_okc o ->
  let res := step cfg o st in
  let e := sp_step srids o (if is_adv o then hd (A := list fired) [] (fst res ++ outs2) else []) sp in
  Forall2 out_ok (fst res) (fst e) /\ Rel (snd res) (snd e) /\
  (if is_adv o then tl (A := list fired) (fst res ++ outs2) else fst res ++ outs2) = outs2.
Proof.
  intros HR Ho. destruct o as [k t|sender wm|sender wm during|sender wm k during|].
  - (* SetTimer *) split; [constructor|]. split; [apply set_timer_rel; assumption|reflexivity].
  - (* Advance *) exact (advance_step None sender wm [] st sp outs2 HR (Forall_nil _)).
  - (* AdvanceSet *) exact (advance_step None sender wm during st sp outs2 HR Ho).
  - (* AdvancePartial *) exact (advance_step (Some k) sender wm during st sp outs2 HR Ho).
  - (* Restore *) split; [constructor|]. split; [apply restore_rel, HR|reflexivity].
Qed.

Theorem run_refines ops : forall st sp,
  Rel st sp -> Forall op_okc ops ->
  let res := run cfg ops st in
  Forall2 out_ok (fst res) (fst (spec_run srids ops (fst res) sp)) /\ Rel (snd res) (snd (spec_run srids ops (fst res) sp)).
Proof.
  induction ops as [|o r IH]; intros st sp HR Hok; cbn [run spec_run].
  - split; [constructor|exact HR].
  - inversion Hok as [|? ? Ho Hr]; subst.
    pose proof (fun outs2 => step_refines o st sp outs2 HR Ho) as Hs. cbn zeta in Hs.
    destruct (step cfg o st) as [out st1]. specialize (IH st1). destruct (run cfg r st1) as [outs2 st2].
    cbn [fst snd] in *. destruct (Hs outs2) as (H1 & HR1 & Et). rewrite Et.
    destruct (sp_step srids o _ sp) as [e s1]. destruct (IH s1 HR1 Hr) as [H2 HR2].
    destruct (spec_run srids r outs2 s1) as [es s2]. split; [apply Forall2_app; assumption|exact HR2].
Qed.

(* the invariant the property names, on every partition of a reachable state *)
Definition cache_inv (st : sys) : Prop :=
  forall i p, nth_error (ts_parts (r_store (fst st))) i = Some p ->
    (exists rest, db_scan (k_prefix p) (snd st) = c_items (k_cache p) ++ rest /\ (k_all p = true -> rest = [])) /\
    c_size (k_cache p) = sum_len (c_items (k_cache p)).

Theorem refinement ops :
  Forall op_okc ops ->
  let outs := fst (run cfg ops (sys_new cfg [])) in
  Forall2 out_ok outs (fst (spec_run srids ops outs (spec_new srids []))) /\
  Permutation (snd (snd (run cfg ops (sys_new cfg [])))) (map enc (sp_pending (snd (spec_run srids ops outs (spec_new srids []))))) /\
  cache_inv (snd (run cfg ops (sys_new cfg []))).
Proof.
  intros Hok. destruct (run_refines ops _ _ Rel_init Hok) as [H2 HR].
  split; [exact H2|split].
  - destruct HR as ([_ HD] & _ & _ & Hn & Hm). apply tset_perm; assumption.
  - destruct HR as ([(_ & _ & Hp) _] & _). intros i p Ei. destruct (Hp _ _ Ei) as (_ & HP & Hsz). split; [exact HP|exact Hsz].
Qed.

End Registry.
