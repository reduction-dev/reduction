(* C10: strictly sorted lists of byte strings: the facts about sins / sdel / smem / filter the timer store relies on. *)
From RV Require Import Base.KeySorted Model.TimerStore.
From Coq Require Import Permutation.
Open Scope N_scope.

Definition slt (a b : bytes) : Prop := bcmp a b = Lt.

Fixpoint ssorted (l : list bytes) : Prop :=
  match l with
  | [] => True
  | x :: r => Forall (slt x) r /\ ssorted r
  end.

Lemma slt_trans a b c : slt a b -> slt b c -> slt a c.
Proof. apply bcmp_lt_trans. Qed.

Lemma slt_irrefl a : ~ slt a a.
Proof. unfold slt. rewrite bcmp_refl. discriminate. Qed.

(* [sins], [sdel] and [filter] on these lists are [kput], [kdel] and [filter] of Base/KeySorted.v with the element as its
   own key (convertible), [ssorted] its [asc] with [Forall] for the bound on the tail *)
Lemma ssorted_asc l : ssorted l <-> asc (fun x => x) l.
Proof. induction l as [|x l IH]; cbn [ssorted asc]; [tauto|]. now rewrite Forall_forall, IH. Qed.

Lemma ssorted_app_inv l1 l2 : ssorted (l1 ++ l2) -> ssorted l1 /\ ssorted l2 /\ (forall a b, In a l1 -> In b l2 -> slt a b).
Proof. rewrite !ssorted_asc. apply (asc_app (fun x => x)). Qed.

Lemma ssorted_app l1 l2 : ssorted l1 -> ssorted l2 -> (forall a b, In a l1 -> In b l2 -> slt a b) -> ssorted (l1 ++ l2).
Proof. rewrite !ssorted_asc. intros S1 S2 C. apply (asc_app (fun x => x)). auto. Qed.

Lemma ssorted_NoDup l : ssorted l -> NoDup l.
Proof. rewrite ssorted_asc. apply asc_NoDup. Qed.

Lemma below_notin v y l : bcmp v y = Lt -> ssorted (y :: l) -> ~ In v (y :: l).
Proof.
  intros E [Hy _] [->|Hin].
  - rewrite bcmp_refl in E. discriminate.
  - rewrite Forall_forall in Hy. apply (slt_irrefl v), (slt_trans _ y); auto.
Qed.

Lemma In_sins v l x : In x (sins v l) <-> x = v \/ In x l.
Proof.
  split; [apply (kput_in (fun x => x))|]. intros [->|H]; [apply (kput_has (fun x => x))|].
  destruct (list_eq_dec N.eq_dec x v) as [->|Hne]; [apply (kput_has (fun x => x))|apply (kput_keeps (fun x => x)); assumption].
Qed.

Lemma sins_sorted v l : ssorted l -> ssorted (sins v l).
Proof. rewrite !ssorted_asc. apply kput_asc. Qed.

Lemma sins_present v l : ssorted l -> In v l -> sins v l = l.
Proof. rewrite ssorted_asc. apply (kput_present (fun x => x)). Qed.

Lemma smem_In v l : ssorted l -> (smem v l = true <-> In v l).
Proof.
  induction l as [|y l IH]; cbn [smem]; intros Hs.
  - split; [discriminate|contradiction].
  - destruct (bcmp v y) eqn:E.
    + (* v = y *) apply bcmp_eq in E. subst. cbn. intuition.
    + (* v < y: v is nowhere *) split; [discriminate|]. intros Hin. destruct (below_notin v y l E Hs Hin).
    + (* v > y *) rewrite IH by apply Hs. cbn. split; [auto|]. intros [->|Hin]; auto. rewrite bcmp_refl in E. discriminate.
Qed.

Lemma In_sdel v l x : ssorted l -> (In x (sdel v l) <-> In x l /\ x <> v).
Proof. rewrite ssorted_asc. apply (In_kdel (fun x => x)). Qed.

Lemma sdel_sorted v l : ssorted l -> ssorted (sdel v l).
Proof. rewrite !ssorted_asc. apply kdel_asc. Qed.

Lemma sdel_absent v l : ~ In v l -> sdel v l = l.
Proof. intros H. apply (kdel_absent (fun x => x)). now intros z Hz ->. Qed.

Lemma sdel_head v l : sdel v (v :: l) = l.
Proof. cbn. rewrite bcmp_refl. reflexivity. Qed.

Lemma filter_sorted P l : ssorted l -> ssorted (filter P l).
Proof. rewrite !ssorted_asc. apply asc_filter. Qed.

Lemma sdel_filtered P v l : P v = false -> sdel v (filter P l) = filter P l.
Proof. intros Pv. apply sdel_absent. rewrite filter_In. intros [_ H]. congruence. Qed.

Lemma filter_sins P v l : ssorted l -> filter P (sins v l) = if P v then sins v (filter P l) else filter P l.
Proof.
  intros Hs%ssorted_asc. etransitivity; [exact (filter_kput (fun x => x) P v l Hs)|]. destruct (P v) eqn:Pv; [reflexivity|apply sdel_filtered, Pv].
Qed.

Lemma filter_sdel P v l : ssorted l -> filter P (sdel v l) = if P v then sdel v (filter P l) else filter P l.
Proof.
  intros Hs%ssorted_asc. etransitivity; [exact (filter_kdel (fun x => x) P v l Hs)|]. destruct (P v) eqn:Pv; [reflexivity|apply sdel_filtered, Pv].
Qed.

Lemma sins_app_left v l1 l2 x :
  In x l1 -> bcmp v x <> Gt -> sins v (l1 ++ l2) = sins v l1 ++ l2.
Proof.
  induction l1 as [|y l1 IH]; cbn; intros Hin Hle; [contradiction|].
  destruct (bcmp v y) eqn:E; cbn; auto.
  f_equal. destruct Hin as [->|Hin]; [contradiction|]. apply IH; assumption.
Qed.

Lemma sins_app_right v l1 l2 :
  Forall (fun x => slt x v) l1 -> sins v (l1 ++ l2) = l1 ++ sins v l2.
Proof. rewrite Forall_forall. apply (kput_app_right (fun x => x)). Qed.

Lemma sins_last v l : Forall (fun x => slt x v) l -> sins v l = l ++ [v].
Proof. rewrite Forall_forall. apply (kput_last (fun x => x)). Qed.

Lemma sdel_app v l1 l2 :
  ssorted (l1 ++ l2) -> sdel v (l1 ++ l2) = if smem v l1 then sdel v l1 ++ l2 else l1 ++ sdel v l2.
Proof.
  induction l1 as [|y l1 IH]; cbn; intros Hs; auto.
  destruct (bcmp v y) eqn:E; cbn.
  - (* v = y *) reflexivity.
  - (* v < y: v is nowhere *)
    pose proof (below_notin v y _ E Hs) as Hn. rewrite sdel_absent; [reflexivity|]. cbn in Hn. rewrite in_app_iff in Hn. tauto.
  - (* v > y *) rewrite IH by apply Hs. destruct (smem v l1); reflexivity.
Qed.

Lemma removelast_last_sorted (l : list bytes) : l <> [] -> l = removelast l ++ [last l []].
Proof. intros H. apply app_removelast_last. exact H. Qed.
